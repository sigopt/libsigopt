(* The Gaussian integral  int_0^oo exp(-t^2) dt = sqrt(PI)/2  and its consequences for the standard normal
   distribution function Phi of Lib.RBase:  Phi(-z) = 1 - Phi z,  Phi -> 1 / 0 at +oo / -oo,  0 < Phi < 1.

   Route (no Fubini): with I x = int_0^x exp(-t^2) dt and J x = int_0^1 exp(-x^2 (1+s^2)) / (1+s^2) ds one has
   d/dx (I x)^2 = 2 I x exp(-x^2) and d/dx J x = -2 exp(-x^2) I x (differentiation under the integral sign, then the
   substitution u = x s), so I^2 + J is constant = J 0 = atan 1 = PI/4, and 0 <= J x <= exp(-x^2) -> 0.

   Last, the lower tail: the Mills-ratio bound Phi z <= pdf z / (- z) for z < 0, hence - pdf z <= z Phi z <= 0 and
   z Phi z -> 0 at -oo, together with pdf -> 0 at both ends; Proofs/AcqGauss.v builds on these.
   No axioms beyond those of the standard library's real numbers. *)
From Coq Require Import Reals Psatz.
From Coquelicot Require Import Coquelicot.
From LV Require Import Lib.RBase.
Open Scope R_scope.

Lemma is_derive_0_const (f : R -> R) : (forall x, is_derive f x 0) -> forall x y, f x = f y.
Proof.
  intros H.
  assert (L : forall a b, a < b -> f a = f b).
  { intros a b Hab. destruct (MVT_cor2 f (fun _ => 0) a b Hab) as (c & Heq & _).
    - intros x _. apply is_derive_Reals, H.
    - lra. }
  intros x y. destruct (Rtotal_order x y) as [Hxy|[->|Hxy]]; [apply L; exact Hxy|reflexivity|symmetry; apply L; exact Hxy].
Qed.

Definition gs (t : R) : R := exp (- t ^ 2).

Lemma gs_pos t : 0 < gs t.
Proof. apply exp_pos. Qed.
Lemma gs_le_1 t : gs t <= 1.
Proof. unfold gs. rewrite <- exp_0. apply exp_le. pose proof (pow2_ge_0 t). lra. Qed.
Lemma gs_cont t : continuous gs t.
Proof. apply (ex_derive_continuous gs t). unfold gs. auto_derive. exact I. Qed.
Lemma gs_ex_RInt a b : ex_RInt gs a b.
Proof. apply (@ex_RInt_continuous R_CompleteNormedModule). intros t _. apply gs_cont. Qed.

Definition Ig (x : R) : R := RInt gs 0 x.

Lemma Ig_deriv x : is_derive Ig x (gs x).
Proof.
  apply (is_derive_RInt gs Ig 0 x).
  - apply filter_forall. intros y. apply (@RInt_correct R_CompleteNormedModule), gs_ex_RInt.
  - apply gs_cont.
Qed.
Lemma Ig_0 : Ig 0 = 0.
Proof. unfold Ig. apply (@RInt_point R_CompleteNormedModule). Qed.
Lemma Ig_nonneg x : 0 <= x -> 0 <= Ig x.
Proof.
  intros Hx. unfold Ig. apply RInt_ge_0; [exact Hx|apply gs_ex_RInt|]. intros t _. left; apply gs_pos.
Qed.

Definition kf (x s : R) : R := exp (- x ^ 2 * (1 + s ^ 2)) / (1 + s ^ 2).
Definition dkf (x s : R) : R := - 2 * x * exp (- x ^ 2 * (1 + s ^ 2)).
Definition Jg (x : R) : R := RInt (kf x) 0 1.

Lemma one_s2_pos s : 0 < 1 + s ^ 2.
Proof. nra. Qed.

Lemma kf_deriv x s : is_derive (fun u => kf u s) x (dkf x s).
Proof.
  pose proof (one_s2_pos s). unfold kf, dkf. auto_derive; [exact I|].
  replace (- (x * (x * 1)) * (1 + s * (s * 1))) with (- x ^ 2 * (1 + s ^ 2)) by lra.
  field. lra.
Qed.
Lemma one_s2_cont s : continuous (fun s => 1 + s ^ 2) s.
Proof. apply (ex_derive_continuous (fun s => 1 + s ^ 2) s). auto_derive. exact I. Qed.
Lemma inv_one_s2_cont s : continuous (fun s => / (1 + s ^ 2)) s.
Proof. apply (continuous_Rinv_comp (fun s => 1 + s ^ 2)); [apply one_s2_cont|apply Rgt_not_eq, one_s2_pos]. Qed.
Lemma kf_cont x s : continuous (kf x) s.
Proof.
  apply (continuous_mult (fun s => exp (- x ^ 2 * (1 + s ^ 2))) (fun s => / (1 + s ^ 2)) s); [|apply inv_one_s2_cont].
  apply continuous_exp_comp, (continuous_mult (fun _ => - x ^ 2) (fun s => 1 + s ^ 2) s); [apply continuous_const|apply one_s2_cont].
Qed.
Lemma kf_ex_RInt x a b : ex_RInt (kf x) a b.
Proof. apply (@ex_RInt_continuous R_CompleteNormedModule). intros t _. apply kf_cont. Qed.

Lemma dkf_cont2 x s : continuity_2d_pt dkf x s.
Proof.
  unfold dkf.
  apply continuity_2d_pt_mult.
  - apply continuity_2d_pt_mult; [apply continuity_2d_pt_const|apply continuity_2d_pt_id1].
  - apply (continuity_1d_2d_pt_comp exp (fun u v => - u ^ 2 * (1 + v ^ 2))).
    + apply derivable_continuous_pt, derivable_pt_exp.
    + apply continuity_2d_pt_mult.
      * apply continuity_2d_pt_opp. simpl.
        apply continuity_2d_pt_mult; [apply continuity_2d_pt_id1|].
        apply continuity_2d_pt_mult; [apply continuity_2d_pt_id1|apply continuity_2d_pt_const].
      * apply continuity_2d_pt_plus; [apply continuity_2d_pt_const|]. simpl.
        apply continuity_2d_pt_mult; [apply continuity_2d_pt_id2|].
        apply continuity_2d_pt_mult; [apply continuity_2d_pt_id2|apply continuity_2d_pt_const].
Qed.

Lemma dkf_subst x s : dkf x s = (- 2 * exp (- x ^ 2)) * scal x (gs (x * s + 0)).
Proof.
  unfold dkf, gs.
  replace (- x ^ 2 * (1 + s ^ 2)) with (- x ^ 2 + - (x * s + 0) ^ 2) by lra.
  rewrite exp_plus. unfold scal; simpl. unfold mult; simpl. lra.
Qed.

Lemma Jg_deriv x : is_derive Jg x (- 2 * exp (- x ^ 2) * Ig x).
Proof.
  unfold Jg. evar_last.
  apply (is_derive_RInt_param kf 0 1 x).
  - apply filter_forall. intros y t _. eexists. apply kf_deriv.
  - intros t _. apply continuity_2d_pt_ext with dkf.
    + intros u v. symmetry. apply is_derive_unique, kf_deriv.
    + apply dkf_cont2.
  - apply filter_forall. intros y. apply kf_ex_RInt.
  - rewrite (RInt_ext _ (fun s => (- 2 * exp (- x ^ 2)) * scal x (gs (x * s + 0)))).
    2:{ intros s _. rewrite <- dkf_subst. apply is_derive_unique, kf_deriv. }
    assert (E : ex_RInt (fun s => scal x (gs (x * s + 0))) 0 1).
    { apply (@ex_RInt_comp_lin R_CompleteNormedModule). apply gs_ex_RInt. }
    change (RInt (fun s => scal (- 2 * exp (- x ^ 2)) (scal x (gs (x * s + 0)))) 0 1 = - 2 * exp (- x ^ 2) * Ig x).
    rewrite (RInt_scal (V := R_CompleteNormedModule)) by exact E.
    rewrite (RInt_comp_lin (V := R_CompleteNormedModule)) by apply gs_ex_RInt.
    unfold Ig, scal; simpl. unfold mult; simpl.
    rewrite Rmult_0_r, Rmult_1_r, !Rplus_0_r. reflexivity.
Qed.

Lemma Jg_0 : Jg 0 = PI / 4.
Proof.
  unfold Jg. rewrite (RInt_ext _ (fun s => / (1 + s ^ 2))).
  2:{ intros s _. unfold kf. replace (- 0 ^ 2 * (1 + s ^ 2)) with 0 by lra. rewrite exp_0. unfold Rdiv. apply Rmult_1_l. }
  apply is_RInt_unique. evar_last.
  apply (is_RInt_derive atan (fun s => / (1 + s ^ 2))).
  - intros s _. apply is_derive_Reals. apply derivable_pt_lim_atan.
  - intros s _. apply inv_one_s2_cont.
  - rewrite atan_1, atan_0. unfold minus, plus, opp; simpl. lra.
Qed.

Lemma Jg_bounds x : 0 <= Jg x <= exp (- x ^ 2).
Proof.
  unfold Jg. split.
  - apply RInt_ge_0; [lra|apply kf_ex_RInt|]. intros s _. unfold kf.
    left. apply Rdiv_lt_0_compat; [apply exp_pos|apply one_s2_pos].
  - replace (exp (- x ^ 2)) with (RInt (fun _ => exp (- x ^ 2)) 0 1).
    2:{ rewrite RInt_const. unfold scal; simpl. unfold mult; simpl. lra. }
    apply RInt_le; [lra|apply kf_ex_RInt|apply ex_RInt_const|].
    intros s _. unfold kf. pose proof (one_s2_pos s).
    apply Rle_trans with (exp (- x ^ 2 * (1 + s ^ 2))).
    + apply Rle_div_l; [lra|]. pose proof (exp_pos (- x ^ 2 * (1 + s ^ 2))). nra.
    + apply exp_le. pose proof (pow2_ge_0 x). nra.
Qed.

Theorem Ig_sq_plus_Jg x : Ig x ^ 2 + Jg x = PI / 4.
Proof.
  rewrite <- Jg_0.
  transitivity ((fun x => Ig x ^ 2 + Jg x) 0); [|simpl; rewrite Ig_0; lra].
  apply (is_derive_0_const (fun x => Ig x ^ 2 + Jg x)). clear x. intros x.
  evar_last.
  - exact (is_derive_Rplus _ Jg x _ _ (is_derive_pow Ig 2 x _ (Ig_deriv x)) (Jg_deriv x)).
  - unfold gs. simpl. lra.
Qed.

(* Changes of variable in a limit at infinity.  The two letters of a suffix say where the inner map sends what: `pp` takes +oo
   to +oo, `mm` -oo to -oo, `mp` -oo to +oo, `pm` +oo to -oo. *)
Lemma flim_lin_pp c d : 0 < c -> filterlim (fun x => c * x + d) (Rbar_locally' p_infty) (Rbar_locally' p_infty).
Proof.
  intros Hc P [M HM]. exists ((M - d) / c). intros x Hx. apply HM.
  apply Rlt_div_l in Hx; [|exact Hc]. lra.
Qed.
Lemma flim_lin_mm c d : 0 < c -> filterlim (fun x => c * x + d) (Rbar_locally' m_infty) (Rbar_locally' m_infty).
Proof.
  intros Hc P [M HM]. exists ((M - d) / c). intros x Hx. apply HM.
  apply Rlt_div_r in Hx; [|exact Hc]. lra.
Qed.
Lemma flim_opp_mp : filterlim Ropp (Rbar_locally' m_infty) (Rbar_locally' p_infty).
Proof. intros P [M HM]. exists (- M). intros x Hx. apply HM. lra. Qed.
Lemma flim_opp_pm : filterlim Ropp (Rbar_locally' p_infty) (Rbar_locally' m_infty).
Proof. intros P [M HM]. exists (- M). intros x Hx. apply HM. lra. Qed.

Lemma is_lim_lin_pp (f : R -> R) c d (l : Rbar) : 0 < c -> is_lim f p_infty l -> is_lim (fun x => f (c * x + d)) p_infty l.
Proof. intros Hc Hf. unfold is_lim. eapply filterlim_comp; [apply (flim_lin_pp c d Hc)|exact Hf]. Qed.
Lemma is_lim_lin_mm (f : R -> R) c d (l : Rbar) : 0 < c -> is_lim f m_infty l -> is_lim (fun x => f (c * x + d)) m_infty l.
Proof. intros Hc Hf. unfold is_lim. eapply filterlim_comp; [apply (flim_lin_mm c d Hc)|exact Hf]. Qed.
Lemma is_lim_opp_mp (f : R -> R) (l : Rbar) : is_lim f p_infty l -> is_lim (fun x => f (- x)) m_infty l.
Proof. intros Hf. unfold is_lim. eapply filterlim_comp; [apply flim_opp_mp|exact Hf]. Qed.
Lemma is_lim_opp_pm (f : R -> R) (l : Rbar) : is_lim f m_infty l -> is_lim (fun x => f (- x)) p_infty l.
Proof. intros Hf. unfold is_lim. eapply filterlim_comp; [apply flim_opp_pm|exact Hf]. Qed.

Lemma is_lim_0_bound (f g : R -> R) (x : Rbar) :
  Rbar_locally' x (fun y => Rabs (f y) <= g y) -> is_lim g x 0 -> is_lim f x 0.
Proof.
  intros Hb Hg. apply (is_lim_le_le_loc (fun y => - g y) g f x 0).
  - revert Hb. apply filter_imp. intros y Hy. split; [apply Rabs_le_between in Hy|apply Rabs_le_between in Hy]; lra.
  - replace (Finite 0) with (Rbar_opp 0) by (simpl; f_equal; ring). apply is_lim_opp. exact Hg.
  - exact Hg.
Qed.

Lemma is_lim_inv_p : is_lim (fun x => / x) p_infty 0.
Proof.
  change (Finite 0) with (Rbar_inv p_infty). apply (is_lim_inv (fun y => y) p_infty p_infty).
  apply is_lim_id. discriminate.
Qed.

Lemma exp_m_sq_le x : 0 < x -> exp (- x ^ 2) <= / x.
Proof.
  intros Hx. rewrite exp_Ropp. apply Rinv_le_contravar; [exact Hx|].
  pose proof (exp_ineq1 (x ^ 2)). assert (0 < x ^ 2) by nra. nra.
Qed.

Lemma is_lim_gs_p : is_lim gs p_infty 0.
Proof.
  apply (is_lim_0_bound gs (fun x => / x)); [|apply is_lim_inv_p].
  exists 0. intros x Hx. rewrite Rabs_pos_eq by (left; apply gs_pos). apply exp_m_sq_le, Hx.
Qed.

Lemma is_lim_Jg_p : is_lim Jg p_infty 0.
Proof.
  apply (is_lim_0_bound Jg gs); [|apply is_lim_gs_p].
  exists 0. intros x _. destruct (Jg_bounds x). rewrite Rabs_pos_eq by assumption. assumption.
Qed.

Lemma sqrt_PI_4 : sqrt (PI / 4) = sqrt PI / 2.
Proof.
  pose proof PI_RGT_0. pose proof (sqrt_pos PI).
  apply sqrt_lem_1; [lra|lra|].
  transitivity (sqrt PI * sqrt PI / 4); [lra|]. rewrite sqrt_sqrt; lra.
Qed.

Lemma Ig_lim : is_lim Ig p_infty (sqrt PI / 2).
Proof.
  apply (is_lim_ext_loc (fun x => sqrt (PI / 4 - Jg x))).
  - exists 0. intros x Hx. rewrite <- (Ig_sq_plus_Jg x).
    replace (Ig x ^ 2 + Jg x - Jg x) with (Ig x ^ 2) by lra.
    replace (Ig x ^ 2) with (Rsqr (Ig x)) by (unfold Rsqr; ring).
    apply sqrt_Rsqr, Ig_nonneg. lra.
  - rewrite <- sqrt_PI_4. unfold is_lim.
    eapply filterlim_comp with (G := locally (PI / 4)).
    + assert (L : is_lim (fun x => PI / 4 - Jg x) p_infty (PI / 4 - 0)).
      { apply (is_lim_minus' (fun _ => PI / 4) Jg p_infty (PI / 4) 0); [apply is_lim_const|apply is_lim_Jg_p]. }
      rewrite Rminus_0_r in L. exact L.
    + apply continuity_pt_filterlim. apply continuity_pt_sqrt. generalize PI_RGT_0; lra.
Qed.

Theorem gauss_integral_half : is_lim (fun x => RInt (fun t => exp (- t ^ 2)) 0 x) p_infty (sqrt PI / 2).
Proof. exact Ig_lim. Qed.

Lemma sqrtPI_pos : 0 < sqrt PI.
Proof. apply sqrt_lt_R0, PI_RGT_0. Qed.

Lemma pdf_as_gs t : pdf t = scal (/ sqrt PI) (scal (/ sqrt 2) (gs (/ sqrt 2 * t + 0))).
Proof.
  pose proof PI_RGT_0.
  assert (E : / sqrt 2 * / sqrt 2 = 1 / 2) by (rewrite <- Rinv_mult, sqrt_sqrt; lra).
  unfold pdf, gs. replace (- (/ sqrt 2 * t + 0) ^ 2) with (- (/ sqrt 2 * / sqrt 2) * t ^ 2) by lra.
  rewrite E, sqrt_mult by lra. unfold Rdiv. rewrite Rinv_mult. unfold scal; simpl. unfold mult; simpl. lra.
Qed.

Lemma RInt_pdf_Ig x : RInt pdf 0 x = / sqrt PI * Ig (/ sqrt 2 * x + 0).
Proof.
  rewrite (RInt_ext _ _ _ _ (fun t _ => pdf_as_gs t)).
  rewrite (RInt_scal (V := R_CompleteNormedModule)).
  2:{ apply (@ex_RInt_comp_lin R_CompleteNormedModule). apply gs_ex_RInt. }
  rewrite (RInt_comp_lin (V := R_CompleteNormedModule)) by apply gs_ex_RInt.
  unfold Ig. rewrite Rmult_0_r, Rplus_0_l. reflexivity.
Qed.

Theorem pdf_integral_half : is_lim (fun x => RInt pdf 0 x) p_infty (1 / 2).
Proof.
  pose proof Rlt_sqrt2_0. pose proof sqrtPI_pos.
  apply (is_lim_ext (fun x => / sqrt PI * Ig (/ sqrt 2 * x + 0))).
  { intros x. symmetry. apply RInt_pdf_Ig. }
  replace (Finite (1 / 2)) with (Rbar_mult (/ sqrt PI) (sqrt PI / 2)).
  2:{ simpl. f_equal. field. lra. }
  apply is_lim_scal_l. apply is_lim_lin_pp; [apply Rinv_0_lt_compat; lra|apply Ig_lim].
Qed.

Lemma pdf_even z : pdf (- z) = pdf z.
Proof. unfold pdf. f_equal. f_equal. lra. Qed.

Lemma pdf_ex_RInt a b : ex_RInt pdf a b.
Proof. apply (@ex_RInt_continuous R_CompleteNormedModule). intros t _. apply pdf_cont. Qed.

Lemma Phi_0 : Phi 0 = 1 / 2.
Proof. unfold Phi. rewrite (@RInt_point R_CompleteNormedModule). unfold zero; simpl. lra. Qed.

Theorem Phi_sym z : Phi (- z) = 1 - Phi z.
Proof.
  assert (E : (fun z => Phi (- z) + Phi z) z = (fun z => Phi (- z) + Phi z) 0).
  { apply (is_derive_0_const (fun z => Phi (- z) + Phi z)). clear z. intros z.
    evar_last.
    - apply is_derive_Rplus; [|apply Phi_deriv].
      apply (is_derive_Rcomp Phi Ropp z (pdf (- z)) (- 1)); [apply Phi_deriv|]. auto_derive; [exact I|lra].
    - rewrite pdf_even. lra. }
  simpl in E. rewrite Ropp_0, Phi_0 in E. lra.
Qed.

Theorem Phi_lim_p : is_lim Phi p_infty 1.
Proof.
  replace (Finite 1) with (Finite (1 / 2 + 1 / 2)) by (f_equal; lra).
  unfold Phi. apply (is_lim_plus' (fun _ => 1 / 2) (fun z => RInt pdf 0 z)); [apply is_lim_const|apply pdf_integral_half].
Qed.

Theorem Phi_lim_m : is_lim Phi m_infty 0.
Proof.
  apply (is_lim_ext (fun z => 1 - Phi (- z))).
  { intros z. rewrite Phi_sym. lra. }
  replace (Finite 0) with (Finite (1 - 1)) by (f_equal; ring).
  apply (is_lim_minus' (fun _ => 1) (fun z => Phi (- z))); [apply is_lim_const|].
  apply (is_lim_opp_mp Phi 1 Phi_lim_p).
Qed.

Lemma Phi_le_1 z : Phi z <= 1.
Proof.
  apply (is_lim_le_loc (fun _ => Phi z) Phi p_infty (Phi z) 1); [|apply is_lim_const|apply Phi_lim_p].
  exists z. intros y Hy. left. apply Phi_increasing, Hy.
Qed.

Theorem Phi_range : forall z, 0 < Phi z < 1.
Proof.
  assert (L : forall z, Phi z < 1).
  { intros z. apply Rlt_le_trans with (Phi (z + 1)); [apply Phi_increasing; lra|apply Phi_le_1]. }
  intros z. split; [|apply L]. specialize (L (- z)). rewrite Phi_sym in L. lra.
Qed.

Lemma RInt_pdf_Phi a b : RInt pdf a b = Phi b - Phi a.
Proof.
  unfold Phi. rewrite <- (RInt_Chasles pdf 0 a b) by apply pdf_ex_RInt.
  change (plus (RInt pdf 0 a) (RInt pdf a b)) with (RInt pdf 0 a + RInt pdf a b). lra.
Qed.

Lemma pdf_lim_p : is_lim pdf p_infty 0.
Proof.
  pose proof Rlt_sqrt2_0.
  apply (is_lim_ext (fun z => / sqrt PI * (/ sqrt 2 * gs (/ sqrt 2 * z + 0)))).
  { intros z. symmetry. apply pdf_as_gs. }
  replace (Finite 0) with (Rbar_mult (/ sqrt PI) (Rbar_mult (/ sqrt 2) 0)) by (simpl; f_equal; ring).
  apply is_lim_scal_l, is_lim_scal_l, is_lim_lin_pp; [apply Rinv_0_lt_compat; lra|apply is_lim_gs_p].
Qed.
Lemma pdf_lim_m : is_lim pdf m_infty 0.
Proof.
  apply (is_lim_ext (fun z => pdf (- z))); [intros z; apply pdf_even|]. apply (is_lim_opp_mp pdf 0 pdf_lim_p).
Qed.

(* Mills-ratio bound: pdf z / (- z) - Phi z increases on z < 0 and tends to 0 at -oo, so it is non-negative there *)
Definition mills_gap (z : R) : R := pdf z / (- z) - Phi z.

Lemma mills_gap_deriv z : z < 0 -> is_derive mills_gap z (pdf z / z ^ 2).
Proof.
  intros Hz. evar_last.
  - apply is_derive_Rminus; [|apply Phi_deriv].
    apply (is_derive_div pdf Ropp z (- z * pdf z) (- 1)); [apply pdf_deriv| |lra]. auto_derive; [exact I|lra].
  - field. lra.
Qed.

Lemma mills_gap_incr a z : a < z -> z < 0 -> mills_gap a < mills_gap z.
Proof.
  intros Haz Hz.
  destruct (MVT_cor2 mills_gap (fun c => pdf c / c ^ 2) a z Haz) as (c & Heq & Hc).
  { intros c Hc. apply is_derive_Reals, mills_gap_deriv. lra. }
  assert (0 < pdf c / c ^ 2). { apply Rdiv_lt_0_compat; [apply pdf_pos|nra]. }
  nra.
Qed.

Theorem Phi_mills z : z < 0 -> Phi z <= pdf z / (- z).
Proof.
  intros Hz. enough (H : - 0 <= mills_gap z) by (unfold mills_gap in H; lra).
  apply (is_lim_le_loc (fun a => - Phi a) (fun _ => mills_gap z) m_infty (- 0) (mills_gap z)).
  - exists z. intros a Ha. pose proof (mills_gap_incr a z Ha Hz) as L. unfold mills_gap at 1 in L.
    assert (0 < pdf a / (- a)). { apply Rdiv_lt_0_compat; [apply pdf_pos|lra]. }
    lra.
  - apply (is_lim_opp Phi m_infty 0 Phi_lim_m).
  - apply is_lim_const.
Qed.

Lemma zPhi_bounds z : z < 0 -> - pdf z <= z * Phi z <= 0.
Proof.
  intros Hz. pose proof (Phi_mills z Hz) as M. destruct (Phi_range z) as [P0 _].
  apply Rle_div_r in M; [|lra]. nra.
Qed.

Theorem zPhi_lim_m : is_lim (fun z => z * Phi z) m_infty 0.
Proof.
  apply (is_lim_0_bound (fun z => z * Phi z) pdf); [|apply pdf_lim_m].
  exists 0. intros z Hz. destruct (zPhi_bounds z Hz). apply Rabs_le. lra.
Qed.
