(* Algebraic (MathComp-only) lemmas about determinants used by the derivative of det / log det / matrix inverse:
   product-rule shape of the Leibniz formula, replacing one row, cofactor sums as traces.  Over any commutative ring / field. *)
From mathcomp Require Import ssreflect ssrbool eqtype ssrnat seq fintype bigop perm ssralg matrix.
Set Implicit Arguments. Unset Strict Implicit. Unset Printing Implicit Defensive.
Import GRing.Theory.
Local Open Scope ring_scope.

Section DProd.
Variable A : comRingType.
(* product rule over a list: with df i standing for the derivative of f i, dprod f df r is that of \prod_(i <- r) f i *)
Fixpoint dprod (I : Type) (f df : I -> A) (r : seq I) : A :=
  if r is i :: r' then df i * \prod_(j <- r') f j + f i * dprod f df r' else 0.
Lemma dprodE (I : eqType) (f df : I -> A) (r : seq I) :
  uniq r -> dprod f df r = \sum_(i <- r) df i * \prod_(j <- r | j != i) f j.
Proof.
  elim: r => [|a r IH] /=; first by rewrite big_nil.
  case/andP=> Ha Hu. rewrite big_cons big_cons eqxx /=. congr (_ * _ + _).
  - rewrite [RHS]big_seq_cond [LHS]big_seq; apply: eq_bigl => j.
    by case: eqP => [->|]; rewrite ?andbT // (negbTE Ha).
  - rewrite (IH Hu) big_distrr /= big_seq [RHS]big_seq. apply: eq_bigr => i Hi.
    have Hai : a != i by apply: contraNneq Ha => ->.
    by rewrite big_cons Hai mulrCA.
Qed.

Definition row_repl n (M N : 'M[A]_n) (i : 'I_n) : 'M[A]_n := \matrix_(k, j) if k == i then N k j else M k j.
Lemma cofactor_row_repl n (M N : 'M[A]_n) i j : cofactor (row_repl M N i) i j = cofactor M i j.
Proof.
  rewrite /cofactor; congr (_ * \det _). apply/matrixP => k l; rewrite !mxE.
  by rewrite eq_sym (negbTE (neq_lift i k)).
Qed.
Lemma det_row_repl_cofactor n (M N : 'M[A]_n) i : \det (row_repl M N i) = \sum_j N i j * cofactor M i j.
Proof.
  rewrite (expand_det_row _ i). apply: eq_bigr => j _. by rewrite cofactor_row_repl mxE eqxx.
Qed.
Lemma det_row_repl_leibniz n (M N : 'M[A]_n) i :
  \det (row_repl M N i) = \sum_(s : 'S_n) (-1) ^+ s * (N i (s i) * \prod_(k | k != i) M k (s k)).
Proof.
  rewrite /determinant. apply: eq_bigr => s _. congr (_ * _). rewrite (bigD1 i) //= mxE eqxx. congr (_ * _).
  by apply: eq_bigr => k Hk; rewrite mxE (negbTE Hk).
Qed.
(* derivative of the Leibniz formula, purely algebraic part *)
Lemma leibniz_dprod n (M N : 'M[A]_n) :
  \sum_(s : 'S_n) (-1) ^+ s * dprod (fun i => M i (s i)) (fun i => N i (s i)) (index_enum _)
  = \sum_i \sum_j N i j * cofactor M i j.
Proof.
  transitivity (\sum_i \det (row_repl M N i)); last by apply: eq_bigr => i _; rewrite det_row_repl_cofactor.
  under [RHS]eq_bigr => i _ do rewrite det_row_repl_leibniz.
  rewrite exchange_big /=. apply: eq_bigr => s _. by rewrite dprodE ?index_enum_uniq // big_distrr.
Qed.
Lemma cofactor_sum_trace n (M N : 'M[A]_n) : \sum_i \sum_j N i j * cofactor M i j = \tr (\adj M *m N).
Proof.
  rewrite /mxtrace exchange_big /=. apply: eq_bigr => j _. rewrite mxE. apply: eq_bigr => i _. by rewrite mxE mulrC.
Qed.
End DProd.
Lemma adj_unit (F : fieldType) n (M : 'M[F]_n) : \det M != 0 -> \adj M = \det M *: invmx M.
Proof.
  move=> H. have U : M \in unitmx by rewrite unitmxE unitfE.
  by rewrite /invmx U scalerA divff // scale1r.
Qed.
