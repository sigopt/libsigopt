(* What the generated definitions (coq/Gen) are written in, with the lemmas their proofs share: finite sums and products over an
   index range, the rules of differentiation read at R with two facts about a differentiable function near a point, and the
   standard normal density and distribution function with the derivative and monotonicity of the latter (its limits and range
   need the Gaussian integral: Lib/Gauss.v). *)
From Coq Require Import Reals Psatz.
From Coquelicot Require Import Coquelicot.
Open Scope R_scope.

Fixpoint bigsum (n : nat) (f : nat -> R) : R :=
  match n with O => 0 | S m => bigsum m f + f m end.
Fixpoint bigprod (n : nat) (f : nat -> R) : R :=
  match n with O => 1 | S m => bigprod m f * f m end.
(* numpy.amax over an axis of positive length *)
Fixpoint bigmax (n : nat) (f : nat -> R) : R :=
  match n with O => 0 | S O => f O | S m => Rmax (bigmax m f) (f m) end.

(* Coquelicot states the derivative of a constant and the sum, product and chain rules in the operations of its algebraic
   hierarchy, which `ring` and `field` do not recognise; over R they read as follows. *)
Lemma is_derive_Rconst (c x : R) : is_derive (fun _ => c) x 0.
Proof. exact (is_derive_const c x). Qed.
Lemma is_derive_Rplus (f g : R -> R) x df dg :
  is_derive f x df -> is_derive g x dg -> is_derive (fun x => f x + g x) x (df + dg).
Proof. exact (is_derive_plus f g x df dg). Qed.
Lemma is_derive_Rminus (f g : R -> R) x df dg :
  is_derive f x df -> is_derive g x dg -> is_derive (fun x => f x - g x) x (df - dg).
Proof. exact (is_derive_minus f g x df dg). Qed.
Lemma is_derive_Rmult (f g : R -> R) x df dg :
  is_derive f x df -> is_derive g x dg -> is_derive (fun x => f x * g x) x (df * g x + f x * dg).
Proof. intros Hf Hg. exact (is_derive_mult f g x df dg Hf Hg Rmult_comm). Qed.
Lemma is_derive_Rcomp (f g : R -> R) x df dg :
  is_derive f (g x) df -> is_derive g x dg -> is_derive (fun x => f (g x)) x (dg * df).
Proof. exact (is_derive_comp f g x df dg). Qed.

(* standard normal density and distribution function (scipy.stats.norm.pdf / cdf) *)
Definition pdf (z : R) : R := exp (-(1/2) * z ^ 2) / sqrt (2 * PI).
Definition Phi (z : R) : R := 1/2 + RInt pdf 0 z.

Lemma sqrt2pi_pos : 0 < sqrt (2 * PI).
Proof. apply sqrt_lt_R0. generalize PI_RGT_0; lra. Qed.
Lemma sqrt2pi_neq : sqrt (2 * PI) <> 0.
Proof. apply Rgt_not_eq, sqrt2pi_pos. Qed.

Lemma pdf_pos z : 0 < pdf z.
Proof. unfold pdf. apply Rdiv_lt_0_compat; [apply exp_pos|apply sqrt2pi_pos]. Qed.

Lemma pdf_cont z : continuous pdf z.
Proof. apply (ex_derive_continuous pdf z). unfold pdf. auto_derive. exact I. Qed.

Lemma pdf_deriv z : is_derive pdf z (- z * pdf z).
Proof.
  pose proof sqrt2pi_neq. unfold pdf. auto_derive; [exact I|].
  replace (- (1 / 2) * (z * (z * 1))) with (- (1 / 2) * z ^ 2) by lra.
  field. auto.
Qed.

Lemma Phi_deriv z : is_derive Phi z (pdf z).
Proof.
  unfold Phi. evar_last.
  - apply is_derive_Rplus; [apply is_derive_Rconst|]. apply (is_derive_RInt pdf (fun x => RInt pdf 0 x) 0 z).
    + apply filter_forall. intros x. apply (@RInt_correct R_CompleteNormedModule).
      apply (@ex_RInt_continuous R_CompleteNormedModule). intros t _. apply pdf_cont.
    + apply pdf_cont.
  - lra.
Qed.

Lemma Phi_increasing a b : a < b -> Phi a < Phi b.
Proof.
  intros Hab. destruct (MVT_cor2 Phi pdf a b Hab) as (c & Heq & Hc).
  { intros x _. apply is_derive_Reals, Phi_deriv. }
  pose proof (pdf_pos c). nra.
Qed.

Lemma is_derive_sq_bound (f : R -> R) (t0 C : R) :
  (forall t, Rabs (f t - f t0) <= C * (t - t0) ^ 2) -> is_derive f t0 0.
Proof.
  intros H. apply is_derive_Reals.
  assert (HC : 0 <= C).
  { specialize (H (t0 + 1)). replace (t0 + 1 - t0) with 1 in H by lra.
    generalize (Rabs_pos (f (t0+1) - f t0)). lra. }
  intros eps Heps.
  assert (Hd : 0 < eps / (C + 1)) by (apply Rdiv_lt_0_compat; lra).
  exists (mkposreal _ Hd). intros h Hh Hlt. simpl in Hlt.
  rewrite Rminus_0_r. unfold Rdiv. rewrite Rabs_mult, Rabs_Rinv by exact Hh.
  specialize (H (t0 + h)). replace (t0 + h - t0) with h in H by lra.
  assert (Hp : 0 < Rabs h) by (apply Rabs_pos_lt; exact Hh).
  apply Rmult_lt_reg_r with (Rabs h); [exact Hp|].
  rewrite Rmult_assoc, Rinv_l, Rmult_1_r by lra.
  assert (h ^ 2 = Rabs h * Rabs h). { rewrite <- Rabs_mult. rewrite Rabs_pos_eq; [lra|nra]. }
  assert (Rabs h * (C + 1) < eps). { apply Rlt_div_r in Hlt; lra. }
  rewrite H0 in H. nra.
Qed.

(* A differentiable function stays on the same side of a bound near a point: a clamp max(c, .) or min(., c) that is
   inactive at a point is inactive nearby. *)
Lemma derive_locally_gt (g : R -> R) t dg c : is_derive g t dg -> c < g t -> locally t (fun u => c < g u).
Proof. intros Hg Hc. exact (ex_derive_continuous g t (ex_intro _ dg Hg) (fun y => c < y) (open_gt c _ Hc)). Qed.
Lemma derive_locally_lt (g : R -> R) t dg c : is_derive g t dg -> g t < c -> locally t (fun u => g u < c).
Proof. intros Hg Hc. exact (ex_derive_continuous g t (ex_intro _ dg Hg) (fun y => y < c) (open_lt c _ Hc)). Qed.

Lemma exp_le x y : x <= y -> exp x <= exp y.
Proof. intros [H| ->]; [left; apply exp_increasing, H|apply Rle_refl]. Qed.

Lemma bigsum_ext n f g : (forall k, (k < n)%nat -> f k = g k) -> bigsum n f = bigsum n g.
Proof. induction n as [|n IH]; intros H; simpl; [reflexivity|]. rewrite IH, H by (intros; try apply H; lia). reflexivity. Qed.
Lemma bigsum_plus n f g : bigsum n (fun k => f k + g k) = bigsum n f + bigsum n g.
Proof. induction n as [|n IH]; simpl; [lra|rewrite IH; lra]. Qed.
Lemma bigsum_scal n c f : bigsum n (fun k => c * f k) = c * bigsum n f.
Proof. induction n as [|n IH]; simpl; [lra|rewrite IH; lra]. Qed.
Lemma bigsum_nonneg n f : (forall k, (k < n)%nat -> 0 <= f k) -> 0 <= bigsum n f.
Proof. induction n as [|n IH]; intros H; simpl; [lra|]. assert (0 <= f n) by (apply H; lia). assert (0 <= bigsum n f) by (apply IH; intros; apply H; lia). lra. Qed.
Lemma bigsum_split n f k0 : (k0 < n)%nat ->
  bigsum n f = f k0 + bigsum n (fun k => if Nat.eqb k k0 then 0 else f k).
Proof.
  induction n as [|n IH]; intros Hk; [lia|]. simpl.
  destruct (Nat.eq_dec k0 n) as [->|Hne].
  - rewrite Nat.eqb_refl. assert (E : bigsum n (fun k => if Nat.eqb k n then 0 else f k) = bigsum n f).
    { apply bigsum_ext. intros k Hkn. destruct (Nat.eqb_spec k n); [lia|reflexivity]. }
    rewrite E. lra.
  - rewrite IH by lia. destruct (Nat.eqb_spec n k0); [congruence|]. lra.
Qed.
Lemma bigsum_swap n m (f : nat -> nat -> R) :
  bigsum n (fun j => bigsum m (fun l => f j l)) = bigsum m (fun l => bigsum n (fun j => f j l)).
Proof.
  induction n as [|n IH]; simpl.
  - induction m as [|m IHm]; simpl; [reflexivity|rewrite <- IHm; lra].
  - rewrite IH. rewrite <- bigsum_plus. reflexivity.
Qed.
Lemma is_derive_bigsum n (f : nat -> R -> R) (df : nat -> R) t :
  (forall j, (j < n)%nat -> is_derive (f j) t (df j)) ->
  is_derive (fun t => bigsum n (fun j => f j t)) t (bigsum n df).
Proof.
  induction n as [|n IH]; intros H; simpl.
  - apply is_derive_Rconst.
  - apply (is_derive_Rplus (fun t => bigsum n (fun j => f j t)) (f n) t); [apply IH; intros|]; apply H; lia.
Qed.

Lemma bigprod_range n f : (forall q, (q < n)%nat -> 0 <= f q <= 1) -> 0 <= bigprod n f <= 1.
Proof.
  induction n as [|n IH]; intros H; simpl; [lra|].
  assert (0 <= bigprod n f <= 1) by (apply IH; intros; apply H; lia). assert (0 <= f n <= 1) by (apply H; lia). nra.
Qed.
Lemma bigprod_except_ge n q f : (n <= q)%nat -> bigprod n (fun q2 => if Nat.eqb q2 q then 1 else f q2) = bigprod n f.
Proof.
  induction n as [|n IH]; intros H; simpl; [reflexivity|]. rewrite IH by lia.
  destruct (Nat.eqb_spec n q); [lia|reflexivity].
Qed.
