(* Differentiation of matrix-valued functions of one real variable (Coquelicot's is_derive, MathComp matrices over R):
   finite sums and products of differentiable functions (bigop), entrywise matrix calculus (mx_derive), the derivative of the
   determinant (Leibniz formula -> cofactors -> adjugate), JACOBI's formula d log det M = tr(M^-1 dM), and the derivative of
   the inverse d(M^-1) = - M^-1 dM M^-1.  No hypotheses beyond entrywise differentiability and det <> 0 (resp. 0 < det). *)
From Coq Require Import Reals.
From Coquelicot Require Import Coquelicot.
From mathcomp Require Import ssreflect ssrbool eqtype seq fintype bigop perm ssralg matrix.
From LV Require Import Lib.RStruct Lib.MxDet.
Set Implicit Arguments. Unset Strict Implicit. Unset Printing Implicit Defensive.
Import GRing.Theory.
Local Open Scope ring_scope.

(* Coquelicot's rules restated at R with the MathComp operations, so that apply: has no structure to infer; then finite sums and products *)
Section Scalar.
Implicit Types (f g : R -> R) (x : R).
Lemma is_deriveD f g x df dg : is_derive f x df -> is_derive g x dg -> is_derive (fun t => f t + g t) x (df + dg).
Proof. exact: (@is_derive_plus R_AbsRing R_NormedModule). Qed.
Lemma is_deriveN f x df : is_derive f x df -> is_derive (fun t => - f t) x (- df).
Proof. exact: (@is_derive_opp R_AbsRing R_NormedModule). Qed.
Lemma is_deriveB f g x df dg : is_derive f x df -> is_derive g x dg -> is_derive (fun t => f t - g t) x (df - dg).
Proof. by move=> Hf Hg; apply: is_deriveD => //; apply: is_deriveN. Qed.
Lemma is_deriveM f g x df dg : is_derive f x df -> is_derive g x dg -> is_derive (fun t => f t * g t) x (df * g x + f x * dg).
Proof. move=> Hf Hg; exact (@is_derive_mult R_AbsRing f g x df dg Hf Hg Rmult_comm). Qed.
Lemma is_derive_cst (c : R) x : is_derive (fun _ => c) x 0.
Proof. exact: (@is_derive_const R_AbsRing R_NormedModule). Qed.
Lemma is_deriveZ (c : R) f x df : is_derive f x df -> is_derive (fun t => c * f t) x (c * df).
Proof. move=> Hf; exact (is_derive_scal f x c df Hf). Qed.
Lemma is_derive_eq f g x l : (forall t, f t = g t) -> is_derive f x l -> is_derive g x l.
Proof. exact: (@is_derive_ext R_AbsRing R_NormedModule). Qed.
Lemma is_derive_eq_loc f g x l : locally x (fun t => f t = g t) -> is_derive f x l -> is_derive g x l.
Proof. exact: (@is_derive_ext_loc R_AbsRing R_NormedModule). Qed.
Lemma is_derive_val f x l l' : l = l' -> is_derive f x l -> is_derive f x l'.
Proof. by move=> ->. Qed.
Lemma is_derive_uniq f x l l' : is_derive f x l -> is_derive f x l' -> l = l'.
Proof. by move=> /is_derive_unique <- /is_derive_unique <-. Qed.
Lemma is_derive_plus_cst f (c : R) x df : is_derive f x df -> is_derive (fun t => f t + c) x df.
Proof. move=> H. exact: is_derive_val (Rplus_0_r df) (is_deriveD H (is_derive_cst c x)). Qed.

Lemma is_derive_sum (I : Type) (r : seq I) (f : I -> R -> R) (df : I -> R) x :
  (forall i, is_derive (f i) x (df i)) ->
  is_derive (fun t => \sum_(i <- r) f i t) x (\sum_(i <- r) df i).
Proof.
  move=> H; elim: r => [|i r IH].
  - rewrite big_nil. apply: (@is_derive_eq (fun _ => 0)); last exact: is_derive_cst. by move=> t; rewrite big_nil.
  - rewrite big_cons. apply: (@is_derive_eq (fun t => f i t + \sum_(j <- r) f j t)); first by move=> t; rewrite big_cons.
    exact: is_deriveD.
Qed.

Lemma is_derive_prod_seq (I : Type) (r : seq I) (f : I -> R -> R) (df : I -> R) x :
  (forall i, is_derive (f i) x (df i)) ->
  is_derive (fun t => \prod_(i <- r) f i t) x (dprod (fun i => f i x) df r).
Proof.
  move=> H; elim: r => [|i r IH] /=.
  - apply: (@is_derive_eq (fun _ => 1)); last exact: is_derive_cst. by move=> t; rewrite big_nil.
  - apply: (@is_derive_eq (fun t => f i t * \prod_(j <- r) f j t)); first by move=> t; rewrite big_cons.
    exact: is_deriveM.
Qed.
End Scalar.

Definition mx_derive m n (A : R -> 'M[R]_(m,n)) (x : R) (dA : 'M[R]_(m,n)) : Prop :=
  forall i j, is_derive (fun t => A t i j) x (dA i j).

Lemma locally_imp (x : R) (P Q : R -> Prop) : (forall t, P t -> Q t) -> locally x P -> locally x Q.
Proof. exact: filter_imp. Qed.

Section MxCalc.
Variables (x : R).
Lemma mx_derive_val m n (A : R -> 'M[R]_(m,n)) dA dA' : dA = dA' -> mx_derive A x dA -> mx_derive A x dA'.
Proof. by move=> ->. Qed.
Lemma mx_derive_cst m n (A : 'M[R]_(m,n)) : mx_derive (fun _ => A) x 0.
Proof. by move=> i j; rewrite mxE; apply: is_derive_cst. Qed.
Lemma mx_deriveD m n (A B : R -> 'M[R]_(m,n)) dA dB :
  mx_derive A x dA -> mx_derive B x dB -> mx_derive (fun t => A t + B t) x (dA + dB).
Proof.
  move=> HA HB i j; rewrite mxE. apply: (@is_derive_eq (fun t => A t i j + B t i j)); first by move=> t; rewrite mxE.
  exact: is_deriveD.
Qed.
Lemma mx_deriveN m n (A : R -> 'M[R]_(m,n)) dA : mx_derive A x dA -> mx_derive (fun t => - A t) x (- dA).
Proof.
  move=> HA i j; rewrite mxE. apply: (@is_derive_eq (fun t => - A t i j)); first by move=> t; rewrite mxE.
  exact: is_deriveN.
Qed.
Lemma mx_deriveB m n (A B : R -> 'M[R]_(m,n)) dA dB :
  mx_derive A x dA -> mx_derive B x dB -> mx_derive (fun t => A t - B t) x (dA - dB).
Proof. by move=> HA HB; apply: mx_deriveD => //; apply: mx_deriveN. Qed.
Lemma mx_deriveM m n p (A : R -> 'M[R]_(m,n)) (B : R -> 'M[R]_(n,p)) dA dB :
  mx_derive A x dA -> mx_derive B x dB -> mx_derive (fun t => A t *m B t) x (dA *m B x + A x *m dB).
Proof.
  move=> HA HB i k. apply: (@is_derive_eq (fun t => \sum_j A t i j * B t j k)); first by move=> t; rewrite mxE.
  rewrite mxE !mxE -big_split /=. apply: is_derive_sum => j. exact: is_deriveM.
Qed.
Lemma mx_deriveMl m n p (A : 'M[R]_(m,n)) (B : R -> 'M[R]_(n,p)) dB :
  mx_derive B x dB -> mx_derive (fun t => A *m B t) x (A *m dB).
Proof. move=> HB. apply: mx_derive_val (mx_deriveM (mx_derive_cst A) HB). by rewrite mul0mx add0r. Qed.
Lemma mx_deriveMr m n p (A : R -> 'M[R]_(m,n)) (B : 'M[R]_(n,p)) dA :
  mx_derive A x dA -> mx_derive (fun t => A t *m B) x (dA *m B).
Proof. move=> HA. apply: mx_derive_val (mx_deriveM HA (mx_derive_cst B)). by rewrite mulmx0 addr0. Qed.
Lemma mx_derive_tr m n (A : R -> 'M[R]_(m,n)) dA : mx_derive A x dA -> mx_derive (fun t => (A t)^T) x dA^T.
Proof. move=> HA i j; rewrite mxE. apply: (@is_derive_eq (fun t => A t j i)) => // t. by rewrite mxE. Qed.
Lemma mx_derive_scalar n (f : R -> R) (df : R) : is_derive f x df -> mx_derive (fun t => (f t)%:M : 'M_n) x df%:M.
Proof.
  move=> Hf i j. apply: (@is_derive_eq (fun t => if i == j then f t else 0)); first by move=> t; rewrite mxE; case: (i == j).
  rewrite mxE. case: (i == j); [exact: Hf | exact: is_derive_cst].
Qed.
Lemma mx_derive_eq_loc m n (A B : R -> 'M[R]_(m,n)) dA :
  locally x (fun t => A t = B t) -> mx_derive A x dA -> mx_derive B x dA.
Proof.
  move=> H HA i j. apply: (@is_derive_eq_loc (fun t => A t i j)) => //.
  by apply: locally_imp H => t ->.
Qed.
Lemma mx_derive_uniq m n (A : R -> 'M[R]_(m,n)) dA dA' : mx_derive A x dA -> mx_derive A x dA' -> dA = dA'.
Proof. move=> H H'. apply/matrixP => i j. exact: (is_derive_uniq (H i j) (H' i j)). Qed.
End MxCalc.

Section Det.
Variables (n : nat) (M : R -> 'M[R]_n) (x : R) (dM : 'M[R]_n).
Hypothesis HM : mx_derive M x dM.

(* derivative of the determinant: sum of entry derivatives times cofactors = tr(adj M * dM) *)
Lemma det_derive_cofactor : is_derive (fun t => \det (M t)) x (\sum_i \sum_j dM i j * cofactor (M x) i j).
Proof.
  rewrite -leibniz_dprod /determinant. apply: is_derive_sum => s. apply: is_deriveZ.
  exact: (is_derive_prod_seq (index_enum _) (f := fun i t => M t i (s i)) (df := fun i => dM i (s i))).
Qed.
Lemma det_derive_adj : is_derive (fun t => \det (M t)) x (\tr (\adj (M x) *m dM)).
Proof. rewrite -cofactor_sum_trace. exact: det_derive_cofactor. Qed.
Lemma det_derive : \det (M x) != 0 -> is_derive (fun t => \det (M t)) x (\det (M x) * \tr (invmx (M x) *m dM)).
Proof. move=> H. rewrite -mxtraceZ scalemxAl -adj_unit //. exact: det_derive_adj. Qed.

Theorem jacobi_logdet : Rlt 0 (\det (M x)) -> is_derive (fun t => ln (\det (M t))) x (\tr (invmx (M x) *m dM)).
Proof.
  move=> Hpos. have Hne := Rgt0_neq0 Hpos.
  have H := is_derive_comp ln (fun t => \det (M t)) x _ _ (is_derive_ln _ Hpos) (det_derive Hne).
  apply: is_derive_val H. rewrite /scal /= /mult /= -RmulE mulrAC -RinvE; last exact/RneqP.
  by rewrite divff // mul1r.
Qed.
End Det.

Lemma locally_neq0 (f : R -> R) x df : is_derive f x df -> f x != 0 -> locally x (fun t => f t != 0).
Proof.
  move=> Hf /RneqP Hne.
  have C : continuous f x by apply: (@ex_derive_continuous R_AbsRing R_NormedModule); exists df.
  have := C _ (open_neq 0 (f x) Hne). apply: locally_imp => t Ht. exact/RneqP.
Qed.
Lemma ex_derive_invr (f : R -> R) x df : is_derive f x df -> f x != 0 -> exists l, is_derive (fun t => (f t)^-1) x l.
Proof.
  move=> Hf Hne. exists (- df / (f x) ^ 2)%Re.
  apply: (@is_derive_eq_loc (fun t => / f t)%Re); last by apply: is_derive_inv => //; apply/RneqP.
  apply: locally_imp (locally_neq0 Hf Hne) => t /RneqP Ht. by rewrite RinvE.
Qed.

Section Inverse.
Variables (n : nat) (M : R -> 'M[R]_n) (x : R) (dM : 'M[R]_n).
Hypothesis HM : mx_derive M x dM.
Hypothesis MU : M x \in unitmx.
Let Hdet : \det (M x) != 0. Proof. by rewrite -unitfE -unitmxE. Qed.

Lemma locally_unitmx : locally x (fun t => M t \in unitmx).
Proof.
  apply: locally_imp (locally_neq0 (det_derive_adj HM) Hdet) => t Ht. by rewrite unitmxE unitfE.
Qed.
Lemma ex_mx_derive_adj : exists dA, mx_derive (fun t => \adj (M t)) x dA.
Proof.
  exists (\matrix_(i, j) ((-1) ^+ (j + i) * \tr (\adj (row' j (col' i (M x))) *m row' j (col' i dM)))) => i j.
  rewrite mxE. apply: (@is_derive_eq (fun t => (-1) ^+ (j + i) * \det (row' j (col' i (M t))))).
    by move=> t; rewrite mxE.
  apply: is_deriveZ. apply: (@det_derive_adj _ (fun t => row' j (col' i (M t)))) => k l.
  rewrite !mxE. apply: (@is_derive_eq (fun t => M t (lift j k) (lift i l))) => // t. by rewrite !mxE.
Qed.
Lemma ex_mx_derive_inv : exists dN, mx_derive (fun t => invmx (M t)) x dN.
Proof.
  have [dA HA] := ex_mx_derive_adj. have [di Hi] := ex_derive_invr (det_derive_adj HM) Hdet.
  exists (\matrix_(i, j) (di * \adj (M x) i j + (\det (M x))^-1 * dA i j)).
  apply: (@mx_derive_eq_loc _ _ _ (fun t => (\det (M t))^-1 *: \adj (M t))).
    apply: locally_imp locally_unitmx => t Ht. by rewrite /invmx Ht.
  move=> i j. rewrite mxE. apply: (@is_derive_eq (fun t => (\det (M t))^-1 * \adj (M t) i j)).
    by move=> t; rewrite [RHS]mxE.
  exact: (is_deriveM Hi (HA i j)).
Qed.
Theorem mx_derive_inv : mx_derive (fun t => invmx (M t)) x (- (invmx (M x) *m dM *m invmx (M x))).
Proof.
  have [dN HN] := ex_mx_derive_inv.
  have H1 := mx_deriveM HM HN.
  have H0 : mx_derive (fun t => M t *m invmx (M t)) x 0.
    apply: (@mx_derive_eq_loc _ _ _ (fun _ => 1%:M)); last exact: mx_derive_cst.
    apply: locally_imp locally_unitmx => t Ht. by rewrite mulmxV.
  have E := mx_derive_uniq H1 H0.
  suff -> : - (invmx (M x) *m dM *m invmx (M x)) = dN by [].
  have E2 : M x *m dN = - (dM *m invmx (M x)) by apply/eqP; rewrite -addr_eq0 addrC; apply/eqP.
  by rewrite -[dN](mulKmx MU) E2 mulmxN mulmxA.
Qed.
End Inverse.
