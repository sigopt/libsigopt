(* Coq's axiomatic reals R as a MathComp 1.15 realFieldType (the classical "Rstruct" construction), so that matrix.v's
   determinant / adjugate / invmx theory and the GP lemmas proved over an abstract realFieldType (Proofs/GP.v) can be
   instantiated at R and combined with Coquelicot's is_derive.
   Axioms used: the Reals axioms (through Req_EM_T etc.), ClassicalEpsilon.constructive_indefinite_description + classic
   (epsilon, for the choiceType structure) and
   functional extensionality (pickR_ext).  Nothing is postulated here.
   Usage: import this file AFTER Reals/Coquelicot; ring_scope is NOT opened here.  In client files, R_scope stays the
   default scope of Coq's R operations; write (x * y)%Re for Rmult and (x * y)%Ri for the ring_scope product
   (the key %R is bound by whichever of Reals / ssralg was imported last, so it is best avoided). *)
From Coq Require Import Reals Psatz ClassicalEpsilon FunctionalExtensionality.
From mathcomp Require Import ssreflect ssrfun ssrbool eqtype ssrnat choice order ssralg ssrnum.
Set Implicit Arguments. Unset Strict Implicit. Unset Printing Implicit Defensive.

Delimit Scope ring_scope with Ri.
Delimit Scope R_scope with Re.
Local Open Scope R_scope.

Definition eqr (r1 r2 : R) : bool := if Req_EM_T r1 r2 is left _ then true else false.
Lemma eqrP : Equality.axiom eqr.
Proof. by move=> r1 r2; rewrite /eqr; case: Req_EM_T => H; apply: (iffP idP). Qed.
Canonical R_eqMixin := EqMixin eqrP.
Canonical R_eqType := Eval hnf in EqType R R_eqMixin.

Fact inhR : inhabited R. Proof. exact: (inhabits 0). Qed.
Definition pickR (P : pred R) (n : nat) := let x := epsilon inhR P in if P x then Some x else None.
Fact pickR_some P n x : pickR P n = Some x -> P x.
Proof. by rewrite /pickR; case: (boolP (P _)) => // Px [<-]. Qed.
Fact pickR_ex (P : pred R) : (exists x : R, P x) -> exists n, pickR P n.
Proof. by rewrite /pickR; move=> /(epsilon_spec inhR)->; exists 0%N. Qed.
Fact pickR_ext (P Q : pred R) : P =1 Q -> pickR P =1 pickR Q.
Proof.
  move=> PEQ n; rewrite /pickR; set u := epsilon _ _; set v := epsilon _ _.
  suff->: u = v by rewrite PEQ.
  by congr epsilon; apply: functional_extensionality=> x; rewrite PEQ.
Qed.
Definition R_choiceMixin : choiceMixin R := Choice.Mixin pickR_some pickR_ex pickR_ext.
Canonical R_choiceType := ChoiceType R R_choiceMixin.

Fact RplusA : associative Rplus. Proof. by move=> *; rewrite Rplus_assoc. Qed.
Definition R_zmodMixin := ZmodMixin RplusA Rplus_comm Rplus_0_l Rplus_opp_l.
Canonical R_zmodType := Eval hnf in ZmodType R R_zmodMixin.

Fact RmultA : associative Rmult. Proof. by move=> *; rewrite Rmult_assoc. Qed.
Fact R1_neq_0 : R1 != R0. Proof. by apply/eqP/R1_neq_R0. Qed.
Definition R_ringMixin := RingMixin RmultA Rmult_1_l Rmult_1_r Rmult_plus_distr_r Rmult_plus_distr_l R1_neq_0.
Canonical R_ringType := Eval hnf in RingType R R_ringMixin.
Canonical R_comRingType := Eval hnf in ComRingType R Rmult_comm.

Definition Rinvx r := if (r != 0) then / r else r.
Definition unit_R r := r != 0.
Lemma RmultRinvx : {in unit_R, left_inverse 1 Rinvx Rmult}.
Proof. by move=> r; rewrite -topredE /unit_R /Rinvx => /= rNZ /=; rewrite rNZ Rinv_l //; apply/eqP. Qed.
Lemma RinvxRmult : {in unit_R, right_inverse 1 Rinvx Rmult}.
Proof. by move=> r; rewrite -topredE /unit_R /Rinvx => /= rNZ /=; rewrite rNZ Rinv_r //; apply/eqP. Qed.
Lemma intro_unit_R x y : y * x = 1 /\ x * y = 1 -> unit_R x.
Proof.
  move=> [yx_eq1 _]; apply/eqP => x0.
  by move: yx_eq1; rewrite x0 Rmult_0_r; apply/eqP; rewrite eq_sym R1_neq_0.
Qed.
Lemma Rinvx_out : {in predC unit_R, Rinvx =1 id}.
Proof. by move=> x; rewrite inE /= /Rinvx -if_neg => ->. Qed.
Definition R_unitRingMixin := UnitRingMixin RmultRinvx RinvxRmult intro_unit_R Rinvx_out.
Canonical R_unitRing := Eval hnf in UnitRingType R R_unitRingMixin.
Canonical R_comUnitRingType := Eval hnf in [comUnitRingType of R].

Lemma R_idomainMixin x y : x * y = 0 -> (x == 0) || (y == 0).
Proof. by (do 2 case: (boolP (_ == _)) => // /eqP) => yNZ xNZ /Rmult_integral []. Qed.
Canonical R_idomainType := Eval hnf in IdomainType R R_idomainMixin.
Lemma R_fieldMixin : GRing.Field.mixin_of [unitRingType of R]. Proof. by []. Qed.
Definition R_fieldIdomainMixin := FieldIdomainMixin R_fieldMixin.
Canonical R_fieldType := FieldType R R_fieldMixin.

(* order / norm: needed only to instantiate lemmas stated over a realFieldType *)
Definition Rleb (x y : R) : bool := if Rle_dec x y is left _ then true else false.
Definition Rltb (x y : R) : bool := if Rlt_dec x y is left _ then true else false.
Lemma RlebP x y : reflect (x <= y) (Rleb x y).
Proof. by rewrite /Rleb; case: Rle_dec => H; constructor. Qed.
Lemma RltbP x y : reflect (x < y) (Rltb x y).
Proof. by rewrite /Rltb; case: Rlt_dec => H; constructor. Qed.

Section ssreal_struct.
Import GRing.Theory Num.Theory Num.Def.
Lemma Rleb_norm_add x y : Rleb (Rabs (x + y)) (Rabs x + Rabs y).
Proof. by apply/RlebP/Rabs_triang. Qed.
Lemma addr_Rgtb0 x y : Rltb 0 x -> Rltb 0 y -> Rltb 0 (x + y).
Proof. by move/RltbP => Hx /RltbP Hy; apply/RltbP/Rplus_lt_0_compat. Qed.
Lemma Rnorm0_eq0 x : Rabs x = 0 -> x = 0.
Proof. by move=> H; case: (Req_dec x 0) => // /Rabs_no_R0. Qed.
Lemma Rleb_leVge x y : Rleb 0 x -> Rleb 0 y -> (Rleb x y) || (Rleb y x).
Proof.
  move=> _ _; case: (Rle_lt_dec x y) => H; first by move/RlebP: H => ->.
  by apply/orP; right; apply/RlebP/Rlt_le.
Qed.
Lemma RnormM : {morph Rabs : x y / x * y}. Proof. exact: Rabs_mult. Qed.
Lemma Rleb_def x y : (Rleb x y) = (Rabs (y - x) == y - x).
Proof.
  apply/RlebP/eqP => [H|H].
  - by rewrite Rabs_pos_eq //; apply: Rge_le; apply: Rge_minus; apply: Rle_ge.
  - by apply: Rminus_le; rewrite -Ropp_minus_distr -H; apply/Rge_le/Ropp_0_le_ge_contravar/Rabs_pos.
Qed.
Lemma Rltb_def x y : (Rltb x y) = (y != x) && (Rleb x y).
Proof.
  apply/RltbP/andP => [H|[/eqP H /RlebP [] //]].
  - by split; [apply/eqP/Rgt_not_eq|apply/RlebP/Rlt_le].
  - by move=> E; case: H.
Qed.
Definition R_numMixin := NumMixin Rleb_norm_add addr_Rgtb0 Rnorm0_eq0 Rleb_leVge RnormM Rleb_def Rltb_def.
Canonical R_porderType := POrderType ring_display R R_numMixin.
Canonical R_numDomainType := NumDomainType R R_numMixin.
Canonical R_normedZmodType := NormedZmodType R R R_numMixin.
Canonical R_numFieldType := [numFieldType of R].
Lemma RleP (x y : R) : reflect (x <= y) (x <= y)%O. Proof. exact: RlebP. Qed.
Lemma RltP (x y : R) : reflect (x < y) (x < y)%O. Proof. exact: RltbP. Qed.
Lemma R_total : totalPOrderMixin R_porderType.
Proof.
  move=> x y; case: (Rle_lt_dec x y) => H; first by move/RleP: H => ->.
  by apply/orP; right; apply/RleP/Rlt_le.
Qed.
Canonical R_latticeType := LatticeType R R_total.
Canonical R_distrLatticeType := DistrLatticeType R R_total.
Canonical R_orderType := OrderType R R_total.
Canonical R_realDomainType := [realDomainType of R].
Canonical R_realFieldType := [realFieldType of R].
End ssreal_struct.

(* the MathComp operations at R against Coq's: + - * 0 1 agree by computation, the inverse only off 0 (Rinvx), k%:R is INR k;
   and disequality in both forms *)
Section Bridges.
Import GRing.Theory.
Lemma RaddE (x y : R) : (x + y)%Ri = x + y. Proof. by []. Qed.
Lemma RoppE (x : R) : (- x)%Ri = - x. Proof. by []. Qed.
Lemma RsubE (x y : R) : (x - y)%Ri = x - y. Proof. by []. Qed.
Lemma RmulE (x y : R) : (x * y)%Ri = x * y. Proof. by []. Qed.
Lemma R0E : (0%Ri : R) = 0. Proof. by []. Qed.
Lemma R1E : (1%Ri : R) = 1. Proof. by []. Qed.
Lemma RinvE (x : R) : x <> 0 -> (x^-1)%Ri = / x.
Proof. by move=> /eqP H; rewrite /GRing.inv /= /Rinvx H. Qed.
Lemma ReqE (x y : R) : (x == y) = false -> x <> y. Proof. by move=> /eqP. Qed.
Lemma RneqP (x y : R) : reflect (x <> y) (x != y). Proof. by apply: (iffP idP) => /eqP. Qed.
Lemma Rgt0_neq0 (x : R) : 0 < x -> x != 0.
Proof. by move=> H; apply/RneqP => E; move: H; rewrite E; apply: Rlt_irrefl. Qed.
Lemma RnatrE (k : nat) : (k%:R)%Ri = INR k.
Proof.
  elim: k => [|k IH] //; rewrite -addn1 natrD IH plus_INR /=. by [].
Qed.
End Bridges.

(* toR: turn a goal written with the MathComp operations at R into one written with Coq's (Rplus, Rmult, Ropp, 0, 1), so that
   ring / field / lra / nra apply.  (The inverse x^-1 is `if x != 0 then / x else x`: rewrite RinvE first.) *)
Ltac toR := rewrite /GRing.add /GRing.mul /GRing.opp /GRing.zero /GRing.one /GRing.natmul /=.

(* regression: Coq's decision procedures on R are unaffected by the canonical structures, with or without ring_scope open *)
Section Regression.
Import GRing.Theory.
Goal forall x y : R, x * y + 1 = 1 + y * x. Proof. move=> x y. lra. Qed.
Goal forall x y : R, x <> 0 -> x * y / x = y. Proof. move=> x y H. field. exact H. Qed.
Goal forall x y : R, x < y -> x <= y + 1. Proof. move=> x y H. lra. Qed.
Local Open Scope ring_scope.
Goal forall x y : R, x * y + 1 = 1 + y * x. Proof. move=> x y. toR. lra. Qed.
Goal forall x y : R, x * x + y * y = 0 -> x = 0. Proof. move=> x y. toR. move=> H. nra. Qed.
Goal forall x y : R, (x < y)%Re -> (x <= y + 1)%Re. Proof. move=> x y H. lra. Qed.
End Regression.
