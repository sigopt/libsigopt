(* C05, what needs the Gaussian integral (Lib/Gauss.v).  G z = z Phi z + pdf z is positive, so the clamp in the generated EI
   value is never active, EI is positive, and the EI gradient is the derivative without the side condition Proofs/Acq.v
   carries; the CDF model has the range of Phi; and sigma * G z is E[max(best - Y, 0)] for Y ~ N(mu, sigma^2), whose density has
   total mass 1, as an improper Riemann integral (Acq.v has the derivative form of this). *)
From Coq Require Import Reals Psatz.
From Coquelicot Require Import Coquelicot.
From LV Require Import Lib.RBase Lib.Gauss Gen.GenAcq Proofs.Acq.
Open Scope R_scope.

(* an improper integral is the limit of the proper ones: if F a is the integral over [a, b] and F tends to l at -oo, then l is the
   generalised Riemann integral over (-oo, b]; likewise at +oo *)
Lemma is_RInt_gen_lim_m (f F : R -> R) b (l : R) :
  (forall a, a <= b -> is_RInt f a b (F a)) -> is_lim F m_infty l -> is_RInt_gen f (Rbar_locally m_infty) (at_point b) l.
Proof.
  intros HI HF P HP. destruct (HF P HP) as [M HM].
  apply (Filter_prod _ _ _ (fun a => a < Rmin M b) (fun c => c = b)); [exists (Rmin M b); intros a Ha; exact Ha|reflexivity|].
  intros a c Ha ->. pose proof (Rmin_l M b). pose proof (Rmin_r M b).
  exists (F a). split; [apply HI; lra|apply HM; lra].
Qed.
Lemma is_RInt_gen_lim_p (f F : R -> R) a (l : R) :
  (forall b, a <= b -> is_RInt f a b (F b)) -> is_lim F p_infty l -> is_RInt_gen f (at_point a) (Rbar_locally p_infty) l.
Proof.
  intros HI HF P HP. destruct (HF P HP) as [M HM].
  apply (Filter_prod _ _ _ (fun c => c = a) (fun b => Rmax M a < b)); [reflexivity|exists (Rmax M a); intros b Hb; exact Hb|].
  intros c b -> Hb. pose proof (Rmax_l M a). pose proof (Rmax_r M a).
  exists (F b). split; [apply HI; lra|apply HM; lra].
Qed.

Theorem G_lim_m : is_lim G m_infty 0.
Proof.
  replace (Finite 0) with (Finite (0 + 0)) by (f_equal; ring).
  unfold G. apply (is_lim_plus' (fun z => z * Phi z) pdf); [apply zPhi_lim_m|apply pdf_lim_m].
Qed.

Lemma G_increasing a b : a < b -> G a < G b.
Proof.
  intros Hab. destruct (MVT_cor2 G Phi a b Hab) as (c & Heq & Hc).
  { intros x _. apply is_derive_Reals, G_deriv. }
  destruct (Phi_range c). nra.
Qed.

Theorem G_pos z : 0 < G z.
Proof.
  destruct (Rlt_or_le z 0) as [Hz|Hz].
  - apply Rle_lt_trans with (G (z - 1)); [|apply G_increasing; lra].
    unfold G. assert (Hz1 : z - 1 < 0) by lra. destruct (zPhi_bounds _ Hz1). lra.
  - unfold G. destruct (Phi_range z). pose proof (pdf_pos z). nra.
Qed.

Theorem cdf_model_range_unconditional dim x mean var gmean gvar thr i :
  0 < CDF.value dim x mean var gmean gvar thr i < 1.
Proof. apply Phi_range. Qed.

(* expected improvement is E[max(best - Y, 0)] for Y ~ N(mu, sigma^2) *)
Section EI_integral.
Variables mu sigma best : R.
Hypothesis Hs : 0 < sigma.

(* the N(mu, sigma^2) density *)
Definition ndens (y : R) : R := pdf ((y - mu) / sigma) / sigma.
Let F (b : R) : R := sigma * G ((b - mu) / sigma).
Let K (a : R) : R := F best - F a - (best - a) * Phi ((a - mu) / sigma).

Lemma ndens_Phi_deriv y : is_derive (fun y => Phi ((y - mu) / sigma)) y (ndens y).
Proof.
  evar_last.
  - apply (is_derive_Rcomp Phi (fun y => (y - mu) / sigma) y (pdf ((y - mu) / sigma)) (/ sigma)); [apply Phi_deriv|].
    auto_derive; [exact I|lra].
  - unfold ndens. field. lra.
Qed.

Lemma ei_K_deriv a : is_derive (fun a => - K a) a ((best - a) * ndens a).
Proof.
  unfold K. evar_last.
  - apply @is_derive_opp, is_derive_Rminus; [apply is_derive_Rminus|].
    + apply is_derive_Rconst.
    + apply (ei_incumbent_derivative mu sigma a Hs).
    + apply (is_derive_Rmult (fun a => best - a) (fun a => Phi ((a - mu) / sigma)) a (- 1)); [|apply ndens_Phi_deriv].
      auto_derive; [exact I|lra].
  - cbn. lra.
Qed.

Lemma ndens_cont y : continuous ndens y.
Proof.
  apply (ex_derive_continuous ndens y). unfold ndens. auto_derive.
  eexists. apply pdf_deriv.
Qed.

Lemma ei_integrand_cont y : continuous (fun y => (best - y) * ndens y) y.
Proof.
  apply (continuous_mult (fun y => best - y) ndens); [|apply ndens_cont].
  apply (ex_derive_continuous (fun y => best - y)). auto_derive. exact I.
Qed.

Lemma ei_integral_proper a :
  is_RInt (fun y => (best - y) * ndens y) a best
          (sigma * G ((best - mu) / sigma) - sigma * G ((a - mu) / sigma) - (best - a) * Phi ((a - mu) / sigma)).
Proof.
  evar_last.
  apply (is_RInt_derive (fun a => - K a) (fun y => (best - y) * ndens y) a best).
  - intros y _. apply ei_K_deriv.
  - intros y _. apply ei_integrand_cont.
  - unfold K, F, minus, plus, opp; simpl. lra.
Qed.

(* limits at infinity pass to the standardised variable *)
Lemma lim_std_m (f : R -> R) (l : Rbar) : is_lim f m_infty l -> is_lim (fun a => f ((a - mu) / sigma)) m_infty l.
Proof.
  intros Hf. apply (is_lim_ext (fun a => f (/ sigma * a + - mu / sigma))); [intros a; f_equal; unfold Rdiv; lra|].
  apply is_lim_lin_mm; [apply Rinv_0_lt_compat, Hs|exact Hf].
Qed.
Lemma lim_std_p (f : R -> R) (l : Rbar) : is_lim f p_infty l -> is_lim (fun a => f ((a - mu) / sigma)) p_infty l.
Proof.
  intros Hf. apply (is_lim_ext (fun a => f (/ sigma * a + - mu / sigma))); [intros a; f_equal; unfold Rdiv; lra|].
  apply is_lim_lin_pp; [apply Rinv_0_lt_compat, Hs|exact Hf].
Qed.

(* in K the terms z Phi(z) of F a and of (best - a) Phi cancel: K a = F best - sigma pdf(z) - (best - mu) Phi(z), z = (a - mu)/sigma *)
Lemma ei_K_lim : is_lim K m_infty (sigma * G ((best - mu) / sigma)).
Proof.
  apply (is_lim_ext (fun a => F best - sigma * pdf ((a - mu) / sigma) - (best - mu) * Phi ((a - mu) / sigma))).
  { intros a. unfold K, F, G. field. lra. }
  replace (Finite (sigma * G ((best - mu) / sigma))) with (Finite (F best - sigma * 0 - (best - mu) * 0)).
  2:{ unfold F. f_equal. lra. }
  apply is_lim_minus'; [apply is_lim_minus'; [apply is_lim_const|]|].
  - exact (is_lim_scal_l _ sigma m_infty 0 (lim_std_m pdf 0 pdf_lim_m)).
  - exact (is_lim_scal_l _ (best - mu) m_infty 0 (lim_std_m Phi 0 Phi_lim_m)).
Qed.

(* improper integral over (-oo, best], as the limit of proper Riemann integrals *)
Theorem ei_is_expected_improvement_lim :
  is_lim (fun a => RInt (fun y => (best - y) * ndens y) a best) m_infty (sigma * G ((best - mu) / sigma)).
Proof.
  apply (is_lim_ext K); [|apply ei_K_lim].
  intros a. symmetry. apply is_RInt_unique. apply ei_integral_proper.
Qed.

(* the same with the integrand parenthesised ((best - y) * pdf z) / sigma *)
Corollary ei_is_expected_improvement_lim' :
  is_lim (fun a => RInt (fun y => (best - y) * pdf ((y - mu) / sigma) / sigma) a best) m_infty (sigma * G ((best - mu) / sigma)).
Proof.
  apply (is_lim_ext (fun a => RInt (fun y => (best - y) * ndens y) a best)); [|apply ei_is_expected_improvement_lim].
  intros a. apply RInt_ext. intros y _. unfold ndens, Rdiv. symmetry; apply Rmult_assoc.
Qed.

(* the same, as Coquelicot's generalised Riemann integral *)
Theorem ei_is_expected_improvement_gen :
  is_RInt_gen (fun y => (best - y) * ndens y) (Rbar_locally m_infty) (at_point best) (sigma * G ((best - mu) / sigma)).
Proof. apply (is_RInt_gen_lim_m _ K); [intros a _; apply ei_integral_proper|exact ei_K_lim]. Qed.

(* ... and over the whole real line, with the integrand written max(best - y, 0) * density: this is literally
   E[max(best - Y, 0)] for Y ~ N(mu, sigma^2).  The integrand is the one above to the left of best and 0 to its right. *)
Theorem ei_is_expected_improvement_line :
  is_RInt_gen (fun y => Rmax (best - y) 0 * ndens y) (Rbar_locally m_infty) (Rbar_locally p_infty)
              (sigma * G ((best - mu) / sigma)).
Proof.
  replace (sigma * G ((best - mu) / sigma)) with (plus (sigma * G ((best - mu) / sigma)) 0) by apply Rplus_0_r.
  apply (is_RInt_gen_Chasles (V := R_NormedModule) _ best).
  - apply (is_RInt_gen_lim_m _ K); [|exact ei_K_lim]. intros a Ha.
    apply (is_RInt_ext (fun y => (best - y) * ndens y)); [|apply ei_integral_proper].
    intros y Hy. rewrite Rmin_left, Rmax_right in Hy by exact Ha. rewrite Rmax_left by lra. reflexivity.
  - apply (is_RInt_gen_lim_p _ (fun _ => 0)); [|apply is_lim_const]. intros c Hc.
    apply (is_RInt_ext (fun _ => 0)); [|evar_last; [exact (is_RInt_const (V := R_NormedModule) best c 0)|exact (Rmult_0_r _)]].
    intros y Hy. rewrite Rmin_left, Rmax_right in Hy by exact Hc. rewrite Rmax_right by lra. symmetry; apply Rmult_0_l.
Qed.

Lemma ndens_pos y : 0 < ndens y.
Proof. unfold ndens. apply Rdiv_lt_0_compat; [apply pdf_pos|exact Hs]. Qed.

Lemma ndens_integral_proper a b : is_RInt ndens a b (Phi ((b - mu) / sigma) - Phi ((a - mu) / sigma)).
Proof.
  apply (is_RInt_derive (fun y => Phi ((y - mu) / sigma)) ndens a b).
  - intros y _. apply ndens_Phi_deriv.
  - intros y _. apply ndens_cont.
Qed.

Theorem ndens_total_mass : is_RInt_gen ndens (Rbar_locally m_infty) (Rbar_locally p_infty) 1.
Proof.
  replace 1 with (plus (Phi ((mu - mu) / sigma) - 0) (1 - Phi ((mu - mu) / sigma))) by (unfold plus; simpl; ring).
  apply (is_RInt_gen_Chasles (V := R_NormedModule) ndens mu).
  - apply (is_RInt_gen_lim_m _ (fun a => Phi ((mu - mu) / sigma) - Phi ((a - mu) / sigma))); [intros a _; apply ndens_integral_proper|].
    apply is_lim_minus'; [apply is_lim_const|exact (lim_std_m Phi 0 Phi_lim_m)].
  - apply (is_RInt_gen_lim_p _ (fun b => Phi ((b - mu) / sigma) - Phi ((mu - mu) / sigma))); [intros b _; apply ndens_integral_proper|].
    apply is_lim_minus'; [exact (lim_std_p Phi 1 Phi_lim_p)|apply is_lim_const].
Qed.
End EI_integral.

(* the clamp max(0, .) in the generated EI value is never active *)
Theorem ei_value_no_clamp dim x mean var gmean gvar best i :
  EI.value dim x mean var gmean gvar best i = sqrt (var i) * G ((best - mean i) / sqrt (var i)).
Proof. rewrite ei_formula. rewrite Rmax_right; [reflexivity|left; apply G_pos]. Qed.

Theorem ei_value_pos dim x mean var gmean gvar best i : 0 < var i -> 0 < EI.value dim x mean var gmean gvar best i.
Proof. intros Hv. rewrite ei_value_no_clamp. apply Rmult_lt_0_compat; [apply sqrt_lt_R0, Hv|apply G_pos]. Qed.

(* C04: the generated EI gradient is the derivative of the generated EI value, without the side condition 0 < G z *)
Theorem ei_grad_is_derivative_unconditional (mu v dmu dv : R -> R) best dim x t i k :
  (forall t, is_derive mu t (dmu t)) -> (forall t, is_derive v t (dv t)) -> (forall t, 0 < v t) ->
  is_derive (fun t => EI.value dim x (C1 (mu t)) (C1 (v t)) (C2 0) (C2 0) best i) t
            (EI.grad dim x (C1 (mu t)) (C1 (v t)) (C2 (dmu t)) (C2 (dv t)) best i k).
Proof. intros H1 H2 H3. exact (ei_grad_is_derivative mu v dmu dv best dim x H1 H2 H3 t i k (G_pos _)). Qed.
