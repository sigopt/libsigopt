(* C03: the ONE-DIMENSIONAL C0 Matern kernel exp(-|s - t| / l) has positive semi-definite Gram matrices, for all n and all point sets, by an
   elementary argument: exp(-|s-t|) = exp(-s) * min(exp(2s), exp(2t)) * exp(-t), and for ANY non-negative numbers c_0 .. c_(n-1) the matrix
   min(c_a, c_b) is a Schur multiplier (SEPsd.schur): peel off the smallest positive value m,
     min(c_a, c_b) = m * [c_a > 0][c_b > 0] + min(c'_a, c'_b),   c' = c - m on the positive entries, 0 elsewhere,
   a rank-one matrix plus a matrix of the same kind with one positive entry fewer.  No sorting, no re-indexing.
   Proofs/MaternPsd.v covers C0 in every dimension (and C2, C4) by an analytic argument; this file gives dimension 1 without integrals. *)
From Coq Require Import Reals Psatz.
From LV Require Import Gen.GenCovariance Proofs.SEPsd.
Open Scope R_scope.

(* number of positive entries among c 0 .. c (n-1) *)
Fixpoint cnt (n : nat) (c : nat -> R) : nat :=
  match n with O => O | S m => (cnt m c + if Rlt_dec 0 (c m) then 1 else 0)%nat end.

Lemma cnt_zero n c : cnt n c = O -> forall a, (a < n)%nat -> ~ 0 < c a.
Proof.
  induction n as [|n IH]; intros H a Ha; [lia|]. simpl in H.
  destruct (Rlt_dec 0 (c n)) as [Hp|Hp]; [lia|].
  destruct (Nat.eq_dec a n) as [->|Hne]; [exact Hp|apply IH; lia].
Qed.

Lemma cnt_le n c c' : (forall a, (a < n)%nat -> 0 < c' a -> 0 < c a) -> (cnt n c' <= cnt n c)%nat.
Proof.
  induction n as [|n IH]; intros H; simpl; [lia|].
  assert (cnt n c' <= cnt n c)%nat by (apply IH; intros a Ha; apply H; lia).
  destruct (Rlt_dec 0 (c' n)) as [Hp'|Hp']; destruct (Rlt_dec 0 (c n)) as [Hp|Hp]; try lia.
  exfalso. apply Hp, H; [lia|exact Hp'].
Qed.

Lemma cnt_decr n c c' a0 : (a0 < n)%nat -> 0 < c a0 -> ~ 0 < c' a0 ->
  (forall a, (a < n)%nat -> 0 < c' a -> 0 < c a) -> (cnt n c' < cnt n c)%nat.
Proof.
  induction n as [|n IH]; intros Ha0 Hp0 Hn0 H; [lia|]. simpl.
  destruct (Nat.eq_dec a0 n) as [->|Hne].
  - assert (cnt n c' <= cnt n c)%nat by (apply cnt_le; intros a Ha; apply H; lia).
    destruct (Rlt_dec 0 (c' n)); [contradiction|]. destruct (Rlt_dec 0 (c n)); [lia|contradiction].
  - assert (cnt n c' < cnt n c)%nat by (apply IH; try assumption; [lia|intros a Ha; apply H; lia]).
    destruct (Rlt_dec 0 (c' n)) as [Hp'|Hp']; destruct (Rlt_dec 0 (c n)) as [Hp|Hp]; try lia.
    exfalso. apply Hp, H; [lia|exact Hp'].
Qed.

(* a smallest positive entry exists when there is a positive entry *)
Lemma argmin_pos n c : (0 < cnt n c)%nat ->
  exists a0, (a0 < n)%nat /\ 0 < c a0 /\ forall a, (a < n)%nat -> 0 < c a -> c a0 <= c a.
Proof.
  induction n as [|n IH]; intros H; simpl in H; [lia|].
  destruct (Rlt_dec 0 (c n)) as [Hp|Hp].
  - destruct (Nat.eq_dec (cnt n c) 0) as [Hz|Hnz].
    + exists n. repeat split; [lia|exact Hp|]. intros a Ha Hpa.
      destruct (Nat.eq_dec a n) as [->|Hne]; [lra|]. exfalso. apply (cnt_zero n c Hz a); [lia|exact Hpa].
    + destruct IH as (a1 & Ha1 & Hp1 & Hmin); [lia|].
      destruct (Rle_dec (c a1) (c n)) as [Hle|Hgt].
      * exists a1. repeat split; [lia|exact Hp1|]. intros a Ha Hpa.
        destruct (Nat.eq_dec a n) as [->|Hne]; [exact Hle|apply Hmin; [lia|exact Hpa]].
      * exists n. repeat split; [lia|exact Hp|]. intros a Ha Hpa.
        destruct (Nat.eq_dec a n) as [->|Hne]; [lra|]. assert (c a1 <= c a) by (apply Hmin; [lia|exact Hpa]). lra.
  - destruct IH as (a1 & Ha1 & Hp1 & Hmin); [lia|].
    exists a1. repeat split; [lia|exact Hp1|]. intros a Ha Hpa.
    destruct (Nat.eq_dec a n) as [->|Hne]; [contradiction|apply Hmin; [lia|exact Hpa]].
Qed.

Definition posb (x : R) : R := if Rlt_dec 0 x then 1 else 0.
Definition peel (m : R) (c : nat -> R) (a : nat) : R := if Rlt_dec 0 (c a) then c a - m else 0.

Lemma min_peel m (x y : R) : 0 <= x -> 0 <= y -> (0 < x -> m <= x) -> (0 < y -> m <= y) ->
  Rmin x y = m * (posb x * posb y) + Rmin (if Rlt_dec 0 x then x - m else 0) (if Rlt_dec 0 y then y - m else 0).
Proof.
  intros Hx Hy Hmx Hmy. unfold posb.
  destruct (Rlt_dec 0 x) as [Hpx|Hpx]; destruct (Rlt_dec 0 y) as [Hpy|Hpy];
    try specialize (Hmx Hpx); try specialize (Hmy Hpy); unfold Rmin;
    repeat match goal with |- context [Rle_dec ?p ?q] => destruct (Rle_dec p q) end; lra.
Qed.

Lemma min_schur_aux N : forall n c, (cnt n c <= N)%nat -> (forall a, (a < n)%nat -> 0 <= c a) ->
  schur n (fun a b => Rmin (c a) (c b)).
Proof.
  induction N as [|N IH]; intros n c Hcnt Hc.
  - apply (schur_ext n (fun _ _ => 0)); [|apply schur_zero]. intros a b Ha Hb.
    assert (Hz : cnt n c = O) by lia.
    pose proof (cnt_zero n c Hz a Ha). pose proof (cnt_zero n c Hz b Hb).
    pose proof (Hc a Ha). pose proof (Hc b Hb). unfold Rmin. destruct (Rle_dec (c a) (c b)); lra.
  - destruct (Nat.eq_dec (cnt n c) 0) as [Hz|Hnz]; [apply (IH n c); [lia|exact Hc]|].
    destruct (argmin_pos n c) as (a0 & Ha0 & Hp0 & Hmin); [lia|].
    set (m := c a0).
    apply (schur_ext n (fun a b => m * (posb (c a) * posb (c b)) + Rmin (peel m c a) (peel m c b))).
    + intros a b Ha Hb. symmetry. unfold peel. apply min_peel; auto.
    + apply (schur_plus n (fun a b => m * (posb (c a) * posb (c b))) (fun a b => Rmin (peel m c a) (peel m c b))).
      * apply schur_scale; [unfold m; lra|].
        apply (schur_factored n 1 _ (fun a _ => posb (c a))). intros a b _ _. simpl. lra.
      * apply IH.
        -- assert (cnt n (peel m c) < cnt n c)%nat; [|lia].
           apply (cnt_decr n c (peel m c) a0 Ha0 Hp0).
           ++ unfold peel, m. destruct (Rlt_dec 0 (c a0)); lra.
           ++ intros a Ha. unfold peel. destruct (Rlt_dec 0 (c a)); [auto|lra].
        -- intros a Ha. unfold peel. destruct (Rlt_dec 0 (c a)) as [Hp|Hp]; [|lra].
           specialize (Hmin a Ha Hp). unfold m. lra.
Qed.

Theorem min_schur n c : (forall a, (a < n)%nat -> 0 <= c a) -> schur n (fun a b => Rmin (c a) (c b)).
Proof. intros Hc. exact (min_schur_aux (cnt n c) n c (le_n _) Hc). Qed.

Lemma exp_abs_split s t : exp (- Rabs (s - t)) = exp (- s) * Rmin (exp (2 * s)) (exp (2 * t)) * exp (- t).
Proof.
  destruct (Rle_dec s t) as [Hle|Hgt].
  - rewrite Rmin_left.
    + rewrite <- !exp_plus. f_equal. rewrite Rabs_left1 by lra. lra.
    + destruct (Req_dec s t) as [->|Hne]; [lra|]. left. apply exp_increasing. lra.
  - rewrite Rmin_right.
    + rewrite <- !exp_plus. f_equal. rewrite Rabs_right by lra. lra.
    + left. apply exp_increasing. lra.
Qed.

Theorem laplace1d_schur n (s : nat -> R) : schur n (fun a b => exp (- Rabs (s a - s b))).
Proof.
  apply (schur_ext n (fun a b => exp (- s a) * Rmin (exp (2 * s a)) (exp (2 * s b)) * exp (- s b))).
  - intros a b _ _. symmetry. apply exp_abs_split.
  - apply (schur_congr n (fun a => exp (- s a)) (fun a b => Rmin (exp (2 * s a)) (exp (2 * s b)))).
    apply (min_schur n (fun a => exp (2 * s a))). intros a _. left. apply exp_pos.
Qed.

(* the generated C0RadialMatern entry points in dimension 1 *)
Lemma C0_1d_sym_abs xs noise ls lsq lcu alpha a b :
  C0RadialMatern.kernel_matrix_sym 1 xs noise ls lsq lcu alpha a b
  = alpha * exp (- Rabs (xs a O / ls O - xs b O / ls O)) + (if Nat.eqb a b then noise a else 0).
Proof.
  unfold C0RadialMatern.kernel_matrix_sym. simpl. f_equal. f_equal. f_equal. f_equal.
  rewrite Rplus_0_l, Rmult_1_r. apply sqrt_Rsqr_abs.
Qed.

Lemma C0_1d_pair_abs_ (xs : nat -> nat -> R) ls lsq lcu alpha i (a b : nat) :
  C0RadialMatern._covariance 1 (fun _ => xs a) (fun _ => xs b) ls lsq lcu alpha i = exp (- Rabs (xs a O / ls O - xs b O / ls O)).
Proof.
  unfold C0RadialMatern._covariance. simpl. f_equal. f_equal.
  rewrite Rplus_0_l, Rmult_1_r. fold (Rsqr ((xs a O - xs b O) / ls O)). rewrite sqrt_Rsqr_abs. f_equal. unfold Rdiv. lra.
Qed.

Theorem C0_1d_sym_gram_schur n xs noise ls lsq lcu alpha :
  0 <= alpha -> (forall j, 0 <= noise j) ->
  schur n (fun a b => C0RadialMatern.kernel_matrix_sym 1 xs noise ls lsq lcu alpha a b).
Proof.
  intros Ha Hn.
  apply (schur_ext n (fun a b => alpha * exp (- Rabs (xs a O / ls O - xs b O / ls O)) + (if Nat.eqb a b then noise a else 0))).
  - intros a b _ _. symmetry. apply C0_1d_sym_abs.
  - apply (schur_plus n (fun a b => alpha * exp (- Rabs (xs a O / ls O - xs b O / ls O))) (fun a b => if Nat.eqb a b then noise a else 0)).
    + apply schur_scale; [exact Ha|]. apply (laplace1d_schur n (fun a => xs a O / ls O)).
    + apply schur_diag. intros a _. apply Hn.
Qed.

Theorem C0_1d_pair_gram_schur_ n xs ls lsq lcu alpha i :
  schur n (fun a b => C0RadialMatern._covariance 1 (fun _ => xs a) (fun _ => xs b) ls lsq lcu alpha i).
Proof.
  apply (schur_ext n (fun a b => exp (- Rabs (xs a O / ls O - xs b O / ls O)))).
  - intros a b _ _. symmetry. apply C0_1d_pair_abs_.
  - apply (laplace1d_schur n (fun a => xs a O / ls O)).
Qed.
