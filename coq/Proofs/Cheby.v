(* C08: the LP assembled by find_interior_point describes exactly the balls inscribed in the polytope, so an LP optimum is
   a maximal inscribed ball; meaning of the feasibility flag.  Stated over Q with the row norms supplied as data
   (n_i >= 0, n_i^2 = sum_j a_ij^2), which avoids square roots.  The LP is taken row by row (`lp_feasible`); that the
   matrices the code hands to linprog (Model.Restrict cheby_A_ub, cheby_b_ub, cheby_c) are these rows is checked on runs by
   Model/RestrictCorr.v and is not a lemma here. *)
From Coq Require Import List QArith Lqa.
From LV Require Import Model.Restrict Proofs.Restrict.
Import ListNotations.
Open Scope Q_scope.

Fixpoint sumsq (a : point) : Q := match a with [] => 0 | x :: r => x * x + sumsq r end.
Definition vsub (y x : point) : point := map2 Qminus y x.
(* closed Euclidean ball B(x, r), by squares *)
Definition in_ball (x : point) (r : Q) (y : point) : Prop := length y = length x /\ sumsq (vsub y x) <= r * r.
Definition norms_ok (dim : nat) (hs : list halfspace) (norms : list Q) : Prop :=
  length norms = length hs /\
  forall h n, In (h, n) (combine hs norms) -> 0 <= n /\ n * n == sumsq (fst h) /\ length (fst h) = dim.
(* the constraints of the LP, row by row: a_i . x + n_i r <= b_i  (linprog's A_ub [x; r] <= b_ub), and r >= 0 *)
Definition lp_feasible (hs : list halfspace) (norms : list Q) (x : point) (r : Q) : Prop :=
  0 <= r /\ forall h n, In (h, n) (combine hs norms) -> dot (fst h) x + n * r <= snd h.

Lemma lp_feasible_b_iff hs norms x r : lp_feasible_b hs norms x r = true <-> lp_feasible hs norms x r.
Proof.
  unfold lp_feasible_b, lp_feasible. split.
  - intro H. apply andb_true_iff in H. destruct H as [H0 H]. split; [apply Qle_bool_iff, H0|].
    intros h n Hin. apply Qle_bool_iff. exact (proj1 (forallb_forall _ _) H (h, n) Hin).
  - intros [H0 H]. apply andb_true_iff. split; [apply Qle_bool_iff, H0|].
    apply forallb_forall. intros [h n] Hin. apply Qle_bool_iff, (H h n Hin).
Qed.

Lemma sumsq_nonneg a : 0 <= sumsq a.
Proof. induction a as [|x a IH]; simpl; [lra|nra]. Qed.

Lemma quad_nonneg (al be : Q) : forall a d,
  0 <= al * al * sumsq a + 2 * al * be * dot a d + be * be * sumsq d.
Proof.
  assert (Hsq : forall k s : Q, 0 <= s -> 0 <= k * k * s) by (intros; nra).
  induction a as [|ai a IH]; intros [|di d]; simpl.
  - lra.
  - pose proof (Hsq be _ (sumsq_nonneg (di :: d))) as H. simpl in H. lra.
  - pose proof (Hsq al _ (sumsq_nonneg (ai :: a))) as H. simpl in H. lra.
  - specialize (IH d). assert (Hw : forall w : Q, 0 <= w * w) by (intros; nra). pose proof (Hw (al * ai + be * di)). nra.
Qed.
Lemma sumsq_zero_dot : forall a d, sumsq a == 0 -> dot a d == 0.
Proof.
  induction a as [|ai a IH]; intros [|di d] H; simpl in *; try lra.
  pose proof (sumsq_nonneg a). assert (sumsq a == 0) by nra. assert (ai == 0) by nra. rewrite (IH d) by assumption. nra.
Qed.
Lemma cauchy_schwarz a d : dot a d * dot a d <= sumsq a * sumsq d.
Proof.
  pose proof (sumsq_nonneg a) as HA. pose proof (sumsq_nonneg d) as HD.
  destruct (Qlt_le_dec 0 (sumsq a)) as [L|L].
  - pose proof (quad_nonneg (- dot a d) (sumsq a) a d) as H.
    set (S := dot a d) in *. set (A := sumsq a) in *. set (D := sumsq d) in *.
    assert (H' : 0 <= A * (A * D - S * S)) by lra. nra.
  - assert (E : sumsq a == 0) by lra. rewrite (sumsq_zero_dot a d E). nra.
Qed.
Lemma dot_self a : dot a a == sumsq a.
Proof. induction a as [|x a IH]; simpl; [lra|]. rewrite IH. lra. Qed.
Lemma sumsq_shift k : forall x a, length a = length x -> sumsq (vsub (map2 (fun xi ai => xi + k * ai) x a) x) == k * k * sumsq a.
Proof.
  induction x as [|xi x IH]; intros [|ai a] Hl; simpl in Hl; try discriminate; simpl; [lra|].
  unfold vsub in IH. rewrite IH by congruence. lra.
Qed.
Lemma sumsq_self_zero : forall x, sumsq (vsub x x) == 0.
Proof. induction x as [|xi x IH]; simpl; [lra|]. unfold vsub in IH. rewrite IH. lra. Qed.
Lemma combine_partner {A B} : forall (l : list A) (m : list B) a, length m = length l -> In a l -> exists b, In (a, b) (combine l m).
Proof.
  induction l as [|a' l IH]; intros [|b m] a Hl Hin; simpl in *; try discriminate; try contradiction.
  destruct Hin as [->|Hin]; [exists b; left; reflexivity|]. destruct (IH m a ltac:(congruence) Hin) as [b' Hb]. exists b'. right. exact Hb.
Qed.

(* one row a.y <= b with norm n of a.  If a.x + n r <= b, the row holds on the ball B(x, r): Cauchy-Schwarz ... *)
Lemma ball_row_inside a n b x r y : 0 <= n -> n * n == sumsq a -> 0 <= r -> in_ball x r y ->
  dot a x + n * r <= b -> dot a y <= b.
Proof.
  intros N0 N2 Hr [Hy Hb] H.
  assert (E : dot a (vsub y x) == dot a y - dot a x).
  { unfold vsub. rewrite (dot_map2_affine Qminus 1 (-(1))) by (try exact Hy; intros; lra). lra. }
  pose proof (cauchy_schwarz a (vsub y x)) as CS. rewrite <- N2 in CS.
  pose proof (sumsq_nonneg (vsub y x)) as HD.
  set (S := dot a (vsub y x)) in *. set (D := sumsq (vsub y x)) in *.
  assert (HS : S <= n * r); [|lra].
  destruct (Qlt_le_dec (n * r) S) as [L|L]; [exfalso|exact L].
  assert (0 <= n * r) by nra. assert (n * r * (n * r) < S * S) by nra. assert (n * n * D <= n * n * (r * r)) by nra. nra.
Qed.
(* ... and conversely the point x + (r / n) a of the ball attains a.x + n r *)
Lemma ball_row_tight a n b x r : 0 <= n -> n * n == sumsq a -> length a = length x -> 0 <= r ->
  (forall y, in_ball x r y -> dot a y <= b) -> dot a x + n * r <= b.
Proof.
  intros N0 N2 Nl Hr H. destruct (Qlt_le_dec 0 n) as [L|L].
  - set (k := r / n). assert (Ek : k * n == r) by (rewrite Qmult_comm; apply Qmult_div_r; lra).
    assert (E2 : k * k * sumsq a == r * r) by (rewrite <- N2, <- Ek; lra).
    assert (E1 : k * dot a a == n * r) by (rewrite dot_self, <- N2, <- Ek; lra).
    assert (Hy : in_ball x r (map2 (fun xi ai => xi + k * ai) x a)).
    { split; [apply map2_length; congruence|]. pose proof (sumsq_shift k x a Nl). lra. }
    apply H in Hy. pose proof (dot_shift k a x a (eq_sym Nl)). lra.
  - assert (Hy : in_ball x r x) by (split; [reflexivity|rewrite sumsq_self_zero; nra]).
    apply H in Hy. nra.
Qed.

Theorem cheby_lp_is_inscribed_ball dim hs norms x r : norms_ok dim hs norms -> length x = dim ->
  (lp_feasible hs norms x r <-> 0 <= r /\ forall y, in_ball x r y -> sat_all hs y).
Proof.
  intros [Hlen Hn] Hx. split; intros [Hr H]; (split; [exact Hr|]).
  - intros y Hy h Hin. destruct (combine_partner hs norms h Hlen Hin) as [n Hc].
    destruct (Hn h n Hc) as [N0 [N2 _]]. exact (ball_row_inside _ n _ x r y N0 N2 Hr Hy (H h n Hc)).
  - intros h n Hc. destruct (Hn h n Hc) as [N0 [N2 Nl]].
    apply ball_row_tight; try assumption; [congruence|]. intros y Hy. exact (H y Hy h (in_combine_l _ _ _ _ Hc)).
Qed.

(* hence a solution of the LP (maximal r among LP-feasible pairs) is a largest ball inscribed in the polytope *)
Theorem cheby_optimum_is_maximal dim hs norms x r : norms_ok dim hs norms -> length x = dim ->
  lp_feasible hs norms x r -> (forall x' r', length x' = dim -> lp_feasible hs norms x' r' -> r' <= r) ->
  (forall y, in_ball x r y -> sat_all hs y) /\
  (forall x' r', length x' = dim -> 0 <= r' -> (forall y, in_ball x' r' y -> sat_all hs y) -> r' <= r).
Proof.
  intros Hn Hx Hf Hopt. split.
  - apply (cheby_lp_is_inscribed_ball dim hs norms x r Hn Hx), Hf.
  - intros x' r' Hx' Hr' Hb. apply (Hopt x' r' Hx'). apply (cheby_lp_is_inscribed_ball dim hs norms x' r' Hn Hx'). split; assumption.
Qed.

(* linprog's status 2 is "infeasible" *)
Theorem cheby_flag_spec success status radius :
  cheby_flag success status radius = true <-> success = true /\ status <> 2%Z /\ (1 # 100000000) <= radius.
Proof.
  unfold cheby_flag, min_radius. split.
  - intro H. apply andb_true_iff in H. destruct H as [Hs H]. apply negb_true_iff, orb_false_iff in H.
    split; [exact Hs|]. split; [apply Z.eqb_neq, H|apply Qltb_ge, H].
  - intros (-> & H1 & H2). apply Z.eqb_neq in H1. apply Qltb_ge in H2. rewrite H1, H2. reflexivity.
Qed.

(* a centre reported feasible is strictly inside every row with a non-zero normal (the `strict_all` half of the `interior`
   hypothesis of the restriction theorems) *)
Theorem cheby_flag_gives_interior dim hs norms x r success status : norms_ok dim hs norms ->
  (forall h n, In (h, n) (combine hs norms) -> 0 < n) ->
  lp_feasible hs norms x r -> cheby_flag success status r = true -> strict_all hs x.
Proof.
  intros [Hlen Hn] Hpos [Hr H] Hf. apply cheby_flag_spec in Hf. destruct Hf as [_ [_ Hrad]].
  intros h Hin. destruct (combine_partner hs norms h Hlen Hin) as [n Hc].
  specialize (H h n Hc). specialize (Hpos h n Hc). unfold strict. nra.
Qed.
