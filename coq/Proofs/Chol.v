(* C17: the sampling factor reproduces the covariance, of any rank: where the Cholesky attempt fails the factor comes from the SVD / QR
   fall-back.  About the REGENERATED Gen.GenChol.Chol.factor, whose first_overwrite flag is read from the source. *)
From mathcomp Require Import ssreflect ssrbool eqtype ssrnat fintype ssralg ssrnum zmodp matrix.
From LV Require Import Gen.GenChol.
Set Implicit Arguments. Unset Strict Implicit. Unset Printing Implicit Defensive.
Import GRing.Theory Num.Theory.
Local Open Scope ring_scope.

Section Chol.
Variable F : rcfType.
Variable n : nat.
Variable chol_try : 'M[F]_n -> option 'M[F]_n.
Variable junk : 'M[F]_n -> 'M[F]_n.
Variable svdU : 'M[F]_n -> 'M[F]_n.
Variable svdE : 'M[F]_n -> 'rV[F]_n.
Variable qr_r : 'M[F]_n -> 'M[F]_n.
Definition sympsd (A : 'M[F]_n) := A^T = A /\ forall v : 'cV[F]_n, 0 <= (v^T *m A *m v) 0 0.
(* contracts (exact arithmetic): a successful Cholesky factorises its input; the SVD of a symmetric PSD matrix is an
   eigen-decomposition with non-negative spectrum; the R factor satisfies R^T R = B^T B *)
Hypothesis chol_ok : forall A L, chol_try A = Some L -> L *m L^T = A.
Hypothesis svd_ok : forall A, sympsd A ->
  svdU A *m diag_mx (svdE A) *m (svdU A)^T = A /\ forall i, 0 <= svdE A 0 i.
Hypothesis qr_ok : forall B, (qr_r B)^T *m qr_r B = B^T *m B.

Lemma sqrt_diag_sq (E : 'rV[F]_n) : (forall i, 0 <= E 0 i) -> Chol.sqrt_diag E *m (Chol.sqrt_diag E)^T = diag_mx E.
Proof.
  move=> HE; rewrite /Chol.sqrt_diag tr_diag_mx mulmx_diag; congr diag_mx.
  by apply/rowP=> j; rewrite !mxE -expr2 sqr_sqrtr.
Qed.

Theorem factor_reproduces A : sympsd A ->
  Chol.factor chol_try junk svdU svdE qr_r A *m (Chol.factor chol_try junk svdU svdE qr_r A)^T = A.
Proof.
  move=> HA; rewrite /Chol.factor /Chol.first_overwrite; case E: (chol_try A) => [L|]; first exact: chol_ok E.
  case: (svd_ok HA) => Hsvd Hpos.
  rewrite trmxK qr_ok trmxK trmx_mul -mulmxA [Chol.sqrt_diag _ *m _]mulmxA.
  by rewrite [_ *m (Chol.sqrt_diag _)^T](sqrt_diag_sq Hpos) mulmxA.
Qed.
End Chol.
