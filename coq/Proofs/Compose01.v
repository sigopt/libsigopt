(* C01 x C07 x C08: the optimiser / sampler stage hands feasible relaxed points to the endpoint tails.
   Bridges between the three domain vocabularies, the stage theorems, and the end-to-end statements. *)
From Coq Require Import Qabs SetoidList Lia Lqa Permutation.
From LV Require Import Model.Domain Model.Decode Proofs.Domain Proofs.Decode Model.EndpointTail Proofs.EndpointTail.
From LV Require Import Model.Compose01.
From LV Require Model.Restrict Model.Samplers Model.Optim Proofs.Restrict Proofs.Samplers Proofs.Optim Proofs.DecodeTask.
Import ListNotations.
Open Scope Q_scope.

Module RP := LV.Proofs.Restrict.
Module SP := LV.Proofs.Samplers.
Module OPP := LV.Proofs.Optim.

Lemma dot_R : Domain.dot = R.dot.
Proof. reflexivity. Qed.
Lemma dot_OP : Domain.dot = OP.dot.
Proof. reflexivity. Qed.
Lemma in_box_R bs x : RP.in_box bs x <-> in_box bs x.
Proof. unfold RP.in_box, in_box. split; intros H; exact H. Qed.

Lemma oh_box_ordered d : wf_domain d = true -> SP.ordered_bounds (one_hot_box d).
Proof.
  intros Hwf b Hb. pose proof (wf_domain_comps d Hwf) as Hc. unfold one_hot_box in Hb.
  apply in_flat_map in Hb as (c & Hin & Hb). rewrite Forall_forall in Hc. specialize (Hc c Hin).
  destruct c as [lo hi|lo hi|es|es]; simpl in Hb.
  - destruct Hb as [<-|[]]. simpl in *. apply Proofs.Domain.Qltb_lt in Hc. lra.
  - destruct Hb as [<-|[]]. simpl in *. apply Z.ltb_lt in Hc. rewrite <- Zle_Qle. lia.
  - apply repeat_spec in Hb. subst b. simpl. lra.
  - destruct Hb as [<-|[]]. simpl. pose proof (wf_grid_nonempty es Hc) as Hne. destruct es as [|e es]; [congruence|].
    destruct (grid_range (e :: es) e (or_introl eq_refl)). lra.
Qed.
Lemma is_constrained_R d : R.is_constrained (oh_dom d) = is_constrained d.
Proof. unfold R.is_constrained, is_constrained, oh_dom, oh_cons. simpl. destruct (cons d); reflexivity. Qed.
Lemma oh_dim_bounds d : length (R.bounds (oh_dom d)) = oh_dim d.
Proof. reflexivity. Qed.

(* C08's region of the search domain is inside C01's: the box is the same, the search domain carries every constraint
   (int-typed ones relaxed), relaxed_ok asks for the double-typed ones only *)
Lemma feasible_relaxed_ok d p : RP.feasible (oh_dom d) p -> relaxed_ok d p.
Proof.
  intros [Hb Hc]. split; [exact Hb|]. apply sat_double_cons_iff. intros k Hk _.
  apply (Hc (oh_weights (comps d) (weights k), rhs k)). unfold oh_dom, oh_cons. simpl. apply in_map_iff. exists k. auto.
Qed.
Lemma feasible_all_relaxed_ok d xs : Forall (RP.feasible (oh_dom d)) xs -> Forall (relaxed_ok d) xs.
Proof. apply Forall_impl. exact (feasible_relaxed_ok d). Qed.
Lemma feasible_length d p : RP.feasible (oh_dom d) p -> length p = oh_dim d.
Proof. intros [Hb _]. apply (RP.in_box_length _ _ Hb). Qed.
Lemma unconstrained_feasible d p : is_constrained d = false -> in_box (one_hot_box d) p -> RP.feasible (oh_dom d) p.
Proof.
  intros Hc Hb. split; [exact Hb|]. intros c Hin. unfold oh_dom, oh_cons in Hin. simpl in Hin.
  rewrite (unconstrained_cons d Hc) in Hin. destruct Hin.
Qed.

(* C07's boolean domain test on the derived representation: bounds of the relaxed box, any fixed coordinates, every
   constraint, read with tolerance tol *)
Definition relaxed_ok_tol (tol : Q) (d : domain) (x : row) : Prop :=
  in_box (one_hot_box d) x /\ Forall (fun k => rhs k - tol <= dot (oh_weights (comps d) (weights k)) x) (cons d).
Lemma op_in_box_b : forall bs p, OP.in_box_b (map fst bs) (map snd bs) p = true -> in_box bs p.
Proof.
  intros bs p H. unfold OP.in_box_b in H. apply andb_true_iff in H as [H H3]. apply andb_true_iff in H as [H1 _].
  apply Nat.eqb_eq in H1. rewrite map_length in H1. revert p H1 H3.
  induction bs as [|b bs IH]; intros [|x p] Hl H; simpl in Hl; try discriminate; [constructor|].
  simpl in H. apply andb_true_iff in H as [Hx H]. apply andb_true_iff in Hx as [Ha Hb].
  apply Qle_bool_iff in Ha. apply Qle_bool_iff in Hb. constructor; [split; assumption|apply IH; [congruence|exact H]].
Qed.
Theorem in_dom_b_relaxed tol d fixed p :
  OP.in_dom_b tol (oh_lb d) (oh_ub d) fixed (oh_cons d) p = true -> relaxed_ok_tol tol d p.
Proof.
  unfold OP.in_dom_b. intros H. apply andb_true_iff in H as [H Hc]. apply andb_true_iff in H as [Hb _].
  split; [apply op_in_box_b; exact Hb|]. unfold OP.cons_ok_b in Hc. rewrite forallb_forall in Hc.
  apply Forall_forall. intros k Hk.
  specialize (Hc (oh_weights (comps d) (weights k), rhs k)). simpl in Hc. apply Qle_bool_iff. apply Hc.
  unfold oh_cons. apply in_map_iff. exists k. auto.
Qed.
Lemma relaxed_ok_tol_0 d p : relaxed_ok_tol 0 d p -> relaxed_ok d p.
Proof.
  intros [Hb Hc]. split; [exact Hb|]. apply sat_double_cons_iff. intros k Hk _.
  rewrite Forall_forall in Hc. specialize (Hc k Hk). simpl in Hc. lra.
Qed.
Theorem in_dom_b_relaxed_ok d fixed p :
  OP.in_dom_b 0 (oh_lb d) (oh_ub d) fixed (oh_cons d) p = true -> relaxed_ok d p.
Proof. intros H. apply relaxed_ok_tol_0. eapply in_dom_b_relaxed. exact H. Qed.

(* restriction on the search domain.
   C07's theorems ask of the restriction:  forall k b, Forall dom (restrict k b)  - for EVERY batch, also one whose rows
   do not have the dimension of the domain (numpy cannot build such an array; the model's lists can).  The statement
   that holds for every batch is: every returned row OF THE RIGHT LENGTH is in the region; the code's own shape
   assertion on the stage's result supplies the length. *)
Definition okpt (d : domain) (q : row) : Prop := length q = oh_dim d -> RP.feasible (oh_dom d) q.

Lemma short_okpt d q : (length q < oh_dim d)%nat -> okpt d q.
Proof. intros Hl Hlen. lia. Qed.
Lemma map2_len {A B C} (f : A -> B -> C) : forall a b, length (R.map2 f a b) = Nat.min (length a) (length b).
Proof. induction a as [|x a IH]; intros [|y b]; simpl; try reflexivity. rewrite IH. reflexivity. Qed.
Lemma clip_long : forall bs p, SP.ordered_bounds bs -> (length bs <= length p)%nat -> RP.in_box bs (R.clip bs p).
Proof.
  induction bs as [|b bs IH]; intros p Hb Hl; [destruct p; constructor|].
  destruct p as [|x p]; simpl in Hl; [lia|]. unfold R.clip. simpl. constructor.
  - assert (B := Hb b (or_introl eq_refl)). unfold R.clip1.
    destruct (R.Qltb x (fst b)) eqn:E1; [lra|]. apply RP.Qltb_ge in E1.
    destruct (R.Qltb (snd b) x) eqn:E2; [lra|]. apply RP.Qltb_ge in E2. lra.
  - apply IH; [intros b' Hin; apply Hb; right; exact Hin|lia].
Qed.
Definition region_or_short (bs : list (Q * Q)) (hs : list (list Q * Q)) (q : row) : Prop :=
  (RP.in_box bs q /\ RP.sat_all hs q) \/ (length q < length bs)%nat.
Lemma restrict_one_or_short bs hs v on p us : RP.in_box bs v -> RP.strict_all hs v ->
  RP.in_box bs p \/ (length p < length bs)%nat -> Forall RP.unit_interval us ->
  region_or_short bs hs (fst (R.restrict_one hs v on p us)) /\ Forall RP.unit_interval (snd (R.restrict_one hs v on p us)).
Proof.
  intros Bv Sv [Bp|Lp] Hus.
  - destruct (RP.restrict_one_correct bs hs v on p us Bv Sv Bp Hus) as (A & B & C). split; [left; split; assumption|exact C].
  - unfold R.restrict_one. destruct (R.needs_correction hs v p); [|split; [right; exact Lp|exact Hus]].
    assert (L : forall e, (length (R.combine_toward e p v) < length bs)%nat).
    { intros e. unfold R.combine_toward. rewrite map2_len. lia. }
    destruct on; [split; [right; apply L|exact Hus]|].
    destruct us as [|u us']; [split; [right; apply L|constructor]|].
    inversion Hus; subst. split; [right; apply L|assumption].
Qed.
Lemma restrict_list_or_short bs hs v on : RP.in_box bs v -> RP.strict_all hs v ->
  forall ps us, Forall (fun p => RP.in_box bs p \/ (length p < length bs)%nat) ps -> Forall RP.unit_interval us ->
  Forall (region_or_short bs hs) (fst (R.restrict_list hs v on ps us)) /\ length (fst (R.restrict_list hs v on ps us)) = length ps.
Proof.
  intros Bv Sv. induction ps as [|p ps IH]; intros us Hps Hus; simpl; [split; [constructor|reflexivity]|].
  inversion Hps; subst. destruct (restrict_one_or_short bs hs v on p us Bv Sv H1 Hus) as [R1 R2].
  destruct (R.restrict_one hs v on p us) as [q us1]. simpl in R1, R2.
  destruct (IH us1 H2 R2) as [I1 I2]. destruct (R.restrict_list hs v on ps us1) as [qs us2]. simpl in *.
  split; [constructor; assumption|congruence].
Qed.
Lemma nnz_opp w : R.nnz (map Qopp w) = R.nnz w.
Proof.
  unfold R.nnz. induction w as [|x w IH]; [reflexivity|]. simpl.
  replace (Qeq_bool (- x) 0) with (Qeq_bool x 0) by (destruct x as [[|p|p] q]; reflexivity).
  destruct (Qeq_bool x 0); simpl; rewrite IH; reflexivity.
Qed.
Lemma cons_two_rows d : cons_two d -> forall h, In h (R.cons_rows (oh_dom d)) -> (2 <= R.nnz (fst h))%nat.
Proof.
  intros H2 h Hh. unfold R.cons_rows, oh_dom, oh_cons in Hh. simpl in Hh. rewrite map_map in Hh.
  apply in_map_iff in Hh as (k & <- & Hk). simpl. rewrite nnz_opp. apply H2. exact Hk.
Qed.
Lemma no_bound_feasible d q : cons_two d -> RP.in_box (one_hot_box d) q ->
  RP.sat_all (R.no_bound_rows (R.halfspaces (oh_dom d))) q -> RP.feasible (oh_dom d) q.
Proof.
  intros H2 Hb Hs. split; [exact Hb|]. apply RP.cons_rows_sat. intros h Hin. apply Hs. unfold R.no_bound_rows.
  apply filter_In. split; [unfold R.halfspaces; apply in_or_app; left; exact Hin|].
  apply Nat.ltb_lt. pose proof (cons_two_rows d H2 h Hin). lia.
Qed.
Lemma restrict_points_okpt d c vp on us ps : wf_domain d = true -> cons_two d ->
  (is_constrained d = true -> RP.interior (oh_dom d) c) -> Forall RP.unit_interval us ->
  Forall (okpt d) (fst (R.restrict_points (oh_dom d) c vp on us ps)) /\
  length (fst (R.restrict_points (oh_dom d) c vp on us ps)) = length ps.
Proof.
  intros Hwf H2 Hi Hus. unfold R.restrict_points. pose proof (oh_box_ordered d Hwf) as Hord.
  set (bs := one_hot_box d) in *. change (R.bounds (oh_dom d)) with bs.
  assert (Hclip : Forall (fun p => RP.in_box bs p \/ (length p < length bs)%nat) (map (R.clip bs) ps)).
  { apply Forall_map, Forall_forall. intros p _.
    destruct (Nat.le_gt_cases (length bs) (length p)) as [L|L]; [left; apply clip_long; assumption|right].
    unfold R.clip. rewrite map2_len. lia. }
  rewrite is_constrained_R. destruct (is_constrained d) eqn:Ec.
  - specialize (Hi eq_refl). assert (Ec' : R.is_constrained (oh_dom d) = true) by (rewrite is_constrained_R; exact Ec).
    pose proof (RP.viable_point_is_strict (oh_dom d) c vp Ec' Hi) as Hv. set (v := R.select_viable (oh_dom d) c vp) in *.
    destruct (restrict_list_or_short bs (R.no_bound_rows (R.halfspaces (oh_dom d))) v on (RP.interior_in_box _ _ Hv)
                (RP.strict_all_filter _ _ _ (proj2 Hv)) _ us Hclip Hus) as [A B].
    rewrite map_length in B. split; [|exact B].
    eapply Forall_impl; [|exact A]. intros q [[Hb Hs]|Hl]; [intros _; apply no_bound_feasible; assumption|exact (short_okpt d q Hl)].
  - simpl. rewrite map_length. split; [|reflexivity].
    eapply Forall_impl; [|exact Hclip]. intros q [Hb|Hl]; [intros _; apply unconstrained_feasible; assumption|exact (short_okpt d q Hl)].
Qed.
Lemma set_nth_length j v : forall p, length (R.set_nth j v p) = length p.
Proof. revert j. induction j as [|j IH]; intros [|x p]; simpl; try reflexivity. rewrite IH. reflexivity. Qed.
Lemma fix_point_length fixed : forall p, length (R.fix_point fixed p) = length p.
Proof.
  unfold R.fix_point. induction fixed as [|iv fixed IH]; intros p; simpl; [reflexivity|]. rewrite IH. apply set_nth_length.
Qed.
Lemma okpt_fix d fixed q : RP.fixed_valid (oh_dom d) fixed -> okpt d q -> okpt d (R.fix_point fixed q).
Proof. intros Hf Hq Hl. rewrite fix_point_length in Hl. apply RP.fixed_point_feasible; [exact Hf|apply Hq, Hl]. Qed.

(* the contract C07 asks of the restriction, for the restriction of the search domain, for every batch *)
Theorem oh_restrict_contract d fixed c us : wf_domain d = true -> cons_two d ->
  (is_constrained d = true -> RP.interior (oh_dom d) c) -> (forall k, Forall RP.unit_interval (us k)) ->
  RP.fixed_valid (oh_dom d) fixed ->
  (forall k b, Forall (okpt d) (oh_restrict d fixed c us k b)) /\ (forall k b, length (oh_restrict d fixed c us k b) = length b).
Proof.
  intros Hwf H2 Hi Hus Hf. split; intros k b; unfold oh_restrict, R.fixed_restrict;
    destruct (restrict_points_okpt d c None false (us k) b Hwf H2 Hi (Hus k)) as [A B].
  - apply Forall_map. eapply Forall_impl; [|exact A]. intros q Hq. exact (okpt_fix d fixed q Hf Hq).
  - rewrite map_length. exact B.
Qed.

(* the optimiser stage (C07 instantiated with D) *)
Definition stage_ctx (d : domain) (fixed : list (nat * Q)) (c : row) : Prop :=
  wf_domain d = true /\ cons_two d /\ (is_constrained d = true -> RP.interior (oh_dom d) c) /\ RP.fixed_valid (oh_dom d) fixed.
Definition unit_stream (us : nat -> list Q) : Prop := forall k, Forall RP.unit_interval (us k).
Definition vorc_ok (o : vorc) : Prop := unit_stream (v_us_es o) /\ unit_stream (v_us_gd o).

Lemma sbind_ok {A B} (r : sres A) (f : A -> sres B) y : sbind r f = SOk y -> exists a, r = SOk a /\ f a = SOk y.
Proof. destruct r as [a|e]; [|discriminate]. intros H. exists a. split; [reflexivity|exact H]. Qed.
Lemma lift_ok {A} (r : OP.result A) a : lift r = SOk a -> r = OP.Ok a.
Proof. destruct r; [|discriminate]. intros H. injection H as ->. reflexivity. Qed.

Lemma best_location_evaluated af restrict (dom : row -> Prop) starting o p :
  OPP.run_ok af restrict dom starting o -> OP.best_location o = Some p -> dom p.
Proof.
  intros (He & (p' & v & Eb & Hfm & _) & _) Hp. unfold OP.best_location in Hp. rewrite Eb in Hp. simpl in Hp. injection Hp as <-.
  pose proof (OPP.first_max_in af _ _ _ Hfm) as Hin. apply in_concat in Hin as (b & Hb & Hpb).
  rewrite Forall_forall in He. specialize (He b Hb). rewrite Forall_forall in He. apply He, Hpb.
Qed.

Lemma de_best_okpt d fixed c us af gen P maxiter sel ds o p : stage_ctx d fixed c -> unit_stream us ->
  OP.de_optimize af (oh_restrict d fixed c us) gen P maxiter sel ds = OP.Ok o -> OP.best_location o = Some p -> okpt d p.
Proof.
  intros (Hwf & H2 & Hi & Hf) Hus Ed Eb. destruct (oh_restrict_contract d fixed c us Hwf H2 Hi Hus Hf) as [C1 C2].
  eapply best_location_evaluated; [|exact Eb]. eapply OPP.de_optimize_ok; [exact C1|exact C2|exact Ed].
Qed.

Theorem vec_acq_opt_okpt d fixed c af best_obs P pretest o p : stage_ctx d fixed c -> vorc_ok o ->
  vec_acq_opt d fixed c af best_obs P pretest o = SOk p -> okpt d p.
Proof.
  intros (Hwf & H2 & Hi & Hf) [Hes Hgd] H. unfold vec_acq_opt in H. destruct pretest as [|x0 pre]; [discriminate|].
  apply sbind_ok in H as (o_es & _ & H). destruct (OP.best_location o_es) as [best_es|]; [|discriminate].
  destruct (Nat.leb _ _); [|discriminate]. apply sbind_ok in H as (o_gd & Ea & H). apply lift_ok in Ea.
  destruct (OP.best_location o_gd) as [q|] eqn:Eb; [|discriminate]. injection H as <-.
  destruct (oh_restrict_contract d fixed c (v_us_gd o) Hwf H2 Hi Hgd Hf) as [C1 _].
  eapply best_location_evaluated; [|exact Eb]. eapply OPP.adam_optimize_ok; [exact C1|exact Ea].
Qed.

Theorem cl_loop_feasible d fixed c afl best P pretest : stage_ctx d fixed c ->
  forall os lies xs, Forall vorc_ok os -> cl_loop d fixed c afl best P pretest lies os = SOk xs ->
  Forall (RP.feasible (oh_dom d)) xs /\ length xs = length os.
Proof.
  intros Hctx. induction os as [|o os IH]; intros lies xs Hos H; cbn [cl_loop] in H.
  - injection H as <-. split; [constructor|reflexivity].
  - inversion Hos as [|? ? Ho Hos']; subst. apply sbind_ok in H as (p & Ev & H).
    destruct (Nat.eqb_spec (length p) (oh_dim d)) as [El|_]; [|discriminate].
    apply sbind_ok in H as (rest & Er & H). injection H as <-. destruct (IH _ _ Hos' Er) as [A B]. split; [|simpl; congruence].
    constructor; [|exact A]. apply (vec_acq_opt_okpt d fixed c _ _ P pretest o p Hctx Ho Ev El).
Qed.
Theorem cl_stage_feasible d fixed c afl best P pretest n os xs : stage_ctx d fixed c -> Forall vorc_ok os ->
  cl_stage d fixed c afl best P pretest n os = SOk xs -> Forall (RP.feasible (oh_dom d)) xs /\ length xs = n.
Proof.
  intros Hctx Hos H. unfold cl_stage in H. destruct (Nat.eqb_spec (length os) n) as [E|_]; [|discriminate].
  destruct (cl_loop_feasible d fixed c afl best P pretest Hctx os [] xs Hos H) as [A B]. split; [exact A|congruence].
Qed.
Theorem qei_stage_feasible d fixed c af Pde maxiter gen us ds xs : stage_ctx d fixed c -> unit_stream us ->
  qei_stage d fixed c af Pde maxiter gen us ds = SOk xs -> Forall (RP.feasible (oh_dom d)) xs /\ length xs = 1%nat.
Proof.
  intros Hctx Hus H. unfold qei_stage in H.
  apply sbind_ok in H as (o & Ed & H). apply lift_ok in Ed. destruct (OP.best_location o) as [p|] eqn:Eb; [|discriminate].
  destruct (Nat.eqb_spec (length p) (oh_dim d)) as [El|_]; [|discriminate]. injection H as <-.
  split; [|reflexivity]. constructor; [|constructor]. exact (de_best_okpt _ _ _ _ _ _ _ _ _ _ o p Hctx Hus Ed Eb El).
Qed.
Theorem search_loop_feasible d c afl Pde maxiter pretest : stage_ctx d [] c ->
  forall os lies xs, Forall (fun o => unit_stream (so_us o)) os -> search_loop d c afl Pde maxiter pretest lies os = SOk xs ->
  Forall (RP.feasible (oh_dom d)) xs /\ length xs = length os.
Proof.
  intros Hctx. induction os as [|o os IH]; intros lies xs Hos H; cbn [search_loop] in H.
  - injection H as <-. split; [constructor|reflexivity].
  - inversion Hos as [|? ? Ho Hos']; subst. destruct pretest as [|x0 pre]; [discriminate|].
    apply sbind_ok in H as (o_de & Ed & H). apply lift_ok in Ed. destruct (OP.best_location o_de) as [p|] eqn:Eb; [|discriminate].
    destruct (Nat.eqb_spec (length p) (oh_dim d)) as [El|_]; [|discriminate].
    apply sbind_ok in H as (rest & Er & H). injection H as <-. destruct (IH _ _ Hos' Er) as [A B]. split; [|simpl; congruence]. constructor; [|exact A].
    exact (de_best_okpt _ _ _ _ _ _ _ _ _ _ o_de p Hctx Ho Ed Eb El).
Qed.
Definition mode_ok (m : gp_mode) : Prop :=
  match m with
  | GCl _ _ os => Forall vorc_ok os
  | GQei _ _ _ us _ => unit_stream us
  | GSearch _ _ _ os => Forall (fun o => unit_stream (so_us o)) os
  end.
Theorem gp_stage_feasible D fixed c afl best n m xs : stage_ctx D fixed c -> mode_ok m ->
  gp_stage D fixed c afl best n m = SOk xs -> Forall (RP.feasible (oh_dom D)) xs /\ length xs = n.
Proof.
  intros Hctx Hm H. destruct m as [P pretest os|Pde maxiter gen us ds|Pde maxiter pretest os]; cbn [gp_stage] in H.
  - eapply cl_stage_feasible; eassumption.
  - destruct (Nat.eqb_spec n 1) as [E|_]; [|discriminate]. subst n. eapply qei_stage_feasible; eassumption.
  - destruct fixed; [|discriminate]. destruct (Nat.eqb_spec (length os) n) as [E|_]; [|discriminate].
    destruct (search_loop_feasible D c afl Pde maxiter pretest Hctx os [] xs Hm H) as [A B]. split; [exact A|congruence].
Qed.
Corollary gp_stage_relaxed_ok D fixed c afl best n m xs : stage_ctx D fixed c -> mode_ok m ->
  gp_stage D fixed c afl best n m = SOk xs -> Forall (relaxed_ok D) xs /\ length xs = n.
Proof.
  intros Hctx Hm H. destruct (gp_stage_feasible D fixed c afl best n m xs Hctx Hm H) as [A B]. split; [|exact B].
  exact (feasible_all_relaxed_ok D xs A).
Qed.

(* the one-hot sampler (C08's samplers on D) *)
Definition unit_row (n : nat) (u : row) : Prop := length u = n /\ Forall RP.unit_interval u.
Definition HR_RUNUP_DISCARD (dim : nat) : nat := (10 * (dim + 1) + 25 * (dim + 1))%nat.
(* range contracts of the primitive draws of generate_quasi_random_points_in_domain(n) *)
Definition samp_ok (d : domain) (n : nat) (o : samp_orc) : Prop :=
  let dim := oh_dim d in
  match o with
  | SLhs U perms => SP.lhs_draws_ok n dim U /\ (forall j, (j < dim)%nat -> Permutation (seq 0 n) (nth j perms []))
  | SUnit rows => Forall (unit_row dim) rows
  | SRej blocks draws =>
      Forall (Forall (unit_row dim)) blocks /\ SP.hr_draws_ok dim draws /\
      (* hit-and-run padding, when it runs, is given one draw triple per iteration *)
      (forall pts, SA.rejection_sampling (R.halfspaces (oh_dom d)) n REJECTION_SAMPLING_BLOCK_SIZE DEFAULT_REJECTION_SAMPLING_TRIALS
                     (map (SA.cube_sampler (one_hot_box d)) blocks) = (pts, false) ->
                   (HR_RUNUP_DISCARD dim + (n - length pts) <= length draws)%nat)
  | SHit draws urows =>
      SP.hr_draws_ok dim draws /\ (HR_RUNUP_DISCARD dim + n <= length draws)%nat /\
      length urows = n /\ Forall (Forall RP.unit_interval) urows
  end.

(* the direction after the run-up: towards an earlier point, or the normal row when that vector vanishes (or does not exist) *)
Lemma hr_dir_length n (z mean : row) r pts : length z = n -> length mean = n -> Forall (fun p => length p = n) pts ->
  length (let w := R.map2 Qminus (nth r pts []) mean in if SA.is_zero_vec w then z else w) = n.
Proof.
  intros Hz Hm Hp. cbv zeta. destruct (SA.is_zero_vec _) eqn:Ez; [exact Hz|].
  destruct (Nat.lt_ge_cases r (length pts)) as [L|L]; [|rewrite nth_overflow in Ez by exact L; discriminate].
  rewrite Forall_forall in Hp. rewrite map2_len, (Hp _ (nth_In _ _ L)), Hm. apply Nat.min_id.
Qed.
Lemma hr_loop_shape hs runup n : forall draws it x mean pts out,
  SP.hr_draws_ok n draws -> length x = n -> length mean = n -> Forall (fun p => length p = n) pts ->
  SA.hr_loop hs runup it x mean pts draws = Some out ->
  Forall (fun p => length p = n) out /\ length out = (length pts + length draws)%nat.
Proof.
  induction draws as [|[[z u] r] draws IH]; intros it x mean pts out Hd Hx Hm Hp; simpl.
  - intros E. injection E as <-. split; [exact Hp|apply plus_n_O].
  - inversion Hd as [|? ? [Hz _] Hd']; subst. simpl in Hz.
    set (dd := if Nat.ltb it runup then z else _).
    assert (Hdl : length dd = length x) by (unfold dd; destruct (Nat.ltb it runup); [exact Hz|apply hr_dir_length; assumption]).
    destruct (SA.hr_step hs x dd u) as [x'|] eqn:Es; [|discriminate].
    apply (SP.hr_step_length _ _ _ _ _ (eq_sym Hdl)) in Es.
    intros E. apply IH in E; [|exact Hd'|exact Es|rewrite map2_len, Hm, Es; apply Nat.min_id|].
    + destruct E as [A B]. split; [exact A|]. rewrite B, app_length, <- Nat.add_assoc. reflexivity.
    + apply Forall_app. split; [exact Hp|]. constructor; [exact Es|constructor].
Qed.
Lemma hitandrun_shape hs dim num x0 draws out : SP.hr_draws_ok dim draws -> length x0 = dim ->
  (HR_RUNUP_DISCARD dim + num <= length draws)%nat -> SA.hitandrun hs dim num x0 draws = Some out ->
  Forall (fun p => length p = dim) out /\ length out = num.
Proof.
  intros Hd Hx. unfold SA.hitandrun, HR_RUNUP_DISCARD. generalize (10 * (dim + 1))%nat (25 * (dim + 1))%nat. intros a b Hn.
  destruct (SA.hr_loop hs a 0 x0 (repeat 0 dim) [] (firstn (a + b + num) draws)) as [pts|] eqn:E; [|discriminate].
  intros E'. injection E' as <-.
  assert (Hd' : SP.hr_draws_ok dim (firstn (a + b + num) draws)) by exact (incl_Forall (SP.firstn_In _ draws) Hd).
  destruct (hr_loop_shape hs a dim _ _ _ _ _ _ Hd' Hx (repeat_length 0 dim) (Forall_nil _) E) as [A B].
  simpl in B. rewrite firstn_length_le in B by exact Hn. split; [|rewrite skipn_length, B; lia].
  rewrite <- (firstn_skipn (b + a) pts) in A. apply Forall_app in A. apply A.
Qed.

Lemma sat_halfspaces_feasible d p : length p = oh_dim d -> RP.sat_all (R.halfspaces (oh_dom d)) p -> RP.feasible (oh_dom d) p.
Proof. intros Hl Hs. apply RP.halfspaces_sat_iff; assumption. Qed.

(* overwriting the columns no constraint mentions by uniform values of their own ranges keeps the region *)
Lemma combine_transform_In (f : nat -> Q * Q) : forall idx u j v,
  In (j, v) (combine idx (SA.cube_transform (map f idx) u)) -> Forall RP.unit_interval u ->
  In j idx /\ exists ui, RP.unit_interval ui /\ v = fst (f j) + (snd (f j) - fst (f j)) * ui.
Proof.
  induction idx as [|i idx IH]; intros [|ui u] j v Hin Hu; simpl in Hin; try contradiction.
  inversion Hu; subst. destruct Hin as [E|Hin].
  - injection E as <- <-. split; [left; reflexivity|]. exists ui. split; [assumption|reflexivity].
  - destruct (IH u j v Hin H2) as [A B]. split; [right; exact A|exact B].
Qed.
Lemma overwrite_uncon_feasible d p u : wf_domain d = true -> Forall RP.unit_interval u ->
  RP.feasible (oh_dom d) p -> RP.feasible (oh_dom d) (overwrite_uncon d p u).
Proof.
  intros Hwf Hu Hp. unfold overwrite_uncon. apply RP.fixed_point_feasible; [|exact Hp].
  intros [j v] Hin. simpl.
  destruct (combine_transform_In (fun j => nth j (one_hot_box d) (0, 0)) _ _ _ _ Hin Hu) as [Hj (ui & [U0 U1] & ->)].
  unfold uncon_idx in Hj. apply filter_In in Hj as [Hj Hz]. apply in_seq in Hj.
  split; [unfold oh_dom; simpl; unfold oh_dim in Hj; lia|]. split.
  - unfold oh_dom. simpl. set (b := nth j (one_hot_box d) (0, 0)).
    assert (B : fst b <= snd b). { apply (oh_box_ordered d Hwf). apply nth_In. unfold oh_dim in Hj. lia. }
    split; nra.
  - intros c0 Hc. rewrite forallb_forall in Hz. apply Qeq_bool_iff. apply Hz. exact Hc.
Qed.
Lemma map2_In {A B C} (f : A -> B -> C) : forall a b x, In x (R.map2 f a b) -> exists p q, In p a /\ In q b /\ x = f p q.
Proof.
  induction a as [|p a IH]; intros [|q b] x H; simpl in H; try contradiction. destruct H as [<-|H].
  - exists p, q. simpl. auto.
  - destruct (IH b x H) as (p' & q' & A1 & A2 & E). exists p', q'. simpl. auto.
Qed.

Lemma hitandrun_feasible d c num draws pts : RP.interior (oh_dom d) c -> SP.hr_draws_ok (oh_dim d) draws ->
  (HR_RUNUP_DISCARD (oh_dim d) + num <= length draws)%nat ->
  SA.hitandrun (R.halfspaces (oh_dom d)) (oh_dim d) num c draws = Some pts ->
  Forall (RP.feasible (oh_dom d)) pts /\ length pts = num.
Proof.
  intros [Hcl Hcs] Hdr Hlen Eh. change (length (R.bounds (oh_dom d))) with (oh_dim d) in Hcl.
  destruct (hitandrun_shape _ (oh_dim d) _ c draws pts Hdr Hcl Hlen Eh) as [Sl Sn].
  pose proof (SP.hitandrun_inside _ (oh_dim d) _ c draws pts Hdr Hcl (RP.strict_sat _ _ Hcs) Eh) as Sin.
  split; [|exact Sn]. eapply Forall_impl; [|exact (Forall_and Sl Sin)]. intros p [A B]. exact (sat_halfspaces_feasible d p A B).
Qed.
Lemma rejection_short hs n bsz budget cand pts : SA.rejection_sampling hs n bsz budget cand = (pts, false) -> (length pts <= n)%nat.
Proof.
  unfold SA.rejection_sampling. destruct n as [|m]; [intros E; injection E as <-; simpl; lia|].
  pose proof (SP.rejection_loop_count hs bsz cand [] (Z.of_nat (S m)) budget) as Cn.
  destruct (SA.rejection_loop hs bsz cand [] (Z.of_nat (S m)) budget) as [pp lft]. cbn [fst snd length] in Cn.
  destruct (Z.ltb 0 lft) eqn:El; [|discriminate]. intros E. injection E as <-. apply Z.ltb_lt in El. lia.
Qed.
Lemma rejection_feasible d n bsz budget blocks : wf_domain d = true -> Forall (Forall (unit_row (oh_dim d))) blocks ->
  let r := SA.rejection_sampling (R.halfspaces (oh_dom d)) n bsz budget (map (SA.cube_sampler (one_hot_box d)) blocks) in
  Forall (RP.feasible (oh_dom d)) (fst r) /\ (snd r = true -> length (fst r) = n).
Proof.
  intros Hwf Hbl r.
  destruct (SP.rejection_outputs_feasible (R.halfspaces (oh_dom d)) n bsz budget (map (SA.cube_sampler (one_hot_box d)) blocks)
              (fun p => length p = oh_dim d)) as [Rf Rn]; [|split; [|exact Rn]].
  - intros blk p Hb Hp. apply in_map_iff in Hb as (ub & <- & Hub). rewrite Forall_forall in Hbl.
    pose proof (SP.cube_sampler_in_box (one_hot_box d) ub (oh_box_ordered d Hwf) (Hbl ub Hub)) as F. rewrite Forall_forall in F.
    apply (RP.in_box_length _ _ (F p Hp)).
  - eapply Forall_impl; [|exact Rf]. intros p [A B]. apply sat_halfspaces_feasible; assumption.
Qed.

Theorem oh_sample_ok d c n o rows : wf_domain d = true -> (is_constrained d = true -> RP.interior (oh_dom d) c) ->
  samp_ok d n o -> oh_sample d c n o = Some rows -> Forall (RP.feasible (oh_dom d)) rows /\ length rows = n.
Proof.
  intros Hwf Hi Hs H. unfold oh_sample in H. rewrite is_constrained_R in H. fold (oh_dim d) in H.
  pose proof (oh_box_ordered d Hwf) as Hord.
  destruct (is_constrained d) eqn:Ec; destruct o as [U perms|urows|blocks draws|draws urows]; try discriminate.
  - (* rejection sampling, hit-and-run padding *)
    destruct Hs as (Hbl & Hdr & Hlen). unfold SA.rejection_with_padding in H.
    destruct (rejection_feasible d n REJECTION_SAMPLING_BLOCK_SIZE DEFAULT_REJECTION_SAMPLING_TRIALS blocks Hwf Hbl) as [Fp Rn].
    destruct (SA.rejection_sampling _ n _ _ _) as [pts ok] eqn:Er. cbn [fst snd] in Fp, Rn.
    destruct ok; cbn [negb andb] in H; [injection H as <-; split; [exact Fp|apply Rn; reflexivity]|].
    pose proof (rejection_short _ _ _ _ _ _ Er) as Hle. destruct (Nat.ltb 0 n) eqn:En.
    + destruct (SA.hitandrun _ (oh_dim d) (n - length pts) c draws) as [more|] eqn:Eh; [|discriminate]. injection H as <-.
      destruct (hitandrun_feasible d c _ draws more (Hi eq_refl) Hdr (Hlen pts eq_refl) Eh) as [Fm Sn].
      split; [apply Forall_app; split; assumption|rewrite app_length, Sn; lia].
    + injection H as <-. apply Nat.ltb_ge in En. split; [exact Fp|lia].
  - (* hit-and-run with the unconstrained columns re-drawn *)
    destruct Hs as (Hdr & Hlen & Hul & Huu).
    destruct (SA.hitandrun _ (oh_dim d) n c draws) as [pts|] eqn:Eh; [|discriminate]. injection H as <-.
    destruct (hitandrun_feasible d c n draws pts (Hi eq_refl) Hdr Hlen Eh) as [Fp Sn]. split; [|rewrite map2_len; lia].
    apply Forall_forall. intros x Hx. apply map2_In in Hx as (p & u & Hp & Hu & ->). rewrite Forall_forall in Fp, Huu.
    apply overwrite_uncon_feasible; [exact Hwf|apply Huu, Hu|apply Fp, Hp].
  - injection H as <-. destruct Hs as [HU HP].
    destruct (SP.lhs_points_in_box (one_hot_box d) n U perms Hord HU HP) as [L F]. split; [|exact L].
    eapply Forall_impl; [|exact F]. intros p Hp. apply unconstrained_feasible; assumption.
  - destruct (Nat.eqb_spec (length urows) n) as [El|_]; [|discriminate]. injection H as <-.
    split; [|unfold SA.cube_sampler; rewrite map_length; exact El].
    pose proof (SP.cube_sampler_in_box (one_hot_box d) urows Hord Hs) as F.
    eapply Forall_impl; [|exact F]. intros p Hp. apply unconstrained_feasible; assumption.
Qed.

(* end to end: the endpoint theorems below have no relaxed_ok hypothesis.
   Their hypotheses are range contracts of the primitive random draws (numpy.random.random in [0,1], shuffles are
   permutations, hit-and-run draw triples, scipy.stats priors inside their supports, numpy.random.choice returns members)
   and, on a constrained domain, a strictly interior point c of the search domain (what find_interior_point returns when
   it reports feasibility: C08_cheby_flag_gives_interior). *)
Definition quasi_prim (d : domain) (c : row) (n : Z) (so : samp_orc) (cols : list (list Q)) (dec : dorc) : Prop :=
  if is_constrained d
  then samp_ok d (Z.to_nat n) so /\ (Z.to_nat n <= length (o_cats dec))%nat
  else DP.cols_ok (Z.to_nat n) (DS.quasi_requests (ddom d)) cols.
Lemma mk_qorc_ok d c n so cols dec q : wf_domain d = true -> (is_constrained d = true -> RP.interior (oh_dom d) c) ->
  quasi_prim d c n so cols dec -> mk_qorc d c n so cols dec = Some q -> qorc_ok d n q.
Proof.
  intros Hwf Hi Hq H. unfold mk_qorc, quasi_prim, qorc_ok in *. destruct (is_constrained d) eqn:Ec.
  - destruct (oh_sample d c (Z.to_nat n) so) as [rows|] eqn:Es; [|discriminate]. simpl in H. injection H as <-. cbn [q_rows q_dec].
    destruct Hq as [Hs Hl]. destruct (oh_sample_ok d c _ so rows Hwf (fun _ => Hi eq_refl) Hs Es) as [A B].
    split; [exact (feasible_all_relaxed_ok d rows A)|split; [exact B|rewrite B; exact Hl]].
  - injection H as <-. exact Hq.
Qed.

(* the random endpoint (also: the initialisation / random branches of the Parzen endpoints) *)
Definition random_prim (d : domain) (ps : list DS.prior) (n : Z) (pcols : list (list Q)) (c : row) (so : samp_orc)
  (cols : list (list Q)) (dec : dorc) : Prop :=
  match DS.view_path ps (is_constrained d) with
  | DS.UsePriors => length ps = length (comps d) /\ Forall prior_valid ps /\ DP.cols_ok (Z.to_nat n) (prior_reqs d ps) pcols
  | DS.UseQuasi => quasi_prim d c n so cols dec
  end.
Theorem random_endpoint_admissible d opts ps n pcols c so cols dec draws r : wf_domain d = true ->
  (is_constrained d = true -> RP.interior (oh_dom d) c) -> random_prim d ps n pcols c so cols dec ->
  (opts <> [] -> draws_ok opts (length (r_points r)) draws) ->
  random_endpoint d opts ps n pcols c so cols dec draws = Some r -> resp_ok d opts (Z.to_nat n) r.
Proof.
  intros Hwf Hi Hp Hd H. unfold random_endpoint in H. apply obind_some in H as (q & Eq & H).
  apply (random_tail_resp_ok d opts ps n pcols q draws r Hwf); [| |exact H].
  - unfold random_contract, random_prim in *. destruct (DS.view_path ps (is_constrained d)); [exact Hp|].
    apply (mk_qorc_ok d c n so cols dec q Hwf Hi Hp Eq).
  - intros pts Hpts Hne. unfold random_tail, obind in H. rewrite Hpts in H. injection H as <-.
    unfold with_costs in Hd. cbn [r_points] in Hd. apply Hd. exact Hne.
Qed.

Definition fill_prim (D : domain) (c : row) (k : Z) (hist : list point) (f : gp_fill) : Prop :=
  if negb (is_discrete D) || is_constrained D then quasi_prim D c k (f_so f) (f_cols f) (f_dec f)
  else DP.cols_ok (Z.to_nat k) (DS.quasi_requests (ddom D)) (f_cols f) /\
       DP.oracle_ok (DS.distinct_plan (ddom D) k hist DS.default_dup_prob) (f_choice f).
Lemma fill_prim_contract D c k hist f q : wf_domain D = true -> (is_constrained D = true -> RP.interior (oh_dom D) c) ->
  fill_prim D c k hist f -> mk_qorc D c k (f_so f) (f_cols f) (f_dec f) = Some q -> fill_contract D k hist (f_choice f) q.
Proof.
  intros Hwf Hi Hf Hq. unfold fill_prim, fill_contract in *. destruct (negb (is_discrete D) || is_constrained D) eqn:E.
  - apply (mk_qorc_ok D c k _ _ _ q Hwf Hi Hf Hq).
  - apply orb_false_iff in E as [_ Ec]. unfold mk_qorc in Hq. rewrite Ec in Hq. injection Hq as <-. exact Hf.
Qed.
Lemma fill_k_eq D pts hist u2 : kept_of D pts hist uniq_tol = Some u2 -> fill_k D pts hist = (DS.zlen pts - DS.zlen u2)%Z.
Proof. unfold fill_k. intros ->. reflexivity. Qed.
Lemma fixed_valid_nil D : RP.fixed_valid D [].
Proof. intros iv []. Qed.
Lemma view_assert_some d n r x : view_assert d n r = Some x -> r = Some x.
Proof. unfold view_assert, obind. destruct r as [y|]; [|discriminate]. destruct (_ || _); [intros E; exact E|discriminate]. Qed.

Theorem gp_endpoint_admissible d c afl aft best n m hist dec f r :
  wf_domain d = true -> cons_two d -> (is_constrained d = true -> RP.interior (oh_dom d) c) -> mode_ok m ->
  (n <= length (o_cats dec))%nat ->
  (forall xs pts, gp_stage d [] c afl best n m = SOk xs -> convert_from_one_hot d (is_qei m) aft dec xs = Some pts ->
     fill_prim d c (fill_k d pts hist) hist f) ->
  gp_endpoint d c afl aft best n m hist dec f = Some r -> resp_ok d [] n r.
Proof.
  intros Hwf H2 Hi Hm Hl Hf H. unfold gp_endpoint in H.
  destruct (gp_stage d [] c afl best n m) as [xs|e] eqn:Es; [|discriminate].
  destruct (gp_stage_relaxed_ok d [] c afl best n m xs (conj Hwf (conj H2 (conj Hi (fixed_valid_nil _)))) Hm Es) as [Hxs Hlen].
  apply obind_some in H as (pts & Ec & H). apply obind_some in H as (q & Eq & H).
  apply view_assert_some in H. rewrite <- Hlen.
  eapply (tail_gp_admissible d (is_qei m) aft xs hist []); [exact Hwf|exact Hxs| | |exact H]; cbn [g_dec g_choice g_q]; [lia|].
  intros pts' u2 Ec' Ek. rewrite Ec in Ec'. injection Ec' as <-. rewrite <- (fill_k_eq _ _ _ _ Ek).
  exact (fill_prim_contract d c _ hist f q Hwf Hi (Hf xs pts eq_refl Ec) Eq).
Qed.

(* the GP endpoint with task options: the search domain carries the task column, fixed at the a-priori task *)
Lemma oh_weights_len : forall cs w, length w = length cs -> length (oh_weights cs w) = length (flat_map box_of cs).
Proof.
  induction cs as [|c cs IH]; intros [|a w] Hl; simpl in Hl; try discriminate; [reflexivity|].
  destruct c as [lo hi|lo hi|es|es]; cbn [oh_weights flat_map box_of]; rewrite ?app_length, ?repeat_length; simpl; rewrite IH by congruence; reflexivity.
Qed.
Lemma oh_weights_app a b : forall cs w, length w = length cs -> oh_weights (cs ++ [Double a b]) (w ++ [0]) = oh_weights cs w ++ [0].
Proof.
  induction cs as [|c cs IH]; intros [|x w] Hl; simpl in Hl; try discriminate; [reflexivity|].
  destruct c as [lo hi|lo hi|es|es]; cbn [oh_weights app]; rewrite IH by congruence; try reflexivity. rewrite app_assoc. reflexivity.
Qed.
Lemma box_with_task d opts : one_hot_box (with_task d opts) = one_hot_box d ++ [(list_min opts, list_max opts)].
Proof. unfold one_hot_box. cbn [with_task comps]. rewrite flat_map_app. reflexivity. Qed.
Lemma nnz_app0 l : R.nnz (l ++ [0]) = R.nnz l.
Proof. unfold R.nnz. rewrite filter_app, app_length. simpl. lia. Qed.
Lemma cons_two_with_task d opts : wf_domain d = true -> cons_two d -> cons_two (with_task d opts).
Proof.
  intros Hwf H2 k' Hk'. cbn [with_task cons comps] in *. apply in_map_iff in Hk' as (k & <- & Hk). cbn [weights].
  rewrite oh_weights_app by (apply wf_domain_cons_length; assumption). rewrite nnz_app0. apply H2, Hk.
Qed.
Lemma task_fixed_valid d opts t : wf_domain d = true -> In t opts -> RP.fixed_valid (oh_dom (with_task d opts)) (task_fixed d t).
Proof.
  intros Hwf Ht iv [<-|[]]. cbn [fst snd]. unfold oh_dom. cbn [R.bounds R.cstrs]. rewrite box_with_task. split; [|split].
  - rewrite app_length. unfold oh_dim. simpl. lia.
  - unfold oh_dim. rewrite app_nth2 by lia. rewrite Nat.sub_diag. simpl. apply grid_range. exact Ht.
  - intros c0 Hc. unfold oh_cons in Hc. cbn [with_task cons comps] in Hc. rewrite map_map in Hc.
    apply in_map_iff in Hc as (k & <- & Hk). cbn [weights fst].
    rewrite oh_weights_app by (apply wf_domain_cons_length; assumption).
    assert (L : length (oh_weights (comps d) (weights k)) = oh_dim d) by (apply oh_weights_len, wf_domain_cons_length; assumption).
    rewrite app_nth2 by lia. rewrite L, Nat.sub_diag. reflexivity.
Qed.

Theorem gp_endpoint_mt_admissible d opts t ct afl aft best n P pretest os hist_oh dec hdec f r :
  wf_domain d = true -> opts <> [] -> list_min opts < list_max opts -> In t opts -> cons_two d ->
  (is_constrained d = true -> RP.interior (oh_dom (with_task d opts)) ct) -> Forall vorc_ok os ->
  (n <= length (o_cats dec))%nat ->
  (forall xs pts aug, cl_stage (with_task d opts) (task_fixed d t) ct afl best P pretest n os = SOk xs ->
     convert_from_one_hot (with_task d opts) false aft dec xs = Some pts ->
     decode_b (with_task d opts) hdec hist_oh = Some aug ->
     fill_prim (with_task d opts) ct (fill_k (with_task d opts) pts aug) aug f) ->
  gp_endpoint_mt d opts t ct afl aft best n P pretest os hist_oh dec hdec f = Some r -> resp_ok d opts n r.
Proof.
  intros Hwf Hne Hlt Ht H2 Hi Hos Hl Hf H. unfold gp_endpoint_mt in H. set (dt := with_task d opts) in *.
  pose proof (DecodeTask.with_task_wellformed d opts Hwf Hlt) as Hwt.
  assert (Hit : is_constrained dt = true -> RP.interior (oh_dom dt) ct) by (unfold dt; rewrite DecodeTask.is_constrained_with_task; exact Hi).
  destruct (cl_stage dt (task_fixed d t) ct afl best P pretest n os) as [xs|e] eqn:Es; [|discriminate].
  assert (Hctx : stage_ctx dt (task_fixed d t) ct).
  { split; [exact Hwt|]. split; [apply cons_two_with_task; assumption|]. split; [exact Hit|apply task_fixed_valid; assumption]. }
  destruct (cl_stage_feasible dt _ ct afl best P pretest n os xs Hctx Hos Es) as [Hfe Hlen].
  pose proof (feasible_all_relaxed_ok dt xs Hfe) as Hxs.
  apply obind_some in H as (pts & Ec & H). apply obind_some in H as (aug & Ea & H). apply obind_some in H as (q & Eq & H).
  apply view_assert_some in H. rewrite <- Hlen.
  eapply (tail_gp_multitask_admissible d opts aft xs [] hist_oh); [exact Hwf|exact Hne|exact Hlt|exact Hxs| | |exact H];
    cbn [g_dec g_hdec g_choice g_q]; [lia|].
  intros pts' aug' u2 Ec' Ea' Ek. fold dt in Ec', Ea', Ek |- *. rewrite Ec in Ec'. injection Ec' as <-. rewrite Ea in Ea'. injection Ea' as <-.
  rewrite <- (fill_k_eq _ _ _ _ Ek). exact (fill_prim_contract dt ct _ aug f q Hwt Hit (Hf xs pts aug eq_refl Ec Ea) Eq).
Qed.

Lemma oh_restrict_points_feasible d c vp on us ps : wf_domain d = true -> cons_two d ->
  (is_constrained d = true -> RP.interior (oh_dom d) c) -> Forall RP.unit_interval us ->
  Forall (fun p => length p = oh_dim d) ps ->
  Forall (RP.feasible (oh_dom d)) (fst (R.restrict_points (oh_dom d) c vp on us ps)) /\
  length (fst (R.restrict_points (oh_dom d) c vp on us ps)) = length ps.
Proof.
  intros Hwf H2 Hi Hus Hps. destruct (restrict_points_okpt d c vp on us ps Hwf H2 Hi Hus) as [_ L]. split; [|exact L].
  destruct (is_constrained d) eqn:Ec.
  - apply RP.restrict_in_domain; [apply Hi; reflexivity|exact Hps|exact Hus|apply cons_two_rows; exact H2].
  - unfold R.restrict_points. rewrite is_constrained_R, Ec. simpl. apply Forall_map. eapply Forall_impl; [|exact Hps].
    intros p Hp. apply unconstrained_feasible; [exact Ec|]. apply clip_long; [apply oh_box_ordered; exact Hwf|].
    rewrite Hp. apply Nat.le_refl.
Qed.
(* the SciPy multistart result is an arbitrary list of rows of the right length: re-restricted, it is feasible *)
Theorem spe_max_location_feasible d c scipy_out us : wf_domain d = true -> cons_two d ->
  (is_constrained d = true -> RP.interior (oh_dom d) c) -> Forall RP.unit_interval us ->
  Forall (fun p => length p = oh_dim d) scipy_out -> Forall (RP.feasible (oh_dom d)) (spe_max_location d c scipy_out us).
Proof. intros Hwf H2 Hi Hus Hps. apply (oh_restrict_points_feasible d c None false us scipy_out Hwf H2 Hi Hus Hps). Qed.

Definition near_prim (d : domain) (m : nat) (pt : row) (o : nearorc) : Prop :=
  Forall RP.unit_interval (n_us o) /\ Forall (fun z => length z = oh_dim d) (n_zs o) /\
  (R.acceptable (oh_dom d) pt = false -> samp_ok d m (n_so o)).
Lemma near_or_sample_ok d c m pt o out : wf_domain d = true -> cons_two d ->
  (is_constrained d = true -> RP.interior (oh_dom d) c) -> near_prim d m pt o ->
  near_or_sample d c m pt o = Some out -> Forall (RP.feasible (oh_dom d)) out.
Proof.
  intros Hwf H2 Hi (Hus & Hzs & Hso) H. unfold near_or_sample, R.near_point in H.
  destruct (R.acceptable (oh_dom d) pt) eqn:Ea.
  - assert (Hpt : length pt = oh_dim d).
    { unfold R.acceptable in Ea. apply andb_true_iff in Ea as [Eb _]. apply RP.in_box_b_iff in Eb. apply (RP.in_box_length _ _ Eb). }
    set (ps := map _ (n_zs o)) in H.
    destruct (oh_restrict_points_feasible d c (Some pt) false (n_us o) ps Hwf H2 Hi Hus) as [A _].
    + apply Forall_map. eapply Forall_impl; [|exact Hzs]. intros z Hz. cbv beta in Hz.
      rewrite !map2_len. unfold R.widths. rewrite map_length. change (length (R.bounds (oh_dom d))) with (oh_dim d). lia.
    + destruct (R.restrict_points _ _ _ _ _ ps) as [o1 o2]. injection H as <-. exact A.
  - apply (oh_sample_ok d c m (n_so o) out Hwf Hi (Hso eq_refl) H).
Qed.
Fixpoint props_prim (d : domain) (m : nat) (lower : list row) (os : list nearorc) : Prop :=
  match lower, os with pt :: l, o :: os' => near_prim d m pt o /\ props_prim d m l os' | _, _ => True end.
Lemma proposals_ok d c m : wf_domain d = true -> cons_two d -> (is_constrained d = true -> RP.interior (oh_dom d) c) ->
  forall lower os out, props_prim d m lower os -> proposals d c m lower os = Some out -> Forall (RP.feasible (oh_dom d)) out.
Proof.
  intros Hwf H2 Hi. induction lower as [|pt lower IH]; intros os out Hp H; cbn [proposals] in H.
  - injection H as <-. constructor.
  - destruct os as [|o os]; [discriminate|]. destruct Hp as [Hn Hp].
    destruct (near_or_sample d c m pt o) as [a|] eqn:Ea; [|discriminate].
    destruct (proposals d c m lower os) as [b|] eqn:Eb; [|discriminate]. injection H as <-.
    apply Forall_app. split; [eapply near_or_sample_ok; eassumption|eapply IH; eassumption].
Qed.
Definition SPE_BSZ : nat := Z.to_nat SPE_BATCH_SIZE.
Definition spe_prim (d : domain) (c : row) (n : nat) (g : speglue) : Prop :=
  Forall (fun it => props_prim d (SPE_BSZ / length (sg_lower g) + 1) (sg_lower g) (fst (fst it))) (sg_iters g) /\
  (forall batches, spe_batches d c g = Some batches ->
     let s := fst (spe_loop n SPE_BATCH_SIZE SPE_REJECTION_SAMPLES_LIMIT batches [] 0%Z) in
     ((length s < n)%nat -> samp_ok d (n - length s) (sg_pad g)) /\
     ((n < length s)%nat -> length (sg_ix g) = n /\ Forall (fun j => (j < length s)%nat) (sg_ix g))) /\
  (n <= length (o_cats (sg_dec g)))%nat.
Lemma combine3_rows (A : list row) (B C : list Q) x : In x (map (fun t : row * Q * Q => fst (fst t)) (combine (combine A B) C)) -> In x A.
Proof.
  intros H. apply in_map_iff in H as ([[a b] c0] & <- & Hin). simpl. apply in_combine_l in Hin. apply in_combine_l in Hin. exact Hin.
Qed.
Lemma spe_batch_rows d c bsz lower os eis us b x : spe_batch d c bsz lower os eis us = Some b ->
  In x (map (fun t : row * Q * Q => fst (fst t)) b) ->
  exists pts, proposals d c (bsz / length lower + 1) lower os = Some pts /\ In x pts.
Proof.
  unfold spe_batch. destruct (proposals d c (bsz / length lower + 1) lower os) as [pts|]; [|discriminate].
  intros E Hx. injection E as <-. exists pts. split; [reflexivity|]. apply combine3_rows in Hx. exact (SP.firstn_In bsz _ x Hx).
Qed.

Lemma spe_batches_feasible d c g batches : wf_domain d = true -> cons_two d -> (is_constrained d = true -> RP.interior (oh_dom d) c) ->
  Forall (fun it => props_prim d (SPE_BSZ / length (sg_lower g) + 1) (sg_lower g) (fst (fst it))) (sg_iters g) ->
  spe_batches d c g = Some batches -> Forall (RP.feasible (oh_dom d)) (batch_rows batches).
Proof.
  intros Hwf H2 Hi Hits Eb. apply Forall_forall. intros x Hx. apply in_flat_map in Hx as (b & Hb & Hx).
  pose proof (all_some_In _ _ b Eb Hb) as Hsb. apply in_map_iff in Hsb as (it & Eit & Hit).
  rewrite Forall_forall in Hits. destruct (spe_batch_rows d c _ _ _ _ _ b x Eit Hx) as (pts & Ep & Hxp).
  pose proof (proposals_ok d c _ Hwf H2 Hi _ _ _ (Hits it Hit) Ep) as F. rewrite Forall_forall in F. apply F, Hxp.
Qed.
Lemma spe_pad_ok d c n (s : list row) so pad : wf_domain d = true -> (is_constrained d = true -> RP.interior (oh_dom d) c) ->
  ((length s < n)%nat -> samp_ok d (n - length s) so) ->
  (if Nat.ltb (length s) n then oh_sample d c (n - length s) so else Some []) = Some pad ->
  Forall (RP.feasible (oh_dom d)) pad /\ ((length s < n)%nat -> (length s + length pad = n)%nat).
Proof.
  intros Hwf Hi Hpad E. destruct (Nat.ltb_spec (length s) n) as [El|El].
  - destruct (oh_sample_ok d c _ _ pad Hwf Hi (Hpad El) E) as [A B]. split; [exact A|]. intros _. rewrite B. lia.
  - injection E as <-. split; [constructor|lia].
Qed.

Theorem spe_endpoint_admissible d opts ps path n c g r : wf_domain d = true -> cons_two d ->
  (is_constrained d = true -> RP.interior (oh_dom d) c) ->
  match path with
  | SPERandom => random_prim d ps n (sg_pcols g) c (sg_rso g) (sg_rcols g) (sg_rdec g)
  | SPEDraw => spe_prim d c (Z.to_nat n) g
  end ->
  (opts <> [] -> draws_ok opts (length (r_points r)) (sg_draws g)) ->
  spe_endpoint d opts ps path n c g = Some r -> resp_ok d opts (Z.to_nat n) r.
Proof.
  intros Hwf H2 Hi Hp Hd H. destruct path; cbn [spe_endpoint] in H.
  - eapply random_endpoint_admissible; eassumption.
  - apply obind_some in H as (batches & Eb & H). apply obind_some in H as (pad & Epad & H).
    destruct Hp as (Hits & Hrest & Hcat). destruct (Hrest batches Eb) as [Hpad Hix]. clear Hrest.
    destruct (spe_pad_ok d c _ _ _ pad Hwf Hi Hpad Epad) as [Fpad Lpad].
    refine (spe_tail_resp_ok d opts ps SPEDraw n _ r Hwf _ _ H).
    + split; [exact (feasible_all_relaxed_ok d _ (spe_batches_feasible d c g batches Hwf H2 Hi Hits Eb))|].
      split; [exact (feasible_all_relaxed_ok d pad Fpad)|]. split; [exact Lpad|]. split; [exact Hix|exact Hcat].
    + intros r' Hr' Hne. rewrite H in Hr'. injection Hr' as <-. apply Hd, Hne.
Qed.

Theorem search_endpoint_admissible d c ph u afl aft best n m afl_pi aft_pi Pde maxiter pretest sos hist dec f r :
  wf_domain d = true -> cons_two d -> (is_constrained d = true -> RP.interior (oh_dom d) c) ->
  mode_ok m -> Forall (fun o => unit_stream (so_us o)) sos -> (n <= length (o_cats dec))%nat ->
  (forall afl' aft' m' xs pts, gp_stage d [] c afl' best n m' = SOk xs -> convert_from_one_hot d (is_qei m') aft' dec xs = Some pts ->
     fill_prim d c (fill_k d pts hist) hist f) ->
  search_endpoint d c ph u afl aft best n m afl_pi aft_pi Pde maxiter pretest sos hist dec f = Some r -> resp_ok d [] n r.
Proof.
  intros Hwf H2 Hi Hm Hs Hl Hf H.
  assert (G : exists afl' aft' m', mode_ok m' /\ gp_endpoint d c afl' aft' best n m' hist dec f = Some r).
  { unfold search_endpoint in H. destruct ph; try (exists afl, aft, m; split; assumption).
    destruct (Qltb u RESOLVE_PHASE_PROB); [exists afl_pi, aft_pi, (GSearch Pde maxiter pretest sos)|exists afl, aft, m]; split; assumption. }
  destruct G as (afl' & aft' & m' & Hm' & G). eapply gp_endpoint_admissible; try eassumption. intros xs pts. apply Hf.
Qed.
Lemma spe_search_tail_as_spe d ps ph path n o :
  spe_search_tail d [] ps ph path n o = spe_tail d [] ps (match ph with SInit => SPERandom | SExploit => path | SResolve => SPEDraw end) n o.
Proof. exact (spe_search_tail_eq d ps ph path n o). Qed.
Theorem spe_search_endpoint_admissible d ps ph path n c g r : wf_domain d = true -> cons_two d ->
  (is_constrained d = true -> RP.interior (oh_dom d) c) ->
  match ph, path with
  | SInit, _ | SExploit, SPERandom => random_prim d ps n (sg_pcols g) c (sg_rso g) (sg_rcols g) (sg_rdec g)
  | _, _ => spe_prim d c (Z.to_nat n) g
  end ->
  spe_search_endpoint d ps ph path n c g = Some r -> resp_ok d [] (Z.to_nat n) r.
Proof.
  intros Hwf H2 Hi Hp H. unfold spe_search_endpoint in H.
  eapply spe_endpoint_admissible; try eassumption; [|intros Hne; congruence].
  destruct ph; [exact Hp|destruct path; exact Hp|destruct path; exact Hp].
Qed.

Lemma cons_twob_spec d : cons_twob d = true <-> cons_two d.
Proof.
  unfold cons_twob, cons_two. rewrite forallb_forall. split; intros H k Hk; specialize (H k Hk).
  - apply Nat.leb_le in H. exact H.
  - apply Nat.leb_le. exact H.
Qed.
(* an instance that meets the hypotheses of the endpoint theorems: the triangle-like region  x + y <= 3  in [0,2]^2 with a
   two-valued categorical, relaxed dimension 4 *)
Definition cx_dom : domain :=
  {| comps := [Double 0 2; Double 0 2; Cat [1; 2]%Z];
     cons := [{| weights := [-(1); -(1); 0]; rhs := -(3); cty := CDouble |}] |}.
Definition cx_c : row := [1#2; 1#2; 1#2; 1#2].
Definition cx_so : samp_orc := SRej [[[1; 1; 0; 1]; [1#2; 1#4; 1; 0]; [1#4; 1#2; 0; 1#2]]] [].
Definition cx_dec : dorc := {| o_rnds := []; o_perms := []; o_cats := [[1%Z]; [2%Z]] |}.
(* the acquisition function after `lies` lies: x + y - |lies| * (first one-hot coordinate), undefined (NaN) where y > 3/2;
   cx_aft: the total function the neighbour search of the tail is given *)
Definition cx_af (lies : list row) (p : row) : option Q :=
  if Qltb (3#2) (nth 1 p 0) then None else Some (Qred (nth 0 p 0 + nth 1 p 0 - inject_Z (Z.of_nat (length lies)) * nth 2 p 0)).
Definition cx_aft (p : row) : Q := Qred (nth 0 p 0 + nth 1 p 0).
Definition cx_P : vpar := {| p_de := OP.mkde 3 4 true (1#2) 1; p_es_maxiter := 1; p_gd_n := 4; p_gd_maxiter := 2 |}.
Definition cx_vorc : vorc :=
  {| v_gen_es := fun k => repeat cx_c k; v_gen_gd := fun k => repeat cx_c k;
     v_us_es := fun _ => [1#2; 1#2; 1#2]; v_us_gd := fun _ => [1#2; 1#2; 1#2; 1#2];
     v_ds := [([(0, 1, 0); (1, 0, 0); (0, 1, 1)]%nat, [[0; 0; 0; 0]; [0; 0; 0; 0]; [0; 0; 0; 0]])];
     v_zs := [[1#4; -(1#4); 0; 0]]; v_us_near := [1#2]; v_fallback := [];
     v_choice := [0%nat; 2%nat];
     v_ups := [[[1; 1; 0; 0]; [1#4; 1#4; 0; 0]; [0; 0; 1; 0]; [-(1); 0; 0; 0]]] |}.
Definition cx_pretest : list row := [[1; 1#2; 0; 1]; [3#2; 1; 1; 0]].
Definition cx_mode : gp_mode := GCl cx_P cx_pretest [cx_vorc; cx_vorc].
Definition cx_fill : gp_fill :=
  {| f_so := SRej [[[1; 1; 1; 0]; [1#8; 1#4; 0; 1]]] []; f_cols := [];
     f_dec := {| o_rnds := []; o_perms := []; o_cats := [[2%Z]] |}; f_choice := [] |}.
Definition cx_hist : list point := [[7#4; 5#4; 1]].

Lemma cx_interior : RP.interior (oh_dom cx_dom) cx_c.
Proof.
  split; [reflexivity|]. intros h Hin. cbv in Hin.
  repeat (destruct Hin as [<-|Hin]; [cbv; reflexivity|]). destruct Hin.
Qed.
(* the unit-interval contracts of the example, decided by evaluation *)
Lemma forallb_Forall_imp {A} (f : A -> bool) (P : A -> Prop) l : (forall x, f x = true -> P x) -> forallb f l = true -> Forall P l.
Proof. intros H Hb. rewrite forallb_forall in Hb. apply Forall_forall. intros x Hx. apply H, Hb, Hx. Qed.
Definition unit_b (x : Q) : bool := Qle_bool 0 x && Qle_bool x 1.
Lemma unit_b_spec x : unit_b x = true -> RP.unit_interval x.
Proof. intros H. apply andb_true_iff in H as [A B]. split; apply Qle_bool_iff; assumption. Qed.
Definition unit_rowb (n : nat) (u : row) : bool := Nat.eqb (length u) n && forallb unit_b u.
Lemma unit_rowb_spec n u : unit_rowb n u = true -> unit_row n u.
Proof. intros H. apply andb_true_iff in H as [A B]. split; [apply Nat.eqb_eq, A|exact (forallb_Forall_imp _ _ u unit_b_spec B)]. Qed.
(* a rejection sampler that fills the batch is never padded: no hit-and-run draws are asked for *)
Lemma srej_filled_ok d n blocks : forallb (forallb (unit_rowb (oh_dim d))) blocks = true ->
  snd (SA.rejection_sampling (R.halfspaces (oh_dom d)) n REJECTION_SAMPLING_BLOCK_SIZE DEFAULT_REJECTION_SAMPLING_TRIALS
         (map (SA.cube_sampler (one_hot_box d)) blocks)) = true ->
  samp_ok d n (SRej blocks []).
Proof.
  intros Hb Hr. split; [|split; [constructor|]].
  - revert Hb. apply forallb_Forall_imp. intros b. apply forallb_Forall_imp, unit_rowb_spec.
  - intros pts E. rewrite E in Hr. discriminate.
Qed.
Lemma cx_mode_ok : mode_ok cx_mode.
Proof.
  cbn [mode_ok cx_mode]. assert (V : vorc_ok cx_vorc) by (split; intros k; apply (forallb_Forall_imp _ _ _ unit_b_spec); reflexivity).
  constructor; [exact V|constructor; [exact V|constructor]].
Qed.
Lemma cx_samp_ok : samp_ok cx_dom 2 cx_so.
Proof. apply srej_filled_ok; vm_compute; reflexivity. Qed.
Lemma cx_fill_prim : fill_prim cx_dom cx_c 1 cx_hist cx_fill.
Proof.
  unfold fill_prim. change (negb (is_discrete cx_dom) || is_constrained cx_dom) with true. cbv iota.
  unfold quasi_prim. change (is_constrained cx_dom) with true. cbv iota. split; [|simpl; lia].
  apply srej_filled_ok; vm_compute; reflexivity.
Qed.
(* the random endpoint on the constrained domain: rejection sampling keeps two of three candidates *)
Example random_endpoint_example :
  wf_domain cx_dom = true /\ RP.interior (oh_dom cx_dom) cx_c /\ random_prim cx_dom [] 2 [] cx_c cx_so [] cx_dec /\
  random_endpoint cx_dom [] [] 2 [] cx_c cx_so [] cx_dec [] = Some {| r_points := [[2#2; 2#4; 1]; [2#4; 2#2; 2]]; r_costs := None |}.
Proof.
  split; [reflexivity|]. split; [exact cx_interior|]. split.
  - unfold random_prim. change (DS.view_path [] (is_constrained cx_dom)) with DS.UseQuasi. cbv iota.
    unfold quasi_prim. change (is_constrained cx_dom) with true. cbv iota. split; [exact cx_samp_ok|simpl; lia].
  - vm_compute. reflexivity.
Qed.
(* the GP endpoint: two constant-liar rounds (DE generation, near-best + random ES starts, one Adam step); the first
   suggestion lands on the face x + y = 3 through the constrained restriction, duplicates the history and is replaced
   by a fresh point of the rejection sampler *)
Example gp_endpoint_example :
  wf_domain cx_dom = true /\ cons_two cx_dom /\ RP.interior (oh_dom cx_dom) cx_c /\ mode_ok cx_mode /\
  gp_stage cx_dom [] cx_c cx_af (fun _ => [1; 1; 1; 0]) 2 cx_mode = SOk [[7#4; 5#4; 1; 0]; [3#2; 1; 1#4; 3#4]] /\
  fill_prim cx_dom cx_c 1 cx_hist cx_fill /\
  gp_endpoint cx_dom cx_c cx_af cx_aft (fun _ => [1; 1; 1; 0]) 2 cx_mode cx_hist cx_dec cx_fill
  = Some {| r_points := [[3#2; 1; 2]; [2#8; 2#4; 2]]; r_costs := None |} /\
  (* an acquisition function without any value: numpy.nanargmax raises ValueError, an error value of the stage *)
  gp_stage cx_dom [] cx_c (fun _ _ => None) (fun _ => [1; 1; 1; 0]) 2 cx_mode = SErr (SOpt OP.ValueError).
Proof.
  assert (Hs : gp_stage cx_dom [] cx_c cx_af (fun _ => [1; 1; 1; 0]) 2 cx_mode = SOk [[7#4; 5#4; 1; 0]; [3#2; 1; 1#4; 3#4]])
    by (vm_compute; reflexivity).
  split; [reflexivity|]. split; [apply cons_twob_spec; reflexivity|]. split; [exact cx_interior|]. split; [exact cx_mode_ok|].
  split; [exact Hs|]. split; [exact cx_fill_prim|]. split; [|vm_compute; reflexivity].
  (* the stage is not run a second time *)
  unfold gp_endpoint. rewrite Hs. vm_compute. reflexivity.
Qed.
