(* C04 composed: the entrywise differentiability that C04_loglik_grad_full (Props/C04_loglik.v) asks of the kernel matrix is discharged for the
   SquareExponential, C2 and C4 radial Matern kernels from the pairwise theorems SE_/C2_/C4_hparam_grad_is_derivative of
   Proofs/CovarianceGrad.v (stated in Props/C04_kernels.v).  The regenerated matrix entry points are
   the pairwise ones entry by entry, so the kernel matrix as a function of the hyperparameter vector theta (theta 0 = alpha, theta (S k) =
   length scale k) has slice h of the regenerated tensor as its h-th partial derivative; the gradient loop is fed that tensor itself. *)
From Coq Require Import Reals FunctionalExtensionality.
From Coquelicot Require Import Coquelicot.
From mathcomp Require Import ssreflect ssrfun ssrbool eqtype ssrnat fintype ssralg zmodp matrix.
From LV Require Import Lib.RBase Lib.MxAux Lib.RStruct Lib.RMxDeriv Gen.GenGP Gen.GenAcq Gen.GenCovariance Proofs.Covariance Proofs.CovarianceGrad Proofs.GPGrad Proofs.LogLikFull Proofs.HandIR.
Set Implicit Arguments. Unset Strict Implicit. Unset Printing Implicit Defensive.
Import GRing.Theory.
Local Open Scope ring_scope.

(* the shape of the generated entry points: matrix (ksym, ktens) and pairwise (kcov, kgrad) *)
Definition ksym_t := nat -> (nat -> nat -> R) -> (nat -> R) -> (nat -> R) -> (nat -> R) -> (nat -> R) -> R -> nat -> nat -> R.
Definition ktens_t := nat -> nat -> (nat -> nat -> R) -> (nat -> R) -> (nat -> R) -> (nat -> R) -> R -> nat -> nat -> nat -> R.
Definition kcov_t := nat -> (nat -> nat -> R) -> (nat -> nat -> R) -> (nat -> R) -> (nat -> R) -> (nat -> R) -> R -> nat -> R.
Definition kgrad_t := nat -> nat -> (nat -> nat -> R) -> (nat -> nat -> R) -> (nat -> R) -> (nat -> R) -> (nat -> R) -> R -> nat -> nat -> R.
(* the pairwise theorems read entry by entry: column 0 is d/d alpha, column S k0 is d/d (length scale k0) *)
Definition kernel_entries_ok (ksym : ksym_t) (ktens : ktens_t) : Prop :=
  forall dim nh xs nz lsq lcu ls alpha j j2,
    is_derive (fun a => ksym dim xs nz ls lsq lcu a j j2) alpha (ktens dim nh xs ls lsq lcu alpha j j2 0%N) /\
    forall k0, (k0 < dim)%coq_nat -> Rlt 0 (ls k0) -> lcu k0 = (ls k0 ^ 3)%Re ->
      is_derive (fun l => ksym dim xs nz (updl ls k0 l) lsq lcu alpha j j2) (ls k0) (ktens dim nh xs ls lsq lcu alpha j j2 (S k0)).

Section Entries.
Local Open Scope R_scope.

(* the pair (point j, point j2) as the two one-row point sets the pairwise entry points take *)
Definition prow (xs : nat -> nat -> R) (j : nat) : nat -> nat -> R := fun _ => xs j.

(* the matrix entry points compute the scaled squared distance of the pair in their own way *)
Lemma pair_d2 dim xs ls j j2 :
  bigsum dim (fun k => ((prow xs j 0%N k - prow xs j2 0%N k) / ls k) ^ 2) = bigsum dim (fun k => (xs j k / ls k - xs j2 k / ls k) ^ 2).
Proof. apply: bigsum_ext => k _. rewrite /prow /Rdiv. ring. Qed.
Lemma pair_sqrt_d2 dim xs ls j j2 :
  sqrt (bigsum dim (fun k => ((prow xs j 0%N k - prow xs j2 0%N k) / ls k) ^ 2)) ^ 2 = bigsum dim (fun k => (xs j k / ls k - xs j2 k / ls k) ^ 2).
Proof. rewrite -pair_d2. exact: (rw_sq dim (prow xs j) (prow xs j2) ls 0%N 0%N). Qed.

(* Any kernel of which the pairwise theorem holds (Hder), whose matrix entry points are its pairwise ones on the pair (plus the noise on
   the diagonal) and whose covariance is alpha times column 0 of its gradient (so that nothing is asked of the length scales for h = 0) *)
Variables (kcov : kcov_t) (kgrad : kgrad_t) (ksym : ksym_t) (ktens : ktens_t).
Hypothesis Hder : forall dim nh x z ls lsq lcu alpha i k0, (k0 < dim)%coq_nat -> 0 < ls k0 -> lcu k0 = ls k0 ^ 3 ->
  is_derive (fun l => kcov dim x z (updl ls k0 l) lsq lcu alpha i) (ls k0) (kgrad dim nh x z ls lsq lcu alpha i (S k0)) /\
  is_derive (fun a => kcov dim x z ls lsq lcu a i) alpha (kgrad dim nh x z ls lsq lcu alpha i 0%N).
Hypothesis Hsym : forall dim xs nz ls lsq lcu alpha j j2,
  ksym dim xs nz ls lsq lcu alpha j j2 = kcov dim (prow xs j) (prow xs j2) ls lsq lcu alpha 0%N + (if Nat.eqb j j2 then nz j else 0).
Hypothesis Htens : forall dim nh xs ls lsq lcu alpha j j2 h,
  ktens dim nh xs ls lsq lcu alpha j j2 h = kgrad dim nh (prow xs j) (prow xs j2) ls lsq lcu alpha 0%N h.
Hypothesis Hlin : forall dim nh x z ls lsq lcu a alpha i, kcov dim x z ls lsq lcu a i = a * kgrad dim nh x z ls lsq lcu alpha i 0%N.

Lemma pairwise_entries_ok : kernel_entries_ok ksym ktens.
Proof.
  move=> dim nh xs nz lsq lcu ls alpha j j2. split=> [|k0 Hk Hl Hc]; rewrite Htens.
  - apply: (@is_derive_eq (fun a => a * kgrad dim nh (prow xs j) (prow xs j2) ls lsq lcu alpha 0%N 0%N + (if Nat.eqb j j2 then nz j else 0))).
      by move=> a; rewrite Hsym (Hlin dim nh _ _ ls lsq lcu a alpha).
    apply: is_derive_plus_cst. exact: is_derive_lin.
  - apply: (@is_derive_eq (fun l => kcov dim (prow xs j) (prow xs j2) (updl ls k0 l) lsq lcu alpha 0%N + (if Nat.eqb j j2 then nz j else 0))).
      by move=> l; rewrite Hsym.
    apply: is_derive_plus_cst. by have [] := Hder nh (prow xs j) (prow xs j2) lsq alpha 0%N Hk Hl Hc.
Qed.
End Entries.

(* per kernel: covariance = alpha * column 0 holds by computation (closed by //); the matrix entry points are the pairwise ones by the two
   distance lemmas *)
Lemma SE_entries_ok : kernel_entries_ok SquareExponential.kernel_matrix_sym SquareExponential.kernel_hparam_grad_tensor_sym.
Proof.
  apply: (pairwise_entries_ok SE_hparam_grad_is_derivative) => //.
  - move=> *. by rewrite /SquareExponential.kernel_matrix_sym /SquareExponential.covariance pair_sqrt_d2.
  - move=> *. by rewrite /SquareExponential.kernel_hparam_grad_tensor_sym /SquareExponential.hyperparameter_grad_covariance pair_sqrt_d2.
Qed.
Lemma C2_entries_ok : kernel_entries_ok C2RadialMatern.kernel_matrix_sym C2RadialMatern.kernel_hparam_grad_tensor_sym.
Proof.
  apply: (pairwise_entries_ok C2_hparam_grad_is_derivative) => //.
  - move=> *. by rewrite /C2RadialMatern.kernel_matrix_sym /C2RadialMatern.covariance pair_d2.
  - move=> *. by rewrite /C2RadialMatern.kernel_hparam_grad_tensor_sym /C2RadialMatern.hyperparameter_grad_covariance pair_d2.
Qed.
(* the library's default kernel *)
Lemma C4_entries_ok : kernel_entries_ok C4RadialMatern.kernel_matrix_sym C4RadialMatern.kernel_hparam_grad_tensor_sym.
Proof.
  apply: (pairwise_entries_ok C4_hparam_grad_is_derivative) => //.
  - move=> *. by rewrite /C4RadialMatern.kernel_matrix_sym /C4RadialMatern.covariance pair_sqrt_d2 pair_d2.
  - move=> *. by rewrite /C4RadialMatern.kernel_hparam_grad_tensor_sym /C4RadialMatern.hyperparameter_grad_covariance pair_sqrt_d2 pair_d2.
Qed.

Section Kernel.
Variables (ksym : ksym_t) (ktens : ktens_t).
Hypothesis Hker : kernel_entries_ok ksym ktens.
Variables (n dim nh : nat) (xs : nat -> nat -> R) (lsq lcu : nat -> R).

(* hyperparameter vector theta: theta 0 = alpha (process variance), theta (S k) = length scale k *)
Definition hyp_ls (theta : nat -> R) : nat -> R := fun k => theta (S k).
(* kernel part of the kernel matrix (build_kernel_matrix(points_sampled), no noise: GenGP's kernel_matrix adds the noise / nugget) *)
Definition Kfun (theta : nat -> R) : 'M[R]_n := \matrix_(i, j) ksym dim xs (fun _ => 0%Re) (hyp_ls theta) lsq lcu (theta 0%N) i j.
(* slice h of the hyperparameter gradient tensor (build_kernel_hparam_grad_tensor(points_sampled)[:, :, h]) *)
Definition dKfun (theta : nat -> R) (h : nat) : 'M[R]_n := \matrix_(i, j) ktens dim nh xs (hyp_ls theta) lsq lcu (theta 0%N) i j h.
(* the guard of the pairwise theorems on a length-scale hyperparameter h = S k0; nothing is asked of h = 0 (alpha) *)
Definition hparam_ok (theta : nat -> R) (h : nat) : Prop :=
  forall k0, h = S k0 -> (k0 < dim)%coq_nat /\ Rlt 0 (theta h) /\ lcu k0 = (theta h ^ 3)%Re.

Lemma hyp_ls_upd0 theta t : hyp_ls (LogLikFull.upd theta 0 t) = hyp_ls theta.
Proof. by []. Qed.
Lemma hyp_ls_updS theta k0 t : hyp_ls (LogLikFull.upd theta (S k0) t) = updl (hyp_ls theta) k0 t.
Proof.
  apply: functional_extensionality => k. rewrite /hyp_ls /LogLikFull.upd /updl eqSS.
  by case: (Nat.eqb_spec k k0) => [->|/eqP/negbTE->]; rewrite ?eqxx.
Qed.

Theorem kernel_entry_derive theta h (nz : nat -> R) (j j2 : nat) : hparam_ok theta h ->
  is_derive (fun t => ksym dim xs nz (hyp_ls (LogLikFull.upd theta h t)) lsq lcu (LogLikFull.upd theta h t 0%N) j j2) (theta h)
            (ktens dim nh xs (hyp_ls theta) lsq lcu (theta 0%N) j j2 h).
Proof.
  case: h => [|k0] Hok.
  - by have [H _] := Hker dim nh xs nz lsq lcu (hyp_ls theta) (theta 0%N) j j2.
  - have [Hk [Hl Hc]] := Hok k0 erefl.
    have [_ H] := Hker dim nh xs nz lsq lcu (hyp_ls theta) (theta 0%N) j j2.
    apply: is_derive_eq (H k0 Hk Hl Hc) => t. by rewrite hyp_ls_updS.
Qed.
Theorem Kfun_derive theta h : hparam_ok theta h ->
  mx_derive (fun t => Kfun (LogLikFull.upd theta h t)) (theta h) (dKfun theta h).
Proof.
  move=> Hok i j. rewrite [dKfun _ _ _ _]mxE.
  apply: is_derive_eq (kernel_entry_derive (fun _ => 0%Re) i j Hok) => t. by rewrite mxE.
Qed.

(* LogLikGrad.grad reads its tensor argument only at j, l < n: feed it the generated tensor itself *)
Lemma grad_tensor_view (a : nat -> R) (Kinv : nat -> nat -> R) (s0 : R) (lsc : nat -> R) theta h :
  LogLikGrad.grad n nh a (fun j l k => mxv (dKfun theta k) j l) Kinv s0 lsc h
  = LogLikGrad.grad n nh a (ktens dim nh xs (hyp_ls theta) lsq lcu (theta 0%N)) Kinv s0 lsc h.
Proof.
  have E j l : (j < n)%coq_nat -> (l < n)%coq_nat -> mxv (dKfun theta h) j l = ktens dim nh xs (hyp_ls theta) lsq lcu (theta 0%N) j l h.
    by move=> /ltP Hj /ltP Hl; rewrite (mxv_lt _ Hj Hl) mxE.
  rewrite /LogLikGrad.grad. congr (_ * (- _ + _) * _)%Re.
  - apply: bigsum_ext => j Hj. apply: bigsum_ext => l Hl. by rewrite E.
  - apply: bigsum_ext => j Hj. apply: bigsum_ext => l Hl. by rewrite E.
Qed.

Variables (p : nat) (chol : 'M[R]_n -> 'M[R]_n) (y : 'cV[R]_n) (Pmx : 'M[R]_(n,p)) (s : R).
Variables (theta : nat -> R) (h : nat).
Hypothesis Hok : hparam_ok theta h.
Let Kt (t : R) : 'M[R]_n := Kfun (LogLikFull.upd theta h t).
Let tensor := ktens dim nh xs (hyp_ls theta) lsq lcu (theta 0%N).

Lemma Kt_at : Kt (theta h) = Kfun theta.
Proof. by rewrite /Kt upd_id. Qed.

(* per-point noise, polynomial mean *)
Theorem loglik_grad_kernel (noise : 'cV[R]_n) :
  locally (theta h) (fun t => let K := GPNoise.kernel_matrix (Kt t) noise in chol_ok (chol K) K) ->
  GPNoise.PT_K_inv_P (Kfun theta) noise Pmx \in unitmx ->
  is_derive (loglik_noise chol noise y Pmx s Kt) (theta h)
    (LogLikGrad.grad n nh (cvv (GPNoise.K_inv_demeaned_y (Kfun theta) noise y Pmx)) tensor
                     (mxv (invmx (GPNoise.kernel_matrix (Kfun theta) noise))) s (fun _ => 1%Re) h).
Proof.
  move=> Hc. rewrite -grad_tensor_view.
  have := @loglik_noise_grad n p nh chol noise y Pmx s (theta h) (dKfun theta) h Kt (Kfun_derive Hok) Hc.
  by rewrite Kt_at.
Qed.

(* per-point noise, zero mean *)
Theorem loglik_grad_kernel_zero_mean (noise : 'cV[R]_n) :
  locally (theta h) (fun t => let K := GPNoiseZeroMean.kernel_matrix (Kt t) noise in chol_ok (chol K) K) ->
  is_derive (loglik_zero_mean chol noise y s Kt) (theta h)
    (LogLikGrad.grad n nh (cvv (GPNoiseZeroMean.K_inv_demeaned_y (Kfun theta) noise y)) tensor
                     (mxv (invmx (GPNoiseZeroMean.kernel_matrix (Kfun theta) noise))) s (fun _ => 1%Re) h).
Proof.
  move=> Hc. rewrite -grad_tensor_view.
  have := @loglik_zero_mean_grad n nh chol noise y s (theta h) (dKfun theta) h Kt (Kfun_derive Hok) Hc.
  by rewrite Kt_at.
Qed.

(* Tikhonov nugget tik (use_auto_noise), h a KERNEL hyperparameter: the nugget does not depend on it.
   GPNugget's functions are convertible to GPNoise's at the constant noise vector. *)
Theorem loglik_grad_kernel_nugget (tik : R) :
  locally (theta h) (fun t => let K := GPNugget.kernel_matrix (Kt t) tik in chol_ok (chol K) K) ->
  GPNugget.PT_K_inv_P (Kfun theta) tik Pmx \in unitmx ->
  is_derive (loglik_nugget chol y Pmx s Kt (fun _ => tik)) (theta h)
    (LogLikGrad.grad n nh (cvv (GPNugget.K_inv_demeaned_y (Kfun theta) tik y Pmx)) tensor
                     (mxv (invmx (GPNugget.kernel_matrix (Kfun theta) tik))) s (fun _ => 1%Re) h).
Proof. exact: (loglik_grad_kernel (noise := const_mx tik)). Qed.

(* log parameterisation (log_domain=True): theta h = exp al, derivative in al carries the generated log_scaling factor exp al *)
Theorem loglik_grad_kernel_log_domain (noise : 'cV[R]_n) (al : R) : theta h = exp al ->
  locally (exp al) (fun t => let K := GPNoise.kernel_matrix (Kt t) noise in chol_ok (chol K) K) ->
  GPNoise.PT_K_inv_P (Kfun theta) noise Pmx \in unitmx ->
  is_derive (fun u => loglik_noise chol noise y Pmx s Kt (exp u)) al
    (LogLikGrad.grad n nh (cvv (GPNoise.K_inv_demeaned_y (Kfun theta) noise y Pmx)) tensor
                     (mxv (invmx (GPNoise.kernel_matrix (Kfun theta) noise))) s (fun _ => exp al) h).
Proof.
  move=> He Hc Hu. apply: (loglik_grad_log_domain (loglik_noise chol noise y Pmx s Kt) _ al n nh _ _ _ s h _ erefl).
  rewrite -He in Hc *. exact: loglik_grad_kernel.
Qed.
(* the same two statements about the TRANSLATED per-hyperparameter loops of compute_grad_log_likelihood (Gen.GenAcq.LogLikGrad.grad_linear /
   grad_logdom, equal to the hand-written form by Proofs/HandIR.v); hyp is the hyperparameter vector the loop reads its log_scaling from *)
Theorem loglik_grad_kernel_linear_loop (noise : 'cV[R]_n) (hyp : nat -> R) :
  locally (theta h) (fun t => let K := GPNoise.kernel_matrix (Kt t) noise in chol_ok (chol K) K) ->
  GPNoise.PT_K_inv_P (Kfun theta) noise Pmx \in unitmx ->
  is_derive (loglik_noise chol noise y Pmx s Kt) (theta h)
    (LogLikGrad.grad_linear n nh (cvv (GPNoise.K_inv_demeaned_y (Kfun theta) noise y Pmx)) tensor s hyp
                            (mxv (invmx (GPNoise.kernel_matrix (Kfun theta) noise))) h).
Proof. move=> Hc Hu. rewrite -loglik_grad_hand_is_translated_linear. exact: loglik_grad_kernel. Qed.

Theorem loglik_grad_kernel_logdom_loop (noise : 'cV[R]_n) (hyp : nat -> R) : theta h = exp (hyp h) ->
  locally (exp (hyp h)) (fun t => let K := GPNoise.kernel_matrix (Kt t) noise in chol_ok (chol K) K) ->
  GPNoise.PT_K_inv_P (Kfun theta) noise Pmx \in unitmx ->
  is_derive (fun u => loglik_noise chol noise y Pmx s Kt (exp u)) (hyp h)
    (LogLikGrad.grad_logdom n nh (cvv (GPNoise.K_inv_demeaned_y (Kfun theta) noise y Pmx)) tensor s hyp
                            (mxv (invmx (GPNoise.kernel_matrix (Kfun theta) noise))) h).
Proof. move=> He Hc Hu. rewrite -loglik_grad_hand_is_translated_logdom. exact: (loglik_grad_kernel_log_domain He Hc Hu). Qed.
End Kernel.

(* the hypotheses are satisfiable (SquareExponential): one observation in
   dimension 1, constant mean, any alpha > 0, length scale l > 0 with lcu 0 = l^3, noise >= 0; differentiation in the LENGTH SCALE (h = 1).
   The Cholesky factor of the 1 x 1 kernel matrix is its square root. *)
Section SEInstance.
Definition chol11 (A : 'M[R]_1) : 'M[R]_1 := (sqrt (A 0 0))%:M.
Lemma chol11_ok (A : 'M[R]_1) : Rlt 0 (A 0 0) -> chol_ok (chol11 A) A.
Proof. move=> H. rewrite {2}[A]mx11_scalar. exact: scalar_chol_ok. Qed.

Variables (nh : nat) (xs : nat -> nat -> R) (lsq lcu theta : nat -> R) (noise y : 'cV[R]_1) (s : R).
Hypothesis Halpha : Rlt 0 (theta 0%N).
Hypothesis Hl : Rlt 0 (theta 1%N).
Hypothesis Hlcu : lcu 0%N = (theta 1%N ^ 3)%Re.
Hypothesis Hnoise : Rle 0 (noise 0 0).
Let Kse := Kfun SquareExponential.kernel_matrix_sym 1 1 xs lsq lcu.
Let P1 : 'M[R]_(1,1) := const_mx 1.

Lemma SE_K11_pos th : Rlt 0 (th 0%N) -> Rlt 0 (GPNoise.kernel_matrix (Kse th) noise 0 0).
Proof.
  move=> H. rewrite /GPNoise.kernel_matrix mxE [Kse _ _ _]mxE !mxE eqxx mulr1n /GRing.add /=.
  apply: Rplus_lt_le_0_compat; last exact: Hnoise.
  rewrite /SquareExponential.kernel_matrix_sym /= Rplus_0_r. apply: Rmult_lt_0_compat => //. exact: exp_pos.
Qed.
Lemma SE_inst_hparam_ok : hparam_ok 1 lcu theta 1.
Proof. move=> k0 [<-]. split; first exact: Nat.lt_0_1. by split. Qed.
Lemma SE_inst_chol : locally (theta 1%N) (fun t => let K := GPNoise.kernel_matrix (Kse (LogLikFull.upd theta 1 t)) noise in chol_ok (chol11 K) K).
Proof. apply: filter_forall => t. apply: chol11_ok. exact: SE_K11_pos. Qed.
Lemma SE_inst_PKP : GPNoise.PT_K_inv_P (Kse theta) noise P1 \in unitmx.
Proof.
  have -> : P1 = 1%:M by apply/matrixP => i j; rewrite !mxE !ord1.
  rewrite /GPNoise.PT_K_inv_P /GPNoise.K_inv_P /GPNoise.P /cho_solve trmx1 mul1mx mulmx1 unitmx_inv unitmxE det_mx11 unitfE.
  exact: Rgt0_neq0 (SE_K11_pos Halpha).
Qed.

Theorem loglik_grad_se_instance :
  is_derive (fun t => let Kk := Kse (LogLikFull.upd theta 1 t) in
               LogLik.log_likelihood_value chol11 (@sumlogdiag 1) (GPNoise.kernel_matrix Kk noise)
                 (GPNoise.demeaned_y Kk noise y P1) (GPNoise.K_inv_demeaned_y Kk noise y P1) s) (theta 1%N)
    (LogLikGrad.grad 1 nh (cvv (GPNoise.K_inv_demeaned_y (Kse theta) noise y P1))
                     (SquareExponential.kernel_hparam_grad_tensor_sym 1 nh xs (hyp_ls theta) lsq lcu (theta 0%N))
                     (mxv (invmx (GPNoise.kernel_matrix (Kse theta) noise))) s (fun _ => 1%Re) 1).
Proof. exact: (loglik_grad_kernel SE_entries_ok nh y s SE_inst_hparam_ok SE_inst_chol SE_inst_PKP). Qed.
End SEInstance.
