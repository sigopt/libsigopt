(* C02 composed with C03: the posterior covariance of the generated GP (Gen.GenGP: GPNoise / GPNugget / GPNoiseZeroMean .cov) is PSD,
   with the Cholesky contract as the only hypothesis, for every radial kernel with a Schur profile (SEPsd.radial_kernel).  Proofs/GP.v
   (MathComp, any real field) reduces this to psd of the joint Gram matrix [[Kker + diag noise, K_eval^T], [K_eval, Kss]]; that matrix IS
   kernel_matrix_sym of the concatenated point set (xs, then xe) with the noise padded by zeros, which Proofs/SEPsd.v shows psdR over Coq's R.
   Section Bridge carries psdR (bigsum over index ranges) to psd (MathComp matrices at R) and back. *)
From Coq Require Import Reals.
From mathcomp Require Import ssreflect ssrbool eqtype ssrnat fintype bigop ssralg ssrnum zmodp matrix.
From LV Require Import Lib.RBase Lib.MxAux Lib.RStruct Gen.GenGP Gen.GenCovariance Proofs.GP Proofs.Covariance Proofs.Hadamard Proofs.SEPsd
                       Proofs.LogLikFull.
Set Implicit Arguments. Unset Strict Implicit. Unset Printing Implicit Defensive.
Import GRing.Theory.
Local Open Scope ring_scope.

Section Bridge.
Variable n : nat.

Definition mxof (M : nat -> nat -> R) : 'M[R]_n := \matrix_(i, j) M i j.

Lemma mxv_out_row m' n' (A : 'M[R]_(m',n')) (a b : nat) : (m' <= a)%N -> mxv A a b = 0.
Proof. by move=> H; rewrite /mxv insubF // ltnNge H. Qed.
Lemma cvv_out (v : 'cV[R]_n) (a : nat) : (n <= a)%N -> cvv v a = 0.
Proof. exact: mxv_out_row. Qed.
Lemma mxv_mxof M a b : (a < n)%N -> (b < n)%N -> mxv (mxof M) a b = M a b.
Proof. by move=> Ha Hb; rewrite (mxv_lt _ Ha Hb) mxE. Qed.
Lemma mxof_mxv (A : 'M[R]_n) : mxof (mxv A) = A.
Proof. by apply/matrixP => i j; rewrite mxE mxvE. Qed.

Lemma quadform_bigsum (A : 'M[R]_n) (v : 'cV[R]_n) :
  (v^T *m A *m v) 0 0 = bigsum n (fun a => bigsum n (fun b => (cvv v a * mxv A a b * cvv v b)%Re)).
Proof.
  rewrite bigsum_ord. under [RHS]eq_bigr => j _ do rewrite bigsum_ord.
  rewrite [LHS]mxE. under [LHS]eq_bigr => l _ do rewrite mxE big_distrl /=.
  rewrite exchange_big /=. apply: eq_bigr => j _. apply: eq_bigr => l _. by rewrite cvvE mxvE cvvE !mxE.
Qed.

Lemma psd_mxv (A : 'M[R]_n) : psd A <-> psdR n (mxv A).
Proof.
  split.
  - move=> H w. pose v : 'cV[R]_n := \col_i w i. have /RleP := H v. rewrite quadform_bigsum => H0.
    have E c : (c < n)%N -> cvv v c = w c by move=> Hc; rewrite -[c]/(nat_of_ord (Ordinal Hc)) cvvE mxE.
    suff -> : bigsum n (fun a => bigsum n (fun b => (w a * mxv A a b * w b)%Re))
              = bigsum n (fun a => bigsum n (fun b => (cvv v a * mxv A a b * cvv v b)%Re)) by [].
    apply: bigsum_ext2 => a b /ltP Ha /ltP Hb. by rewrite (E a Ha) (E b Hb).
  - move=> H v. apply/RleP. rewrite quadform_bigsum. exact: (H (cvv v)).
Qed.

Lemma psdR_psd (M : nat -> nat -> R) : psdR n M -> psd (mxof M).
Proof.
  move=> H; apply/psd_mxv. apply: (psd_ext n M) H => a b /ltP Ha /ltP Hb. by rewrite mxv_mxof.
Qed.
Lemma psd_psdR (M : nat -> nat -> R) : psd (mxof M) -> psdR n M.
Proof.
  move=> /psd_mxv H. apply: (psd_ext n (mxv (mxof M))) H => a b /ltP Ha /ltP Hb. by rewrite mxv_mxof.
Qed.
Theorem psdR_iff_psd (M : nat -> nat -> R) : psdR n M <-> psd (mxof M).
Proof. split; [exact: psdR_psd | exact: psd_psdR]. Qed.
End Bridge.

Lemma block_mx_joint n m (G : nat -> nat -> R) :
  block_mx (\matrix_(i < n, j < n) G i j) (\matrix_(i < n, j < m) G i (n + j)%N)
           (\matrix_(i < m, j < n) G (n + i)%N j) (\matrix_(i < m, j < m) G (n + i)%N (n + j)%N)
  = (mxof (n + m) G : 'M[R]_(n + m)).
Proof.
  apply/matrixP => a b. rewrite !mxE.
  by case: splitP => i Ha; rewrite !mxE; case: splitP => j Hb; rewrite !mxE Ha Hb.
Qed.

(* concatenation of two nat-indexed point sets: the first n points are xs, the following ones xe *)
Definition joinp (n : nat) (xs xe : nat -> nat -> R) (a : nat) : nat -> R := if (a < n)%N then xs a else xe (a - n)%N.
Lemma joinp_l n xs xe (a : nat) : (a < n)%N -> joinp n xs xe a = xs a.
Proof. by rewrite /joinp => ->. Qed.
Lemma joinp_r n xs xe (i : nat) : joinp n xs xe (n + i)%N = xe i.
Proof. by rewrite /joinp ltnNge leq_addr /= addKn. Qed.

Lemma cvv_nonneg n (v : 'cV[R]_n) : (forall i, Rle 0 (v i 0)) -> forall a, Rle 0 (cvv v a).
Proof.
  move=> Hv a. case: (ltnP a n) => Ha; last by rewrite cvv_out //; exact: Rle_refl.
  by rewrite -[a]/(nat_of_ord (Ordinal Ha)) cvvE.
Qed.

Lemma psd_diag_ge0 k (A : 'M[R]_k) (i : 'I_k) : psd A -> Rle 0 (A i i).
Proof. move=> /psd_mxv H. rewrite -(mxvE A i i). exact: (psd_diag_nonneg k (mxv A) i H (ltP (ltn_ord i))). Qed.

(* the Cholesky contract is satisfiable for one observation *)
Definition chol11 (A : 'M[R]_1) : 'M[R]_1 := (sqrt (A 0 0))%:M.
Lemma chol11_ok (A : 'M[R]_1) : Rlt 0 (A 0 0) -> chol11 A *m (chol11 A)^T = A /\ chol11 A \in unitmx.
Proof.
  move=> H; split.
  - rewrite /chol11 tr_scalar_mx -scalar_mxM.
    have -> : sqrt (A 0 0) * sqrt (A 0 0) = A 0 0 by apply: sqrt_sqrt; apply: Rlt_le.
    by rewrite -mx11_scalar.
  - rewrite unitmxE det_scalar1 unitfE. apply/eqP => E. have := sqrt_lt_R0 _ H. rewrite E. exact: Rlt_irrefl.
Qed.

Section Kernel.
Context {phi kcov_ kcov kcross ksym} (HK : radial_kernel phi kcov_ kcov kcross ksym).
Hypothesis phi_schur : forall n m u, schur n (fun a b => phi (sqrt (du2 m u a b))).
Variables (dim : nat) (ls lsq lcu : nat -> R) (alpha : R).

(* what gaussian_process.py computes the blocks with (N points X, M points Y):
     gram_sym    build_kernel_matrix(X) [noise_variance added by GenGP's kernel_matrix]   -> kernel_matrix_sym, zero noise
     gram_cross  build_kernel_matrix(X, points_to_sample=Y)                                -> kernel_matrix_cross X Y (M x N)
     gram_diag   covariance(Y, Y), the K_x_x_array of compute_variance_of_points
   gram_cross on one point set is the clamped-expansion path to the same square block *)
Definition gram_sym N (X : nat -> nat -> R) : 'M[R]_N := \matrix_(i, j) ksym dim X (fun _ => 0%Re) ls lsq lcu alpha i j.
Definition gram_cross N M (X Y : nat -> nat -> R) : 'M[R]_(M,N) := \matrix_(i, j) kcross dim X Y ls lsq lcu alpha i j.
Definition gram_diag M (Y : nat -> nat -> R) : 'cV[R]_M := \col_i kcov dim Y Y ls lsq lcu alpha i.

Let kp (p q : nat -> R) : R := (alpha * phi (sdist dim ls p q))%Re.

Lemma gram_sym_entry N X (i j : 'I_N) : gram_sym N X i j = kp (X i) (X j).
Proof. by rewrite mxE (sym_profile HK); case: (Nat.eqb i j); rewrite Rplus_0_r. Qed.
Lemma gram_cross_entry N M X Y (i : 'I_M) (j : 'I_N) : gram_cross N M X Y i j = kp (Y i) (X j).
Proof. by rewrite mxE (cross_profile HK). Qed.
Lemma gram_diag_entry M Y (i : 'I_M) : gram_diag M Y i 0 = kp (Y i) (Y i).
Proof. by rewrite mxE (cov_profile HK). Qed.

Lemma gram_cross_sym N X : gram_cross N N X X = gram_sym N X.
Proof. by apply/matrixP => i j; rewrite gram_cross_entry gram_sym_entry. Qed.
Lemma gram_diag_sym M Y i : gram_diag M Y i 0 = gram_sym M Y i i.
Proof. by rewrite gram_diag_entry gram_sym_entry. Qed.
Lemma gram_diag_cross M Y i : gram_diag M Y i 0 = gram_cross M M Y Y i i.
Proof. by rewrite gram_cross_sym gram_diag_sym. Qed.

Lemma kernel_matrix_generated n xs (noise : 'cV[R]_n) :
  GPNoise.kernel_matrix (gram_sym n xs) noise = \matrix_(i, j) ksym dim xs (cvv noise) ls lsq lcu alpha i j.
Proof.
  apply/matrixP => i j. rewrite !mxE !(sym_profile HK) cvvE.
  have -> : (i == j) = (nat_of_ord i == nat_of_ord j) by [].
  by case: (Nat.eqb_spec i j) => [->|/eqP/negbTE->]; rewrite ?eqxx ?mulr1n ?mulr0n /GRing.add /GRing.zero /= Rplus_0_r.
Qed.

Section Posterior.
Variables (n m : nat) (xs xe : nat -> nat -> R) (noise : 'cV[R]_n).
Let Kker := gram_sym n xs.
Let K_eval := gram_cross n m xs xe.
Let Kss := gram_sym m xe.

Lemma joint_gram_generated :
  block_mx (GPNoise.kernel_matrix Kker noise) K_eval^T K_eval Kss
  = mxof (n + m) (fun a b => ksym dim (joinp n xs xe) (cvv noise) ls lsq lcu alpha a b).
Proof.
  rewrite kernel_matrix_generated -block_mx_joint.
  f_equal; apply/matrixP => i j; rewrite !mxE !(sym_profile HK) ?(cross_profile HK).
  - by rewrite !(joinp_l _ _ (ltn_ord _)).
  - rewrite (joinp_l _ _ (ltn_ord i)) joinp_r sdist_sym.
    case: (Nat.eqb_spec i (n + j)) => [E|_]; last by rewrite Rplus_0_r.
    by have := ltn_ord i; rewrite E ltnNge leq_addr.
  - rewrite (joinp_l _ _ (ltn_ord j)) joinp_r.
    case: (Nat.eqb_spec (n + i) j) => [E|_]; last by rewrite Rplus_0_r.
    by have := ltn_ord j; rewrite -E ltnNge leq_addr.
  - by rewrite !joinp_r cvv_out ?leq_addr //; case: (Nat.eqb i j); case: (Nat.eqb (n + i) (n + j)).
Qed.

Hypothesis Halpha : Rle 0 alpha.
Hypothesis Hnoise : forall i, Rle 0 (noise i 0).

Theorem joint_gram_psd : psd (block_mx (GPNoise.kernel_matrix Kker noise) K_eval^T K_eval Kss).
Proof.
  rewrite joint_gram_generated. apply: psdR_psd.
  exact: (radial_sym_psd HK phi_schur (n + m) dim _ _ ls lsq lcu alpha Halpha (cvv_nonneg Hnoise)).
Qed.

Variables (chol : 'M[R]_n -> 'M[R]_n) (min_var : R).
Let K := GPNoise.kernel_matrix Kker noise.
Hypothesis cholK : chol K *m (chol K)^T = K.
Hypothesis cholu : chol K \in unitmx.

Theorem posterior_cov_psd : psd (GPNoise.cov chol Kker noise K_eval Kss).
Proof. exact: (@noise_cov_psd _ _ _ chol _ _ _ _ cholK cholu joint_gram_psd). Qed.

(* what the statements about one kernel list: the matrix the GP factors, the joint Gram matrix, the polynomial-mean and the zero-mean
   posterior covariance (the same dataflow) *)
Theorem kernel_posterior_cov_psd :
  K = \matrix_(i, j) ksym dim xs (cvv noise) ls lsq lcu alpha i j /\
  psd (block_mx K K_eval^T K_eval Kss) /\
  psd (GPNoise.cov chol Kker noise K_eval Kss) /\
  psd (GPNoiseZeroMean.cov chol Kker noise K_eval Kss).
Proof. have H := posterior_cov_psd. split; first exact: kernel_matrix_generated. by split; first exact: joint_gram_psd. Qed.

(* pointwise variance: K_x_x_array is the diagonal of Kss, so the value floored at min_var is non-negative *)
Theorem kernel_posterior_variance :
  let kxx := gram_diag m xe in
  let v := kxx - diagcol (K_eval *m invmx K *m K_eval^T) in
  GPNoise.var_tri chol Kker noise K_eval kxx min_var = floor_at min_var v /\
  (forall i, v i 0 = GPNoise.cov chol Kker noise K_eval Kss i i) /\
  (forall i, Rle 0 (v i 0)).
Proof.
  move=> kxx v. split; first exact: (@noise_var_closed_form _ _ _ chol _ _ K_eval kxx min_var cholK cholu).
  have Hd i : v i 0 = GPNoise.cov chol Kker noise K_eval Kss i i.
    rewrite (@noise_cov_closed_form _ _ _ chol _ _ K_eval Kss cholK cholu) /v [LHS]mxE gram_diag_sym [RHS]mxE.
    congr (_ + _). rewrite [LHS]mxE [RHS]mxE. congr (- _). by rewrite [LHS]mxE.
  split; first exact: Hd. move=> i. rewrite Hd. exact: psd_diag_ge0 posterior_cov_psd.
Qed.
End Posterior.

(* the square blocks built by the cross entry point on one point set *)
Theorem kernel_posterior_cov_psd_cross n m xs xe (noise : 'cV[R]_n) (chol : 'M[R]_n -> 'M[R]_n) :
  Rle 0 alpha -> (forall i, Rle 0 (noise i 0)) ->
  let K := GPNoise.kernel_matrix (gram_cross n n xs xs) noise in
  chol K *m (chol K)^T = K -> chol K \in unitmx ->
  psd (GPNoise.cov chol (gram_cross n n xs xs) noise (gram_cross n m xs xe) (gram_cross m m xe xe)).
Proof. rewrite !gram_cross_sym => Ha Hn K. exact: posterior_cov_psd. Qed.

(* nugget variant: GPNugget's kernel matrix / covariance are GPNoise's with the constant noise vector tik *)
Theorem kernel_posterior_cov_psd_nugget n m xs xe (tik : R) (chol : 'M[R]_n -> 'M[R]_n) :
  Rle 0 alpha -> Rle 0 tik ->
  let K := GPNugget.kernel_matrix (gram_sym n xs) tik in
  chol K *m (chol K)^T = K -> chol K \in unitmx ->
  psd (GPNugget.cov chol (gram_sym n xs) tik (gram_cross n m xs xe) (gram_sym m xe)).
Proof.
  move=> Ha Htik K H1 H2.
  have Hn : forall i : 'I_n, Rle 0 ((const_mx tik : 'cV[R]_n) i 0) by move=> i; rewrite mxE.
  exact: (posterior_cov_psd xe Ha Hn H1 H2).
Qed.

(* the hypotheses are satisfiable: one observation, any number of queries *)
Theorem kernel_posterior_cov_psd_instance m xs xe (noise : 'cV[R]_1) :
  (forall r, Rle 0 r -> Rlt 0 (phi r)) -> Rlt 0 alpha -> (forall i, Rle 0 (noise i 0)) ->
  let Kker := gram_sym 1 xs in
  let K := GPNoise.kernel_matrix Kker noise in
  (chol11 K *m (chol11 K)^T = K /\ chol11 K \in unitmx) /\
  psd (GPNoise.cov chol11 Kker noise (gram_cross 1 m xs xe) (gram_sym m xe)).
Proof.
  move=> Hphi Ha Hn Kker K.
  have HK11 : Rlt 0 (K 0 0).
    rewrite /K /GPNoise.kernel_matrix mxE gram_sym_entry !mxE eqxx mulr1n /GRing.add /=.
    apply: Rplus_lt_le_0_compat; last exact: Hn. apply: Rmult_lt_0_compat => //. exact: (Hphi _ (sqrt_pos _)).
  have [H1 H2] := chol11_ok HK11. split; first by [].
  exact: (posterior_cov_psd xe (Rlt_le _ _ Ha) Hn H1 H2).
Qed.
End Kernel.

Section SEPosterior.
Variables (n m dim : nat) (xs xe : nat -> nat -> R) (ls lsq lcu : nat -> R) (alpha : R).
Definition SE_Kker : 'M[R]_n := \matrix_(i, j) SquareExponential.kernel_matrix_sym dim xs (fun _ => 0%Re) ls lsq lcu alpha i j.
Definition SE_K_eval : 'M[R]_(m,n) := \matrix_(i, j) SquareExponential.kernel_matrix_cross dim xs xe ls lsq lcu alpha i j.
Definition SE_Kss : 'M[R]_m := \matrix_(i, j) SquareExponential.kernel_matrix_sym dim xe (fun _ => 0%Re) ls lsq lcu alpha i j.
(* the same two square blocks through the other entry point (points_to_sample = the same point set: clamped-expansion path) *)
Definition SE_Kker_cross : 'M[R]_n := \matrix_(i, j) SquareExponential.kernel_matrix_cross dim xs xs ls lsq lcu alpha i j.
Definition SE_Kss_cross : 'M[R]_m := \matrix_(i, j) SquareExponential.kernel_matrix_cross dim xe xe ls lsq lcu alpha i j.

Lemma SE_Kker_cross_eq : SE_Kker_cross = SE_Kker.
Proof. exact: (gram_cross_sym SE_kernel). Qed.
Lemma SE_Kss_cross_eq : SE_Kss_cross = SE_Kss.
Proof. exact: (gram_cross_sym SE_kernel). Qed.
End SEPosterior.

Section SEInstance.
Variables (m dim : nat) (xs xe : nat -> nat -> R) (ls lsq lcu : nat -> R) (alpha : R) (noise : 'cV[R]_1).
Hypothesis Halpha : Rlt 0 alpha.
Hypothesis Hnoise : forall i, Rle 0 (noise i 0).
Theorem SE_posterior_cov_psd_instance :
  let Kker := SE_Kker 1 dim xs ls lsq lcu alpha in
  let K := GPNoise.kernel_matrix Kker noise in
  (chol11 K *m (chol11 K)^T = K /\ chol11 K \in unitmx) /\
  psd (GPNoise.cov chol11 Kker noise (SE_K_eval 1 m dim xs xe ls lsq lcu alpha) (SE_Kss m dim xe ls lsq lcu alpha)).
Proof. exact: (kernel_posterior_cov_psd_instance SE_kernel SE_profile_schur dim ls lsq lcu m xs xe (fun r Hr => proj1 (phiSE_range r Hr)) Halpha Hnoise). Qed.
End SEInstance.
