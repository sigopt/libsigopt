(* C02 composed with C03 for the Matern kernels: Section Kernel of Proofs/ComposePsd.v at C0_kernel, C2_kernel, C4_kernel of
   Proofs/MaternPsd.v.  For each kernel: the blocks of the joint Gram matrix as matrices of the generated entry points, K_x_x_array
   (covariance(Y, Y)) as the diagonal of what the cross entry point gives on one point set, and the hypotheses satisfied by one observation
   and any number of queries (chol11 of Proofs/ComposePsd.v). *)
From Coq Require Import Reals.
From mathcomp Require Import ssreflect ssrbool fintype ssralg zmodp matrix.
From LV Require Import Lib.MxAux Lib.RStruct Gen.GenGP Gen.GenCovariance Proofs.Covariance Proofs.ComposePsd Proofs.MaternPsd.
Set Implicit Arguments. Unset Strict Implicit. Unset Printing Implicit Defensive.
Import GRing.Theory.
Local Open Scope ring_scope.

Section C0Posterior.
Variables (n m dim : nat) (xs xe : nat -> nat -> R) (ls lsq lcu : nat -> R) (alpha : R).
Definition C0_Kker : 'M[R]_n := \matrix_(i, j) C0RadialMatern.kernel_matrix_sym dim xs (fun _ => 0%Re) ls lsq lcu alpha i j.
Definition C0_K_eval : 'M[R]_(m,n) := \matrix_(i, j) C0RadialMatern.kernel_matrix_cross dim xs xe ls lsq lcu alpha i j.
Definition C0_Kss : 'M[R]_m := \matrix_(i, j) C0RadialMatern.kernel_matrix_sym dim xe (fun _ => 0%Re) ls lsq lcu alpha i j.
Definition C0_Kss_cross : 'M[R]_m := \matrix_(i, j) C0RadialMatern.kernel_matrix_cross dim xe xe ls lsq lcu alpha i j.
Definition C0_kxx : 'cV[R]_m := \col_i C0RadialMatern.covariance dim xe xe ls lsq lcu alpha i.

Lemma C0_kxx_diag_cross i : C0_kxx i 0 = C0_Kss_cross i i.
Proof. exact: (gram_diag_cross C0_kernel). Qed.
End C0Posterior.

Section C0Instance.
Variables (m dim : nat) (xs xe : nat -> nat -> R) (ls lsq lcu : nat -> R) (alpha : R) (noise : 'cV[R]_1).
Hypothesis Halpha : Rlt 0 alpha.
Hypothesis Hnoise : forall i, Rle 0 (noise i 0).
Theorem C0_posterior_cov_psd_instance :
  let Kker := C0_Kker 1 dim xs ls lsq lcu alpha in
  let K := GPNoise.kernel_matrix Kker noise in
  (chol11 K *m (chol11 K)^T = K /\ chol11 K \in unitmx) /\
  psd (GPNoise.cov chol11 Kker noise (C0_K_eval 1 m dim xs xe ls lsq lcu alpha) (C0_Kss m dim xe ls lsq lcu alpha)).
Proof. exact: (kernel_posterior_cov_psd_instance C0_kernel C0_profile_schur dim ls lsq lcu m xs xe (fun r Hr => proj1 (phiC0_range r Hr)) Halpha Hnoise). Qed.
End C0Instance.

Section C2Posterior.
Variables (n m dim : nat) (xs xe : nat -> nat -> R) (ls lsq lcu : nat -> R) (alpha : R).
Definition C2_Kker : 'M[R]_n := \matrix_(i, j) C2RadialMatern.kernel_matrix_sym dim xs (fun _ => 0%Re) ls lsq lcu alpha i j.
Definition C2_K_eval : 'M[R]_(m,n) := \matrix_(i, j) C2RadialMatern.kernel_matrix_cross dim xs xe ls lsq lcu alpha i j.
Definition C2_Kss : 'M[R]_m := \matrix_(i, j) C2RadialMatern.kernel_matrix_sym dim xe (fun _ => 0%Re) ls lsq lcu alpha i j.
Definition C2_Kss_cross : 'M[R]_m := \matrix_(i, j) C2RadialMatern.kernel_matrix_cross dim xe xe ls lsq lcu alpha i j.
Definition C2_kxx : 'cV[R]_m := \col_i C2RadialMatern.covariance dim xe xe ls lsq lcu alpha i.

Lemma C2_kxx_diag_cross i : C2_kxx i 0 = C2_Kss_cross i i.
Proof. exact: (gram_diag_cross C2_kernel). Qed.
End C2Posterior.

Section C2Instance.
Variables (m dim : nat) (xs xe : nat -> nat -> R) (ls lsq lcu : nat -> R) (alpha : R) (noise : 'cV[R]_1).
Hypothesis Halpha : Rlt 0 alpha.
Hypothesis Hnoise : forall i, Rle 0 (noise i 0).
Theorem C2_posterior_cov_psd_instance :
  let Kker := C2_Kker 1 dim xs ls lsq lcu alpha in
  let K := GPNoise.kernel_matrix Kker noise in
  (chol11 K *m (chol11 K)^T = K /\ chol11 K \in unitmx) /\
  psd (GPNoise.cov chol11 Kker noise (C2_K_eval 1 m dim xs xe ls lsq lcu alpha) (C2_Kss m dim xe ls lsq lcu alpha)).
Proof. exact: (kernel_posterior_cov_psd_instance C2_kernel C2_profile_schur dim ls lsq lcu m xs xe (fun r Hr => proj1 (phiC2_range r Hr)) Halpha Hnoise). Qed.
End C2Instance.

Section C4Posterior.
Variables (n m dim : nat) (xs xe : nat -> nat -> R) (ls lsq lcu : nat -> R) (alpha : R).
Definition C4_Kker : 'M[R]_n := \matrix_(i, j) C4RadialMatern.kernel_matrix_sym dim xs (fun _ => 0%Re) ls lsq lcu alpha i j.
Definition C4_K_eval : 'M[R]_(m,n) := \matrix_(i, j) C4RadialMatern.kernel_matrix_cross dim xs xe ls lsq lcu alpha i j.
Definition C4_Kss : 'M[R]_m := \matrix_(i, j) C4RadialMatern.kernel_matrix_sym dim xe (fun _ => 0%Re) ls lsq lcu alpha i j.
Definition C4_Kss_cross : 'M[R]_m := \matrix_(i, j) C4RadialMatern.kernel_matrix_cross dim xe xe ls lsq lcu alpha i j.
Definition C4_kxx : 'cV[R]_m := \col_i C4RadialMatern.covariance dim xe xe ls lsq lcu alpha i.

Lemma C4_kxx_diag_cross i : C4_kxx i 0 = C4_Kss_cross i i.
Proof. exact: (gram_diag_cross C4_kernel). Qed.
End C4Posterior.

Section C4Instance.
Variables (m dim : nat) (xs xe : nat -> nat -> R) (ls lsq lcu : nat -> R) (alpha : R) (noise : 'cV[R]_1).
Hypothesis Halpha : Rlt 0 alpha.
Hypothesis Hnoise : forall i, Rle 0 (noise i 0).
Theorem C4_posterior_cov_psd_instance :
  let Kker := C4_Kker 1 dim xs ls lsq lcu alpha in
  let K := GPNoise.kernel_matrix Kker noise in
  (chol11 K *m (chol11 K)^T = K /\ chol11 K \in unitmx) /\
  psd (GPNoise.cov chol11 Kker noise (C4_K_eval 1 m dim xs xe ls lsq lcu alpha) (C4_Kss m dim xe ls lsq lcu alpha)).
Proof. exact: (kernel_posterior_cov_psd_instance C4_kernel C4_profile_schur dim ls lsq lcu m xs xe (fun r Hr => proj1 (phiC4_range r Hr)) Halpha Hnoise). Qed.
End C4Instance.
