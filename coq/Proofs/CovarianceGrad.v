(* C04, kernels: the public pairwise entry points.  For every point pair (coincident ones included), every coordinate k0
   and positive length scales, grad_covariance is the derivative of covariance in coordinate k0 of its first argument, and
   the length-scale column of hyperparameter_grad_covariance is the derivative in that length scale.  Along the line through
   a point pair the squared distance is d2of c z l t; a profile is differentiated through it where it is positive, and where
   it vanishes (c = 0, t = z) separately: the formulas give 0 there, the Matern profiles are squeezed between 1 - r^2 and 1,
   and the value does not depend on l.  All statements are about the REGENERATED definitions. *)
From Coq Require Import Reals Psatz.
From Coquelicot Require Import Coquelicot.
From LV Require Import Lib.RBase Gen.GenCovariance Proofs.Covariance.
Open Scope R_scope.

(* replace coordinate k0 of row i by t *)
Definition upd (x : nat -> nat -> R) (i k0 : nat) (t : R) : nat -> nat -> R :=
  fun a k => if (Nat.eqb a i && Nat.eqb k k0)%bool then t else x a k.

(* the share of the other coordinates in the squared distance of rows i *)
Definition rest (dim : nat) (x z : nat -> nat -> R) (ls : nat -> R) (i k0 : nat) : R :=
  bigsum dim (fun k => if Nat.eqb k k0 then 0 else ((x i k - z i k) / ls k) ^ 2).

Lemma rest_nonneg dim x z ls i k0 : 0 <= rest dim x z ls i k0.
Proof. apply bigsum_nonneg. intros k _. destruct (Nat.eqb k k0); [lra|apply pow2_ge_0]. Qed.

(* the squared distance of rows i with coordinate k0 singled out *)
Lemma d2w_at dim x z ls i k0 : (k0 < dim)%nat ->
  d2w dim x z ls i i = d2of (rest dim x z ls i k0) (z i k0) (ls k0) (x i k0).
Proof. intros Hk. unfold d2w, d2of, rest. rewrite (bigsum_split dim _ k0 Hk). apply Rplus_comm. Qed.

Lemma upd_at x i k0 t : upd x i k0 t i k0 = t.
Proof. unfold upd. rewrite !Nat.eqb_refl. reflexivity. Qed.
Lemma upd_same x i k0 : forall a k, upd x i k0 (x i k0) a k = x a k.
Proof.
  intros a k. unfold upd. destruct (Nat.eqb_spec a i) as [->|]; cbn [andb]; [|reflexivity].
  destruct (Nat.eqb_spec k k0) as [->|]; reflexivity.
Qed.
Lemma rest_upd dim x z ls i k0 t : rest dim (upd x i k0 t) z ls i k0 = rest dim x z ls i k0.
Proof. apply bigsum_ext. intros k _. unfold upd. rewrite Nat.eqb_refl. destruct (Nat.eqb k k0); reflexivity. Qed.
Lemma d2w_line dim x z ls i k0 t : (k0 < dim)%nat ->
  d2w dim (upd x i k0 t) z ls i i = d2of (rest dim x z ls i k0) (z i k0) (ls k0) t.
Proof. intros Hk. rewrite (d2w_at dim _ z ls i k0 Hk), rest_upd, upd_at. reflexivity. Qed.

Definition updl (ls : nat -> R) (k0 : nat) (l : R) : nat -> R := fun k => if Nat.eqb k k0 then l else ls k.

Lemma updl_same ls k0 : forall k, updl ls k0 (ls k0) k = ls k.
Proof. intros k. unfold updl. destruct (Nat.eqb_spec k k0) as [->|]; reflexivity. Qed.
Lemma rest_updl dim x z ls i k0 l : rest dim x z (updl ls k0 l) i k0 = rest dim x z ls i k0.
Proof. apply bigsum_ext. intros k _. unfold updl. destruct (Nat.eqb k k0); reflexivity. Qed.
Lemma d2w_line_l dim x z ls i k0 l : (k0 < dim)%nat ->
  d2w dim x z (updl ls k0 l) i i = d2of (rest dim x z ls i k0) (z i k0) l (x i k0).
Proof. intros Hk. rewrite (d2w_at dim x z _ i k0 Hk), rest_updl. unfold updl. rewrite Nat.eqb_refl. reflexivity. Qed.

Lemma d2of_nonneg c z l t : 0 <= c -> 0 <= d2of c z l t.
Proof. intros Hc. unfold d2of. pose proof (pow2_ge_0 ((t - z) / l)). lra. Qed.
(* the squared distance vanishes only at coincident points *)
Lemma d2of_pos_or_coincident c z l t : 0 <= c -> l <> 0 -> 0 < d2of c z l t \/ c = 0 /\ t = z.
Proof.
  intros Hc Hl. destruct (Rle_lt_or_eq_dec _ _ (d2of_nonneg c z l t Hc)) as [Hpos|H0]; [left; exact Hpos|right].
  unfold d2of in H0. pose proof (pow2_ge_0 ((t - z) / l)) as Hp.
  split; [lra|]. assert (E : (t - z) / l = 0) by (apply Rsqr_0_uniq; unfold Rsqr; lra).
  apply (Rmult_eq_compat_r l) in E. unfold Rdiv in E. rewrite Rmult_assoc, Rinv_l, Rmult_1_r, Rmult_0_l in E by exact Hl.
  lra.
Qed.

(* at coincident points the formulas give 0 *)
Lemma zero_diff_grad c lq : c * 0 / lq = 0.
Proof. unfold Rdiv. lra. Qed.
Lemma zero_diff_hgrad c lc : c * 0 ^ 2 / lc = 0.
Proof. unfold Rdiv. lra. Qed.

(* A profile kval of the squared distance whose derivative is w / 2 away from 0, and whose behaviour at coincidence is given
   separately, has derivative w(d) (t - z) / l^2 along coordinate k0 of row i of x, at every point. *)
Section Lift.
Variables kval w : R -> R.
Hypothesis regular : forall d, 0 < d -> is_derive kval d (w d / 2).
Hypothesis coincident : forall z l, l <> 0 -> is_derive (fun t => kval (d2of 0 z l t)) z 0.

Lemma line_deriv c z l t : 0 <= c -> l <> 0 ->
  is_derive (fun t => kval (d2of c z l t)) t (w (d2of c z l t) * (t - z) / l ^ 2).
Proof.
  intros Hc Hl. destruct (d2of_pos_or_coincident c z l t Hc Hl) as [Hpos|[-> ->]].
  - exact (radial_grad_input kval _ c z l t Hl (regular _ Hpos)).
  - rewrite Rminus_eq_0, zero_diff_grad. exact (coincident z l Hl).
Qed.

Lemma lift_line dim x z ls alpha i k0 : (k0 < dim)%nat -> ls k0 <> 0 ->
  is_derive (fun t => alpha * kval (d2w dim (upd x i k0 t) z ls i i)) (x i k0)
            (alpha * (w (d2w dim x z ls i i) * (x i k0 - z i k0) / ls k0 ^ 2)).
Proof.
  intros Hk Hl.
  apply (is_derive_ext (fun t => alpha * kval (d2of (rest dim x z ls i k0) (z i k0) (ls k0) t))).
  { intros t. rewrite d2w_line by exact Hk. reflexivity. }
  rewrite (d2w_at dim x z ls i k0 Hk).
  exact (is_derive_scal _ (x i k0) alpha _ (line_deriv _ (z i k0) _ (x i k0) (rest_nonneg dim x z ls i k0) Hl)).
Qed.
End Lift.

(* the same for the length scale l_k0, with derivative w(d) (t - z)^2 / l^3 for a profile of derivative - w / 2; at coincident points
   the value does not depend on l *)
Section LiftL.
Variables kval w : R -> R.
Hypothesis regular : forall d, 0 < d -> is_derive kval d (- w d / 2).

Lemma line_deriv_l c z t l : 0 <= c -> l <> 0 ->
  is_derive (fun l => kval (d2of c z l t)) l (w (d2of c z l t) * (t - z) ^ 2 / l ^ 3).
Proof.
  intros Hc Hl. destruct (d2of_pos_or_coincident c z l t Hc Hl) as [Hpos|[-> ->]].
  - exact (radial_grad_lengthscale kval _ c z t l Hl (regular _ Hpos)).
  - rewrite Rminus_eq_0, zero_diff_hgrad.
    apply (is_derive_ext (fun _ : R => kval 0)); [|apply is_derive_Rconst].
    intros l'. unfold d2of. rewrite Rminus_eq_0. f_equal. unfold Rdiv. lra.
Qed.

Lemma lift_line_l dim x z ls alpha i k0 : (k0 < dim)%nat -> ls k0 <> 0 ->
  is_derive (fun l => alpha * kval (d2w dim x z (updl ls k0 l) i i)) (ls k0)
            (alpha * (w (d2w dim x z ls i i) * (x i k0 - z i k0) ^ 2 / ls k0 ^ 3)).
Proof.
  intros Hk Hl.
  apply (is_derive_ext (fun l => alpha * kval (d2of (rest dim x z ls i k0) (z i k0) l (x i k0)))).
  { intros l. rewrite d2w_line_l by exact Hk. reflexivity. }
  rewrite (d2w_at dim x z ls i k0 Hk).
  exact (is_derive_scal _ (ls k0) alpha _ (line_deriv_l _ (z i k0) (x i k0) _ (rest_nonneg dim x z ls i k0) Hl)).
Qed.
End LiftL.

Lemma sqrt_sq_div z l t : sqrt (d2of 0 z l t) = Rabs ((t - z) / l).
Proof. unfold d2of. rewrite Rplus_0_l, <- Rsqr_pow2. apply sqrt_Rsqr_abs. Qed.

Lemma coincident_from_bound (val phi : R -> R) : (forall d, 0 <= d -> val d = phi (sqrt d)) ->
  phi 0 = 1 -> (forall r, 0 <= r -> 1 - r ^ 2 <= phi r <= 1) ->
  forall z l, l <> 0 -> is_derive (fun t => val (d2of 0 z l t)) z 0.
Proof.
  intros Hv H0 Hb z l Hl. apply (is_derive_sq_bound _ z (/ (l ^ 2))). intros t.
  rewrite !Hv, !sqrt_sq_div by (apply d2of_nonneg, Rle_refl).
  replace ((z - z) / l) with 0 by (unfold Rdiv; ring). rewrite Rabs_R0, H0.
  set (r := Rabs ((t - z) / l)). assert (Hr : 0 <= r) by apply Rabs_pos.
  destruct (Hb r Hr) as [B1 B2].
  assert (Er : r ^ 2 = / l ^ 2 * (t - z) ^ 2).
  { unfold r. rewrite RPow_abs, Rabs_pos_eq by apply pow2_ge_0. field. exact Hl. }
  rewrite <- Er. apply Rabs_le. lra.
Qed.

Lemma phiC2_lower r : 0 <= r -> 1 - r ^ 2 <= phiC2 r <= 1.
Proof.
  intros Hr. split; [|apply phiC2_range; exact Hr]. unfold phiC2. pose proof (exp_ineq1_le (- r)).
  assert (0 < exp (- r)) by apply exp_pos. nra.
Qed.
Lemma phiC4_lower r : 0 <= r -> 1 - r ^ 2 <= phiC4 r <= 1.
Proof.
  intros Hr. split; [|apply phiC4_range; exact Hr]. unfold phiC4. pose proof (exp_ineq1_le (- r)).
  assert (0 < exp (- r)) by apply exp_pos. nra.
Qed.

(* the square exponential gradient formula holds at coincident points too, where it gives 0 *)
Lemma SE_coincident z l : l <> 0 -> is_derive (fun t => valSE (d2of 0 z l t)) z 0.
Proof.
  intros Hl. evar_last; [exact (radial_grad_input valSE _ 0 z l z Hl (valSE_deriv _))|].
  rewrite Rminus_eq_0. apply zero_diff_grad.
Qed.
Lemma C2_coincident z l : l <> 0 -> is_derive (fun t => valC2 (d2of 0 z l t)) z 0.
Proof. exact (coincident_from_bound valC2 phiC2 valC2_profile phiC2_0 phiC2_lower z l). Qed.
Lemma C4_coincident z l : l <> 0 -> is_derive (fun t => valC4 (d2of 0 z l t)) z 0.
Proof. exact (coincident_from_bound valC4 phiC4 valC4_profile phiC4_0 phiC4_lower z l). Qed.

(* the pairwise entry points apply value and gradient formulas to the squared distance of rows i (the generated code
   squares the distance it has just taken the root of; the C2 kernel does not, and is alpha * valC2 (d2w ..) as it stands) *)
Lemma SE_cov_val dim x z ls lsq lcu alpha i :
  SquareExponential.covariance dim x z ls lsq lcu alpha i = alpha * valSE (d2w dim x z ls i i).
Proof. unfold SquareExponential.covariance, valSE, SquareExponential.eval_radial_kernel, K2. rewrite <- rw_sq. reflexivity. Qed.
Lemma C4_cov_val dim x z ls lsq lcu alpha i :
  C4RadialMatern.covariance dim x z ls lsq lcu alpha i = alpha * valC4 (d2w dim x z ls i i).
Proof.
  unfold C4RadialMatern.covariance, valC4, C4RadialMatern.eval_radial_kernel, K2. fold (d2w dim x z ls i i).
  rewrite sqrt_pow2 by apply d2w_nonneg. reflexivity.
Qed.

Lemma SE_grad_val dim x z ls lsq lcu alpha i k :
  SquareExponential.grad_covariance dim x z ls lsq lcu alpha i k
  = alpha * (- exp (- (1 / 2) * d2w dim x z ls i i) * (x i k - z i k) / lsq k).
Proof. unfold SquareExponential.grad_covariance. rewrite <- rw_sq. reflexivity. Qed.
Lemma C2_grad_val dim x z ls lsq lcu alpha i k :
  C2RadialMatern.grad_covariance dim x z ls lsq lcu alpha i k
  = alpha * (- exp (- sqrt (d2w dim x z ls i i)) * (x i k - z i k) / lsq k).
Proof. reflexivity. Qed.
Lemma C4_grad_val dim x z ls lsq lcu alpha i k :
  C4RadialMatern.grad_covariance dim x z ls lsq lcu alpha i k
  = alpha * (- (1 / 3) * (1 + sqrt (d2w dim x z ls i i)) * exp (- sqrt (d2w dim x z ls i i)) * (x i k - z i k) / lsq k).
Proof. reflexivity. Qed.

Lemma SE_hgrad_val dim nh x z ls lsq lcu alpha i k :
  SquareExponential.hyperparameter_grad_covariance dim nh x z ls lsq lcu alpha i (S k)
  = alpha * (exp (- (1 / 2) * d2w dim x z ls i i) * (x i k - z i k) ^ 2 / lcu k).
Proof.
  unfold SquareExponential.hyperparameter_grad_covariance. cbn [Nat.eqb Nat.sub]. rewrite Nat.sub_0_r, <- rw_sq. reflexivity.
Qed.
Lemma C2_hgrad_val dim nh x z ls lsq lcu alpha i k :
  C2RadialMatern.hyperparameter_grad_covariance dim nh x z ls lsq lcu alpha i (S k)
  = alpha * (exp (- sqrt (d2w dim x z ls i i)) * (x i k - z i k) ^ 2 / lcu k).
Proof. unfold C2RadialMatern.hyperparameter_grad_covariance. cbn [Nat.eqb Nat.sub]. rewrite Nat.sub_0_r. reflexivity. Qed.
Lemma C4_hgrad_val dim nh x z ls lsq lcu alpha i k :
  C4RadialMatern.hyperparameter_grad_covariance dim nh x z ls lsq lcu alpha i (S k)
  = alpha * (1 / 3 * (1 + sqrt (d2w dim x z ls i i)) * exp (- sqrt (d2w dim x z ls i i)) * (x i k - z i k) ^ 2 / lcu k).
Proof. unfold C4RadialMatern.hyperparameter_grad_covariance. cbn [Nat.eqb Nat.sub]. rewrite Nat.sub_0_r. reflexivity. Qed.

(* the C4 weight of the length-scale formula carries its sign differently from that of the input formula *)
Lemma valC4_deriv_l d : 0 < d -> is_derive valC4 d (- (1 / 3 * (1 + sqrt d) * exp (- sqrt d)) / 2).
Proof. intros Hd. evar_last; [exact (valC4_deriv d Hd)|unfold Rdiv; lra]. Qed.

Lemma is_derive_lin e a : is_derive (fun a => a * e) a e.
Proof. auto_derive; [exact I|lra]. Qed.

Theorem SE_grad_covariance_is_derivative dim x z ls lsq lcu alpha i k0 :
  (k0 < dim)%nat -> ls k0 <> 0 -> lsq k0 = ls k0 ^ 2 ->
  is_derive (fun t => SquareExponential.covariance dim (upd x i k0 t) z ls lsq lcu alpha i) (x i k0)
            (SquareExponential.grad_covariance dim x z ls lsq lcu alpha i k0).
Proof.
  intros Hk Hl Hq. rewrite SE_grad_val, Hq.
  apply (is_derive_ext (fun t => alpha * valSE (d2w dim (upd x i k0 t) z ls i i))).
  { intros t. symmetry. apply SE_cov_val. }
  exact (lift_line valSE (fun d => - exp (- (1 / 2) * d)) (fun d _ => valSE_deriv d) SE_coincident dim x z ls alpha i k0 Hk Hl).
Qed.

Theorem C2_grad_covariance_is_derivative dim x z ls lsq lcu alpha i k0 :
  (k0 < dim)%nat -> ls k0 <> 0 -> lsq k0 = ls k0 ^ 2 ->
  is_derive (fun t => C2RadialMatern.covariance dim (upd x i k0 t) z ls lsq lcu alpha i) (x i k0)
            (C2RadialMatern.grad_covariance dim x z ls lsq lcu alpha i k0).
Proof.
  intros Hk Hl Hq. rewrite C2_grad_val, Hq.
  exact (lift_line valC2 (fun d => - exp (- sqrt d)) valC2_deriv C2_coincident dim x z ls alpha i k0 Hk Hl).
Qed.

Theorem C4_grad_covariance_is_derivative dim x z ls lsq lcu alpha i k0 :
  (k0 < dim)%nat -> ls k0 <> 0 -> lsq k0 = ls k0 ^ 2 ->
  is_derive (fun t => C4RadialMatern.covariance dim (upd x i k0 t) z ls lsq lcu alpha i) (x i k0)
            (C4RadialMatern.grad_covariance dim x z ls lsq lcu alpha i k0).
Proof.
  intros Hk Hl Hq. rewrite C4_grad_val, Hq.
  apply (is_derive_ext (fun t => alpha * valC4 (d2w dim (upd x i k0 t) z ls i i))).
  { intros t. symmetry. apply C4_cov_val. }
  exact (lift_line valC4 (fun d => - (1 / 3) * (1 + sqrt d) * exp (- sqrt d)) valC4_deriv C4_coincident dim x z ls alpha i k0 Hk Hl).
Qed.

(* column S k0 of hyperparameter_grad_covariance = d/d l_k0 ; column 0 = d/d alpha *)
Theorem SE_hparam_grad_is_derivative dim nh x z ls lsq lcu alpha i k0 :
  (k0 < dim)%nat -> 0 < ls k0 -> lcu k0 = ls k0 ^ 3 ->
  is_derive (fun l => SquareExponential.covariance dim x z (updl ls k0 l) lsq lcu alpha i) (ls k0)
            (SquareExponential.hyperparameter_grad_covariance dim nh x z ls lsq lcu alpha i (S k0)) /\
  is_derive (fun a => SquareExponential.covariance dim x z ls lsq lcu a i) alpha
            (SquareExponential.hyperparameter_grad_covariance dim nh x z ls lsq lcu alpha i O).
Proof.
  intros Hk Hl Hq. split; [|apply is_derive_lin]. rewrite SE_hgrad_val, Hq.
  apply (is_derive_ext (fun l => alpha * valSE (d2w dim x z (updl ls k0 l) i i))).
  { intros l. symmetry. apply SE_cov_val. }
  exact (lift_line_l valSE (fun d => exp (- (1 / 2) * d)) (fun d _ => valSE_deriv d) dim x z ls alpha i k0 Hk (Rgt_not_eq _ _ Hl)).
Qed.

Theorem C2_hparam_grad_is_derivative dim nh x z ls lsq lcu alpha i k0 :
  (k0 < dim)%nat -> 0 < ls k0 -> lcu k0 = ls k0 ^ 3 ->
  is_derive (fun l => C2RadialMatern.covariance dim x z (updl ls k0 l) lsq lcu alpha i) (ls k0)
            (C2RadialMatern.hyperparameter_grad_covariance dim nh x z ls lsq lcu alpha i (S k0)) /\
  is_derive (fun a => C2RadialMatern.covariance dim x z ls lsq lcu a i) alpha
            (C2RadialMatern.hyperparameter_grad_covariance dim nh x z ls lsq lcu alpha i O).
Proof.
  intros Hk Hl Hq. split; [|apply is_derive_lin]. rewrite C2_hgrad_val, Hq.
  exact (lift_line_l valC2 (fun d => exp (- sqrt d)) valC2_deriv dim x z ls alpha i k0 Hk (Rgt_not_eq _ _ Hl)).
Qed.

Theorem C4_hparam_grad_is_derivative dim nh x z ls lsq lcu alpha i k0 :
  (k0 < dim)%nat -> 0 < ls k0 -> lcu k0 = ls k0 ^ 3 ->
  is_derive (fun l => C4RadialMatern.covariance dim x z (updl ls k0 l) lsq lcu alpha i) (ls k0)
            (C4RadialMatern.hyperparameter_grad_covariance dim nh x z ls lsq lcu alpha i (S k0)) /\
  is_derive (fun a => C4RadialMatern.covariance dim x z ls lsq lcu a i) alpha
            (C4RadialMatern.hyperparameter_grad_covariance dim nh x z ls lsq lcu alpha i O).
Proof.
  intros Hk Hl Hq. split; [|apply is_derive_lin]. rewrite C4_hgrad_val, Hq.
  apply (is_derive_ext (fun l => alpha * valC4 (d2w dim x z (updl ls k0 l) i i))).
  { intros l. symmetry. apply C4_cov_val. }
  exact (lift_line_l valC4 (fun d => 1 / 3 * (1 + sqrt d) * exp (- sqrt d)) valC4_deriv_l dim x z ls alpha i k0 Hk (Rgt_not_eq _ _ Hl)).
Qed.
