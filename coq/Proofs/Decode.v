(* C09: one-hot encoding, rounding, decoding and snapping of mixed parameters (model: Model.Decode).
   Scalar components (double, int, grid) are treated alike through snap1; a categorical component through the block
   `indicator v es` the encoder writes, which for a valid value is the one-hot vertex at find_pos v es.  At a vertex the stochastic
   decode gives every other category the probability 1e-300/(1+n*1e-300), not zero, so the round trip holds exactly for the
   draws inside `in_window`. *)
From Coq Require Import Qround Qabs SetoidList Lia Lqa Permutation Qpower.
From LV Require Import Model.Domain Model.Decode Proofs.Domain.
Import ListNotations.
Open Scope Q_scope.

Lemma firstn_app_len {A} (a b : list A) n : length a = n -> firstn n (a ++ b) = a.
Proof. intros <-. rewrite firstn_app, Nat.sub_diag, firstn_all. simpl. apply app_nil_r. Qed.
Lemma skipn_app_len {A} (a b : list A) n : length a = n -> skipn n (a ++ b) = b.
Proof. intros <-. rewrite skipn_app, Nat.sub_diag, skipn_all. reflexivity. Qed.
Lemma In_singleton {A} (x r : A) : In r [x] <-> r = x.
Proof. simpl. split; [intros [H|[]]; symmetry; exact H|intros ->; left; reflexivity]. Qed.
Lemma Forall2_len {A B} (P : A -> B -> Prop) l m : Forall2 P l m -> length l = length m.
Proof. induction 1; simpl; congruence. Qed.
Lemma Forall2_map_self {A B} (P : A -> B -> Prop) (f : A -> B) l : (forall a, P a (f a)) -> Forall2 P l (map f l).
Proof. intros H. induction l; simpl; constructor; [apply H|assumption]. Qed.

Lemma Forall2_app_split {A B} (P : A -> B -> Prop) l1 l2 x : Forall2 P (l1 ++ l2) x ->
  (length l1 <= length x)%nat /\ Forall2 P l1 (firstn (length l1) x) /\ Forall2 P l2 (skipn (length l1) x).
Proof.
  intros H. apply Forall2_app_inv_l in H. destruct H as (x1 & x2 & H1 & H2 & ->).
  pose proof (Forall2_len _ _ _ H1) as Hl. rewrite (firstn_app_len _ _ _ (eq_sym Hl)), (skipn_app_len _ _ _ (eq_sym Hl)), app_length.
  split; [lia|split; assumption].
Qed.

Lemma peq_refl a : peq a a.
Proof. induction a; constructor; [reflexivity|assumption]. Qed.
Lemma peq_sym a b : peq a b -> peq b a.
Proof. induction 1; constructor; [symmetry; assumption|assumption]. Qed.
Lemma peq_trans a b c : peq a b -> peq b c -> peq a c.
Proof.
  intros H. revert c. induction H as [|x y a b Hxy _ IH]; intros c Hc; inversion Hc; subst; constructor.
  - etransitivity; eassumption.
  - apply IH. assumption.
Qed.
Lemma peq_Equivalence : Equivalence peq.
Proof. split; [exact peq_refl|exact peq_sym|exact peq_trans]. Qed.

Lemma round_near x : Qabs (x - inject_Z (round_half_even x)) <= 1#2.
Proof.
  apply Qabs_Qle_condition. unfold round_half_even.
  pose proof (Qfloor_le x) as H1. pose proof (Qlt_floor x) as H2. rewrite inject_Z_plus in H2.
  destruct (Qcompare_spec (x - inject_Z (Qfloor x)) (1#2)) as [Hc|Hc|Hc]; [destruct (Z.even (Qfloor x))| |];
    rewrite ?inject_Z_plus; change (inject_Z 1) with 1 in *; split; lra.
Qed.

(* an integer within 1/2 of a point of [lo, hi] lies in [lo, hi] *)
Lemma round_in_range x (lo hi : Z) :
  inject_Z lo <= x -> x <= inject_Z hi -> (lo <= round_half_even x <= hi)%Z.
Proof.
  intros Hlo Hhi. pose proof (round_near x) as H. apply Qabs_Qle_condition in H.
  split; apply Z.lt_succ_r; unfold Z.succ; rewrite Zlt_Qlt, inject_Z_plus; change (inject_Z 1) with 1; lra.
Qed.

Lemma round_of_int x z : x == inject_Z z -> round_half_even x = z.
Proof.
  intros H. unfold round_half_even. rewrite (Qfloor_of_int _ _ H).
  assert (Hc : Qcompare (x - inject_Z z) (1#2) = Lt). { apply (proj1 (Qlt_alt _ _)). lra. }
  rewrite Hc. reflexivity.
Qed.

Lemma nearest_from_spec x : forall l best,
  (nearest_from x best l = best \/ In (nearest_from x best l) l) /\
  Qabs (x - nearest_from x best l) <= Qabs (x - best) /\
  (forall e, In e l -> Qabs (x - nearest_from x best l) <= Qabs (x - e)).
Proof.
  induction l as [|e r IH]; intros best; cbn [nearest_from].
  - split; [left; reflexivity|split; [apply Qle_refl|intros e []]].
  - destruct (Qltb (Qabs (x - e)) (Qabs (x - best))) eqn:E.
    + apply Qltb_lt in E. destruct (IH e) as (A & B & Cc). split; [|split].
      * destruct A as [A|A]; [right; left; symmetry; exact A|right; right; exact A].
      * lra.
      * intros e' [<-|Hin]; [exact B|apply Cc; exact Hin].
    + apply Qltb_ge in E. destruct (IH best) as (A & B & Cc). split; [|split].
      * destruct A as [A|A]; [left; exact A|right; right; exact A].
      * exact B.
      * intros e' [<-|Hin]; [lra|apply Cc; exact Hin].
Qed.

Lemma nearest_In x es : es <> [] -> In (nearest x es) es.
Proof.
  destruct es as [|e r]; [congruence|intros _]. simpl.
  destruct (nearest_from_spec x r e) as ([A|A] & _); [left; symmetry; exact A|right; exact A].
Qed.
Lemma nearest_min x es e : In e es -> Qabs (x - nearest x es) <= Qabs (x - e).
Proof.
  destruct es as [|e0 r]; [intros []|]. simpl. destruct (nearest_from_spec x r e0) as (_ & B & Cc).
  intros [<-|Hin]; [exact B|apply Cc; exact Hin].
Qed.
Lemma nearest_fix x es e : In e es -> x == e -> nearest x es == x.
Proof.
  intros Hin He. pose proof (nearest_min x es e Hin) as H.
  setoid_replace (x - e) with 0 in H by lra. change (Qabs 0) with 0 in H. apply Qabs_Qle_condition in H. lra.
Qed.

(* numpy.argmax: in range, a maximum, and the first one *)
Definition first_max (l : list Q) (k : nat) : Prop :=
  (k < length l)%nat /\ (forall j, (j < length l)%nat -> nth j l 0 <= nth k l 0) /\
  (forall j, (j < k)%nat -> nth j l 0 < nth k l 0).

Lemma first_max_snoc pre bi x : first_max pre bi ->
  first_max (pre ++ [x]) (if Qltb (nth bi pre 0) x then length pre else bi).
Proof.
  intros (Hb & Hmax & Hfst).
  assert (Hn : forall j, (j < length pre)%nat -> nth j (pre ++ [x]) 0 = nth j pre 0) by (intros j Hj; apply app_nth1; exact Hj).
  assert (Hx : nth (length pre) (pre ++ [x]) 0 = x) by apply nth_middle.
  assert (Hcase : forall j, (j < length (pre ++ [x]))%nat -> (j < length pre)%nat \/ j = length pre)
    by (intros j; rewrite app_length; simpl; lia).
  destruct (Qltb (nth bi pre 0) x) eqn:E; [apply Qltb_lt in E|apply Qltb_ge in E];
    (split; [rewrite app_length; simpl; lia|split]).
  - rewrite Hx. intros j Hj. destruct (Hcase j Hj) as [Hl| ->]; [|rewrite Hx; apply Qle_refl].
    rewrite (Hn j Hl). specialize (Hmax j Hl). lra.
  - rewrite Hx. intros j Hj. rewrite (Hn j Hj). specialize (Hmax j Hj). lra.
  - rewrite (Hn bi Hb). intros j Hj. destruct (Hcase j Hj) as [Hl| ->]; [|rewrite Hx; exact E].
    rewrite (Hn j Hl). exact (Hmax j Hl).
  - rewrite (Hn bi Hb). intros j Hj. rewrite Hn by lia. exact (Hfst j Hj).
Qed.

(* argmax_from continues a scan: from the first maximum of the prefix read so far to the first maximum of the whole list *)
Lemma argmax_from_spec : forall l pre bi, first_max pre bi ->
  first_max (pre ++ l) (argmax_from (nth bi pre 0) bi (length pre) l).
Proof.
  induction l as [|x r IH]; intros pre bi H; cbn [argmax_from]; [rewrite app_nil_r; exact H|].
  specialize (IH (pre ++ [x]) _ (first_max_snoc pre bi x H)). rewrite <- app_assoc, app_length, Nat.add_1_r in IH.
  destruct (Qltb (nth bi pre 0) x).
  - rewrite nth_middle in IH. exact IH.
  - rewrite app_nth1 in IH by apply H. exact IH.
Qed.

Lemma argmax_spec l : l <> [] -> first_max l (argmax l).
Proof.
  destruct l as [|x r]; [congruence|intros _]. apply (argmax_from_spec r [x] O).
  split; [apply Nat.lt_0_1|]. split; [intros [|j] Hj; [apply Qle_refl|simpl in Hj; lia]|intros j Hj; lia].
Qed.

Lemma argmax_unique l k : first_max l k -> argmax l = k.
Proof.
  intros (Hk & Hmax & Hfirst). assert (Hne : l <> []) by (destruct l; simpl in *; [lia|congruence]).
  destruct (argmax_spec l Hne) as (A & B & Cc).
  destruct (Nat.lt_trichotomy (argmax l) k) as [H|[H|H]]; [|exact H|].
  - specialize (Hfirst _ H). specialize (B k Hk). lra.
  - specialize (Cc _ H). specialize (Hmax _ A). lra.
Qed.

(* coordinate by coordinate: doubles unchanged, ints moved to a nearest integer (the half-even one), grid values to a
   nearest element, each categorical to one of its elements; the relaxed point has exactly the one-hot length *)
Fixpoint decoded (cs : list component) (x : row) (q : point) : Prop :=
  match cs, q with
  | [], [] => x = []
  | Double _ _ :: r, o :: q' => exists v t, x = v :: t /\ o = v /\ decoded r t q'
  | Int _ _ :: r, o :: q' =>
      exists v t, x = v :: t /\ o = inject_Z (round_half_even v) /\ Qabs (v - o) <= 1#2 /\ decoded r t q'
  | Grid es :: r, o :: q' =>
      exists v t, x = v :: t /\ o = nearest v es /\ In o es /\ (forall e, In e es -> Qabs (v - o) <= Qabs (v - e)) /\ decoded r t q'
  | Cat es :: r, o :: q' =>
      exists z, In z es /\ o = inject_Z z /\ (length es <= length x)%nat /\ decoded r (skipn (length es) x) q'
  | _, _ => False
  end.

Definition choose_member {O} (choose : O -> row -> list Z -> option Z) : Prop :=
  forall o vals es c, choose o vals es = Some c -> In c es.

Lemma wf_grid_nonempty es : wf_component (Grid es) = true -> es <> [].
Proof. simpl. destruct es; [discriminate|congruence]. Qed.

Lemma decode_gen_decoded {O} (choose : O -> row -> list Z -> option Z) : choose_member choose ->
  forall cs, Forall (fun c => wf_component c = true) cs ->
  forall os x q, decode_gen choose cs os x = Some q -> decoded cs x q.
Proof.
  intros Hch cs Hwf. induction Hwf as [|c r Hc Hr IH]; intros os x q H.
  - simpl in H. destruct x; [|discriminate]. injection H as <-. reflexivity.
  - destruct c as [lo hi|lo hi|es|es]; cbn [decode_gen] in H.
    1,2,4: destruct x as [|v t]; [discriminate|]; destruct (decode_gen choose r os t) as [q'|] eqn:E; [|discriminate];
      injection H as <-; apply IH in E; exists v, t.
    + auto.
    + auto using round_near.
    + repeat split; [apply nearest_In, wf_grid_nonempty, Hc|intros e He; apply nearest_min; exact He|exact E].
    + destruct (Nat.ltb (length x) (length es)) eqn:El; [discriminate|]. apply Nat.ltb_ge in El.
      destruct os as [|o os']; [discriminate|].
      destruct (choose o (firstn (length es) x) es) as [z|] eqn:Ec; [|discriminate].
      destruct (decode_gen choose r os' (skipn (length es) x)) as [q'|] eqn:E; [|discriminate]. injection H as <-.
      exists z. split; [eapply Hch; exact Ec|]. split; [reflexivity|]. split; [exact El|]. eapply IH; exact E.
Qed.

Lemma decoded_in_components : forall cs x q, decoded cs x q -> in_box (flat_map box_of cs) x -> Forall2 in_component cs q.
Proof.
  induction cs as [|c r IH]; intros x q H Hb; destruct q as [|o q']; simpl in H; try contradiction.
  - constructor.
  - destruct c; contradiction.
  - destruct c as [lo hi|lo hi|es|es].
    1,2,4: destruct H as (v & t & -> & -> & H); simpl in Hb; inversion Hb as [|? ? ? ? Hv Ht]; subst; simpl in Hv;
      (constructor; [|eapply IH; [apply H|exact Ht]]).
    + exact Hv.
    + exists (round_half_even v). split; [reflexivity|]. apply round_in_range; tauto.
    + exists (nearest v es). split; [apply H|reflexivity].
    + destruct H as (z & Hz & -> & Hl & H). cbn [flat_map box_of] in Hb.
      apply Forall2_app_split in Hb. rewrite repeat_length in Hb. destruct Hb as (_ & _ & Hb).
      constructor; [exists z; split; [exact Hz|reflexivity]|eapply IH; eassumption].
Qed.

Lemma dot_repeat0 : forall n a x, (n <= length x)%nat -> dot (repeat 0 n ++ a) x == dot a (skipn n x).
Proof.
  induction n as [|n IH]; intros a x Hl; simpl; [reflexivity|].
  destruct x as [|v t]; [simpl in Hl; lia|]. simpl in Hl. rewrite IH by lia. simpl. lra.
Qed.

(* a constraint whose non-zero weights sit on components whose value the decode did not move *)
Fixpoint unmoved (t : ctype) (cs : list component) (w : list Q) (x : row) : Prop :=
  match cs, w with
  | Cat es :: r, _ :: w' => unmoved t r w' (skipn (length es) x)
  | Int _ _ :: r, a :: w' => (a == 0 \/ exists z, hd 0 x == inject_Z z) /\ unmoved t r w' (tl x)
  | _ :: r, _ :: w' => unmoved t r w' (tl x)
  | _, _ => True
  end.

Lemma weight_ok_spec t a c : weight_ok t a c = true ->
  a == 0 \/ match t, c with CDouble, Double _ _ | CInt, Int _ _ => True | _, _ => False end.
Proof.
  unfold weight_ok. rewrite orb_true_iff, Qeq_bool_iff. intros [H|H]; [left; exact H|right].
  destruct t, c; (discriminate || exact I).
Qed.
Lemma dot_decoded t : forall cs w x q, decoded cs x q -> forall2b (weight_ok t) w cs = true -> unmoved t cs w x ->
  dot w q == dot (oh_weights cs w) x.
Proof.
  induction cs as [|c r IH]; intros w x q H Hw Hu; destruct q as [|o q']; simpl in H; try contradiction.
  - destruct w; reflexivity.
  - destruct c; contradiction.
  - apply forall2b_cons_r in Hw. destruct Hw as (a & w' & -> & Ha & Hw).
    apply weight_ok_spec in Ha. destruct c as [lo hi|lo hi|es|es]; cbn [oh_weights dot]; simpl in Hu.
    + destruct H as (v & tl_ & -> & -> & H). apply Qplus_comp; [reflexivity|apply IH; assumption].
    + destruct H as (v & tl_ & -> & -> & Hn & H). destruct Hu as [Hz Hu]. apply Qplus_comp; [|apply IH; assumption].
      destruct Hz as [Hz|[z Hz]]; [rewrite Hz; lra|]. apply Qmult_comp; [reflexivity|].
      simpl in Hz. rewrite (round_of_int _ _ Hz). symmetry. exact Hz.
    + destruct H as (z & Hz & -> & Hl & H). destruct Ha as [Ha|Ha]; [|destruct t; contradiction].
      rewrite dot_repeat0, Ha, Qmult_0_l, Qplus_0_l by exact Hl. apply IH; assumption.
    + destruct H as (v & tl_ & -> & Ho & Hin & Hm & H). destruct Ha as [Ha|Ha]; [|destruct t; contradiction].
      apply Qplus_comp; [rewrite Ha; lra|apply IH; assumption].
Qed.
Lemma unmoved_double : forall cs w x, forall2b (weight_ok CDouble) w cs = true -> unmoved CDouble cs w x.
Proof.
  induction cs as [|c r IH]; intros w x Hw; [destruct w; exact I|].
  apply forall2b_cons_r in Hw. destruct Hw as (a & w' & -> & Ha & Hw).
  destruct c; simpl; try (apply IH; exact Hw).
  split; [|apply IH; exact Hw]. left. destruct (weight_ok_spec _ _ _ Ha) as [H|[]]. exact H.
Qed.

Lemma wf_domain_comps d : wf_domain d = true -> Forall (fun c => wf_component c = true) (comps d).
Proof. unfold wf_domain. rewrite andb_true_iff, forallb_forall. intros [H _]. apply Forall_forall. exact H. Qed.
Lemma wf_domain_constraint d k : wf_domain d = true -> In k (cons d) -> wf_constraint (comps d) k = true.
Proof. unfold wf_domain. rewrite andb_true_iff, !forallb_forall. intros [_ H]. apply H. Qed.
Lemma wf_domain_cons d k : wf_domain d = true -> In k (cons d) -> forall2b (weight_ok (cty k)) (weights k) (comps d) = true.
Proof. intros Hwf Hk. pose proof (wf_domain_constraint d k Hwf Hk) as H. apply andb_true_iff in H. tauto. Qed.
Lemma wf_domain_cons_length d k : wf_domain d = true -> In k (cons d) -> length (weights k) = length (comps d).
Proof. intros Hwf Hk. pose proof (wf_domain_constraint d k Hwf Hk) as H. apply andb_true_iff in H. apply Nat.eqb_eq. tauto. Qed.

(* the general row statement: a relaxed point of the box that satisfies every constraint (in its one-hot form) and is
   integral wherever an int constraint looks decodes to an admissible configuration, coordinate by coordinate as `decoded` says *)
Theorem decode_row_admissible_gen {O} (choose : O -> row -> list Z -> option Z) d os x q :
  choose_member choose -> wf_domain d = true -> in_box (one_hot_box d) x ->
  (forall k, In k (cons d) -> rhs k <= dot (oh_weights (comps d) (weights k)) x) ->
  (forall k, In k (cons d) -> unmoved (cty k) (comps d) (weights k) x) ->
  decode_gen choose (comps d) os x = Some q -> Admissible d q /\ decoded (comps d) x q.
Proof.
  intros Hch Hwf Hb Hsat Hun H.
  pose proof (decode_gen_decoded choose Hch (comps d) (wf_domain_comps d Hwf) os x q H) as Hd.
  split; [|exact Hd]. split; [eapply decoded_in_components; eassumption|].
  apply Forall_forall. intros k Hk.
  rewrite (dot_decoded (cty k) (comps d) (weights k) x q Hd (wf_domain_cons d k Hwf Hk) (Hun k Hk)). apply Hsat. exact Hk.
Qed.

Lemma not_int_constrained d : is_int_constrained d = false -> forall k, In k (cons d) -> cty k = CDouble /\ In k (dbl_cons d).
Proof.
  unfold is_int_constrained. rewrite negb_false_iff, Nat.eqb_eq. intros H k Hk.
  destruct (cty k) eqn:E.
  - split; [reflexivity|]. unfold dbl_cons. apply filter_In. rewrite E. auto.
  - exfalso. assert (Hi : In k (int_cons d)) by (unfold int_cons; apply filter_In; rewrite E; auto).
    destruct (int_cons d); [exact Hi|discriminate].
Qed.

(* C09_decode_admissible for domains without int constraints (the decode of one row, any way of choosing the category that
   returns a member, in particular any temperature and any uniform draw) *)
Theorem decode_row_admissible {O} (choose : O -> row -> list Z -> option Z) d os x q :
  choose_member choose -> wf_domain d = true -> is_int_constrained d = false ->
  in_box (one_hot_box d) x -> sat_double_cons d x ->
  decode_gen choose (comps d) os x = Some q -> Admissible d q /\ decoded (comps d) x q.
Proof.
  intros Hch Hwf Hic Hb Hsat H. eapply decode_row_admissible_gen; try eassumption.
  - intros k Hk. destruct (not_int_constrained d Hic k Hk) as [_ Hd]. unfold sat_double_cons in Hsat.
    rewrite Forall_forall in Hsat. apply Hsat. exact Hd.
  - intros k Hk. destruct (not_int_constrained d Hic k Hk) as [Ht _]. rewrite Ht. apply unmoved_double.
    rewrite <- Ht. apply wf_domain_cons; assumption.
Qed.

Lemma choose_given_member : choose_member choose_given.
Proof.
  intros o vals es c. unfold choose_given. destruct (existsb (Z.eqb o) es) eqn:E; [|discriminate].
  intros H. injection H as <-. apply existsb_exists in E. destruct E as (z & Hz & Ez). apply Z.eqb_eq in Ez. subst. exact Hz.
Qed.
Lemma choose_argmax_member : choose_member choose_argmax.
Proof. intros o vals es c H. unfold choose_argmax in H. eapply nth_error_In; exact H. Qed.
Lemma choose_draw_member powf T : choose_member (choose_draw powf T).
Proof.
  intros u vals es c. unfold choose_draw. destruct (draw_ix u 0 (rel_probs powf T vals) 0); [|discriminate].
  intros H. eapply nth_error_In; exact H.
Qed.
Theorem snap_tasks_nearest costs options : options <> [] ->
  Forall2 (fun c o => In o options /\ forall e, In e options -> Qabs (c - o) <= Qabs (c - e)) costs (snap_tasks costs options).
Proof.
  intros Hne. apply Forall2_map_self. intros c. split; [apply nearest_In; exact Hne|intros e He; apply nearest_min; exact He].
Qed.

Definition no_none (l : list (option Q)) : bool := negb (existsb (fun o => match o with None => true | Some _ => false end) l).
(* per-parameter length scales (one per scalar parameter, one per category) survive categorical -> one-hot -> categorical *)
Theorem length_scales_roundtrip : forall cs ls,
  Forall2 (fun c l => length l = width c /\ no_none l = true) cs ls ->
  ls_to_categorical cs (ls_to_one_hot cs ls) = ls.
Proof.
  intros cs ls H. induction H as [|c l cs' ls' [Hl Hn] _ IH]; [reflexivity|].
  unfold no_none in Hn. apply negb_true_iff in Hn. cbn [ls_to_one_hot]. rewrite Hn.
  destruct c as [lo hi|lo hi|es|es]; cbn [ls_to_categorical]; simpl in Hl;
    rewrite (firstn_app_len l _ _ Hl), (skipn_app_len l _ _ Hl), IH; reflexivity.
Qed.
(* a default categorical entry (a None inside) becomes all ones *)
Lemma length_scales_default es r l t : existsb (fun o => match o with None => true | Some _ => false end) l = true ->
  ls_to_one_hot (Cat es :: r) (l :: t) = repeat (Some 1) (length es) ++ ls_to_one_hot r t.
Proof. intros H. cbn [ls_to_one_hot]. rewrite H. reflexivity. Qed.

Definition snap1 (c : component) (v : Q) : Q :=
  match c with Int _ _ => inject_Z (round_half_even v) | Grid es => nearest v es | _ => v end.
(* the block the encoder writes for the value v of a categorical with elements es *)
Definition indicator (v : Q) (es : list Z) : row := map (fun e => if Qeq_bool v (inject_Z e) then 1 else 0) es.

Lemma enc_scalar c r v t : is_cat c = false -> enc (c :: r) (v :: t) = v :: enc r t.
Proof. destruct c; try discriminate; reflexivity. Qed.
Lemma enc_cat es r v t : enc (Cat es :: r) (v :: t) = indicator v es ++ enc r t.
Proof. reflexivity. Qed.
Lemma indicator_length v es : length (indicator v es) = length es.
Proof. apply map_length. Qed.

Lemma decode_gen_scalar {O} (choose : O -> row -> list Z -> option Z) c r os v t : is_cat c = false ->
  decode_gen choose (c :: r) os (v :: t) = option_map (Datatypes.cons (snap1 c v)) (decode_gen choose r os t).
Proof. destruct c; try discriminate; reflexivity. Qed.
Lemma decode_gen_cat {O} (choose : O -> row -> list Z -> option Z) es r o os b t : length b = length es ->
  decode_gen choose (Cat es :: r) (o :: os) (b ++ t) =
  match choose o b es with
  | Some z => option_map (Datatypes.cons (inject_Z z)) (decode_gen choose r os t)
  | None => None
  end.
Proof.
  intros Hl. cbn [decode_gen]. rewrite (firstn_app_len _ _ _ Hl), (skipn_app_len _ _ _ Hl).
  replace (Nat.ltb (length (b ++ t)) (length es)) with false; [reflexivity|].
  symmetry. apply Nat.ltb_ge. rewrite app_length. lia.
Qed.

Lemma snap1_fix c v x : in_component c v -> x == v -> snap1 c x == v.
Proof.
  destruct c as [lo hi|lo hi|es|es]; intros Hc Hx; cbn [snap1]; [exact Hx| |exact Hx|].
  - destruct Hc as (z & Hz & _). rewrite Hz in Hx. rewrite (round_of_int _ _ Hx). symmetry. exact Hz.
  - destruct Hc as (e & He & Hv). rewrite <- Hx. apply (nearest_fix x es e He). rewrite Hx. exact Hv.
Qed.

Lemma enc_nocat : forall cs p, has_cat cs = false -> length cs = length p -> enc cs p = p.
Proof.
  induction cs as [|c r IH]; intros [|v t] Hc Hl; try discriminate; [reflexivity|].
  apply orb_false_iff in Hc. destruct Hc as [Hc Hr]. injection Hl as Hl. rewrite (enc_scalar c r v t Hc), (IH t Hr Hl). reflexivity.
Qed.
Lemma encode_enc d p : Forall2 in_component (comps d) p -> encode d p = enc (comps d) p.
Proof.
  intros Hin. unfold encode. destruct (has_cat (comps d)) eqn:E; [reflexivity|].
  symmetry. apply enc_nocat; [exact E|eapply Forall2_len; exact Hin].
Qed.

Lemma unit_vec_length n k : length (unit_vec n k) = n.
Proof. unfold unit_vec. rewrite map_length, seq_length. reflexivity. Qed.
Lemma nth_unit n k j : (j < n)%nat -> nth j (unit_vec n k) 0 = if Nat.eqb j k then 1 else 0.
Proof.
  intros Hj. unfold unit_vec. set (g := fun i => if Nat.eqb i k then 1 else 0).
  rewrite (nth_indep _ 0 (g O)) by (rewrite map_length, seq_length; exact Hj).
  rewrite map_nth, seq_nth by exact Hj. reflexivity.
Qed.
Lemma argmax_unit n k : (k < n)%nat -> argmax (unit_vec n k) = k.
Proof.
  intros Hk. apply argmax_unique. unfold first_max. rewrite unit_vec_length. split; [exact Hk|split].
  - intros j Hj. rewrite !nth_unit by assumption. rewrite Nat.eqb_refl. destruct (Nat.eqb j k); lra.
  - intros j Hj. rewrite !nth_unit by lia. rewrite Nat.eqb_refl. destruct (Nat.eqb j k) eqn:E; [apply Nat.eqb_eq in E; lia|lra].
Qed.

(* an exact one-hot block: a zeros, a one, b zeros *)
Definition onehot (a b : nat) : row := repeat 0 a ++ 1 :: repeat 0 b.

Lemma unit_vec_off k : forall len s, (k < s \/ s + len <= k)%nat ->
  map (fun i => if Nat.eqb i k then 1 else 0) (seq s len) = repeat 0 len.
Proof.
  induction len as [|len IH]; intros s H; [reflexivity|]. cbn [seq map repeat]. rewrite IH by lia.
  replace (Nat.eqb s k) with false by (symmetry; apply Nat.eqb_neq; lia). reflexivity.
Qed.
Lemma unit_vec_onehot n k : (k < n)%nat -> unit_vec n k = onehot k (n - k - 1).
Proof.
  intros Hk. unfold unit_vec, onehot. replace n with (k + S (n - k - 1))%nat at 1 by lia.
  rewrite seq_app, map_app. cbn [seq map Nat.add]. rewrite Nat.eqb_refl, !unit_vec_off by lia. reflexivity.
Qed.

Lemma nodupb_NoDup l : nodupb Z.eqb l = true -> NoDup l.
Proof.
  induction l as [|x r IH]; simpl; [constructor|]. rewrite andb_true_iff, negb_true_iff. intros [H1 H2].
  constructor; [|apply IH; exact H2]. intros Hin.
  assert (existsb (Z.eqb x) r = true) by (apply existsb_exists; exists x; split; [exact Hin|apply Z.eqb_refl]). congruence.
Qed.
Lemma wf_cat es : wf_component (Cat es) = true -> NoDup es.
Proof. simpl. rewrite andb_true_iff. intros [_ H]. apply nodupb_NoDup. exact H. Qed.

Fixpoint find_pos (v : Q) (es : list Z) : nat :=
  match es with [] => O | e :: r => if Qeq_bool v (inject_Z e) then O else S (find_pos v r) end.

Lemma indicator_zeros v z : v == inject_Z z -> forall l, ~ In z l -> indicator v l = repeat 0 (length l).
Proof.
  intros Hv. induction l as [|e l IH]; intros Hn; [reflexivity|].
  change (indicator v (e :: l)) with ((if Qeq_bool v (inject_Z e) then 1 else 0) :: indicator v l).
  destruct (Qeq_bool v (inject_Z e)) eqn:E.
  - exfalso. apply Hn. left. apply Qeq_bool_iff in E. rewrite Hv in E. apply (proj1 (inject_Z_injective _ _)) in E. congruence.
  - rewrite IH; [reflexivity|]. intros H. apply Hn. right. exact H.
Qed.
(* the encoder writes the vertex at the position of the value in a duplicate-free element list *)
Lemma indicator_onehot v z : v == inject_Z z -> forall es, In z es -> NoDup es ->
  indicator v es = onehot (find_pos v es) (length es - find_pos v es - 1) /\
  nth_error es (find_pos v es) = Some z /\ (find_pos v es < length es)%nat.
Proof.
  intros Hv. induction es as [|e r IH]; intros Hin Hnd; [destruct Hin|].
  inversion Hnd as [|? ? Hne Hnr]; subst. cbn [find_pos].
  change (indicator v (e :: r)) with ((if Qeq_bool v (inject_Z e) then 1 else 0) :: indicator v r).
  destruct (Qeq_bool v (inject_Z e)) eqn:E.
  - apply Qeq_bool_iff in E. rewrite Hv in E. apply (proj1 (inject_Z_injective _ _)) in E. subst e.
    rewrite (indicator_zeros v z Hv r Hne). unfold onehot. simpl. rewrite Nat.sub_0_r. repeat split; lia.
  - destruct Hin as [->|Hin].
    + exfalso. assert (Qeq_bool v (inject_Z z) = true) by (apply Qeq_bool_iff; exact Hv). congruence.
    + destruct (IH Hin Hnr) as (A & B & Cc). rewrite A. unfold onehot. simpl. repeat split; [exact B|lia].
Qed.

(* snap_det, as a function of the component list *)
Definition snap_cs (cs : list component) (x : row) : row := round_grid_row cs (round_cat_row cs (round_int_row cs x)).

Lemma snap_cs_scalar c r v t : is_cat c = false -> snap_cs (c :: r) (v :: t) = snap1 c v :: snap_cs r t.
Proof. destruct c; simpl; intros H; try discriminate; reflexivity. Qed.
Lemma snap_cs_cat es r b t : length b = length es ->
  snap_cs (Cat es :: r) (b ++ t) = unit_vec (length es) (argmax b) ++ snap_cs r t.
Proof.
  intros Hl. unfold snap_cs. cbn [round_int_row]. rewrite (firstn_app_len _ _ _ Hl), (skipn_app_len _ _ _ Hl).
  cbn [round_cat_row]. rewrite (firstn_app_len _ _ _ Hl), (skipn_app_len _ _ _ Hl).
  cbn [round_grid_row]. rewrite (firstn_app_len _ _ _ (unit_vec_length _ _)), (skipn_app_len _ _ _ (unit_vec_length _ _)).
  reflexivity.
Qed.

Lemma roundtrip_cs : forall cs p, Forall (fun c => wf_component c = true) cs -> Forall2 in_component cs p ->
  exists q, (forall os : list unit, (length cs <= length os)%nat ->
               decode_gen choose_argmax cs os (snap_cs cs (enc cs p)) = Some q) /\ peq q p /\
            peq (snap_cs cs (enc cs p)) (enc cs p) /\ length (enc cs p) = one_hot_dim cs.
Proof.
  intros cs p Hwf H. induction H as [|c v cs' p' Hc _ IH].
  - exists []. simpl. repeat split; constructor.
  - inversion Hwf as [|? ? Hwc Hwr]; subst. destruct (IH Hwr) as (q' & Hq & Hpe & Hfix & Hlen). clear IH.
    destruct (is_cat c) eqn:Ec.
    + destruct c as [| |es|]; try discriminate. destruct Hc as (z & Hz & Hv).
      destruct (indicator_onehot v z Hv es Hz (wf_cat es Hwc)) as (A & B & Hk). set (k := find_pos v es) in *.
      (* the block is the unit vector at k: rounding keeps it, and its first maximum is k *)
      rewrite <- (unit_vec_onehot _ _ Hk) in A.
      rewrite enc_cat, A, snap_cs_cat, (argmax_unit _ _ Hk) by apply unit_vec_length.
      exists (inject_Z z :: q'). split; [|split; [|split]].
      * intros [|o os'] Hos; [simpl in Hos; lia|]. rewrite decode_gen_cat by apply unit_vec_length.
        unfold choose_argmax. rewrite (argmax_unit _ _ Hk), B, Hq by (simpl in Hos; lia). reflexivity.
      * constructor; [symmetry; exact Hv|exact Hpe].
      * apply Forall2_app; [apply peq_refl|exact Hfix].
      * rewrite app_length, unit_vec_length, Hlen. reflexivity.
    + rewrite (enc_scalar _ _ _ _ Ec), (snap_cs_scalar _ _ _ _ Ec).
      pose proof (snap1_fix c v v Hc (Qeq_refl v)) as H1.
      exists (snap1 c (snap1 c v) :: q'). split; [|split; [|split]].
      * intros os Hos. rewrite (decode_gen_scalar _ _ _ _ _ _ Ec), Hq by (simpl in Hos; lia). reflexivity.
      * constructor; [exact (snap1_fix c v _ Hc H1)|exact Hpe].
      * constructor; [exact H1|exact Hfix].
      * destruct c; try discriminate; simpl; rewrite Hlen; reflexivity.
Qed.

(* C09_round_roundtrip: encode a valid point, apply the three deterministic rounding functions, read the categories off:
   the same point comes back; moreover the rounding functions leave the encoded point where it is, and it has the one-hot length *)
Theorem round_roundtrip d p : wf_domain d = true -> Admissible d p ->
  exists q, decode_det d (encode d p) = Some q /\ peq q p /\
            peq (snap_det d (encode d p)) (encode d p) /\ length (encode d p) = one_hot_dim (comps d).
Proof.
  intros Hwf [Hin _].
  destruct (roundtrip_cs (comps d) p (wf_domain_comps d Hwf) Hin) as (q & Hq & Hpe & Hfix & Hlen).
  exists q. rewrite (encode_enc d p Hin). unfold decode_det, collapse. change (snap_det d) with (snap_cs (comps d)).
  split; [|split; [exact Hpe|split; [exact Hfix|exact Hlen]]]. apply Hq. rewrite repeat_length. lia.
Qed.

(* deterministic rounding of a categorical block: the unit vector at the first maximum *)
Theorem round_cat_is_argmax es r x : es <> [] -> (length es <= length x)%nat ->
  let vals := firstn (length es) x in let k := argmax vals in
  round_cat_row (Cat es :: r) x = unit_vec (length es) k ++ round_cat_row r (skipn (length es) x) /\
  (k < length es)%nat /\ (forall j, (j < length es)%nat -> nth j vals 0 <= nth k vals 0) /\
  (forall j, (j < k)%nat -> nth j vals 0 < nth k vals 0).
Proof.
  intros Hne Hl vals k. split; [reflexivity|].
  assert (Hv : length vals = length es) by (unfold vals; rewrite firstn_length; lia).
  assert (Hvn : vals <> []) by (destruct vals; [destruct es; simpl in Hv; [congruence|discriminate]|congruence]).
  destruct (argmax_spec vals Hvn) as (A & B & Cc). rewrite Hv in A, B. auto.
Qed.
(* r is x with every masked coordinate moved to its floor or its ceiling and every other coordinate kept *)
Fixpoint nbr_of (mask : list bool) (x r : row) : Prop :=
  match mask, x with
  | true :: m, v :: t => match r with
                         | o :: r' => (o = inject_Z (Qfloor v) \/ o = inject_Z (Qceiling v)) /\ nbr_of m t r'
                         | [] => False
                         end
  | false :: m, v :: t => match r with o :: r' => o = v /\ nbr_of m t r' | [] => False end
  | _, _ => r = x
  end.

(* int_neighbours_enumerate: the rows of the grid are exactly the floor/ceil combinations of the masked coordinates *)
Theorem lattice_spec : forall mask x r, In r (lattice mask x) <-> nbr_of mask x r.
Proof.
  induction mask as [|b m IH]; intros x r.
  - apply In_singleton.
  - destruct x as [|v t]; [destruct b; apply In_singleton|].
    destruct b; cbn [lattice nbr_of].
    + rewrite in_app_iff, !in_map_iff. split.
      * intros [(r' & <- & Hr)|(r' & <- & Hr)]; (split; [auto|apply IH; exact Hr]).
      * destruct r as [|o r']; [tauto|]. intros [[->| ->] Hr]; [left|right]; exists r'; (split; [reflexivity|apply IH; exact Hr]).
    + rewrite in_map_iff. split.
      * intros (r' & <- & Hr). split; [reflexivity|apply IH; exact Hr].
      * destruct r as [|o r']; [tauto|]. intros [-> Hr]. exists r'. split; [reflexivity|apply IH; exact Hr].
Qed.
Lemma lattice_length : forall mask x, (length mask <= length x)%nat -> length (lattice mask x) = Nat.pow 2 (count_true mask).
Proof.
  induction mask as [|b m IH]; intros x Hl; [reflexivity|].
  destruct x as [|v t]; [simpl in Hl; lia|]. simpl in Hl. destruct b; cbn [lattice].
  - rewrite app_length, !map_length, IH by lia. unfold count_true. simpl. lia.
  - rewrite map_length, IH by lia. reflexivity.
Qed.
Lemma pick_spec : forall mask x ups, nbr_of mask x (pick mask x ups).
Proof.
  induction mask as [|b m IH]; intros x ups; [destruct x; reflexivity|].
  destruct x as [|v t]; [destruct b; reflexivity|]. destruct b; cbn [pick nbr_of].
  - destruct ups as [|up ups']; [split; [left; reflexivity|apply IH]|]. split; [destruct up; auto|apply IH].
  - split; [reflexivity|apply IH].
Qed.
Lemma int_neighbors_spec d rnd x r : In r (int_neighbors d rnd x) -> nbr_of (int_mask d) x r.
Proof.
  unfold int_neighbors. destruct (Nat.leb (count_true (int_mask d)) max_grid_dim).
  - apply lattice_spec.
  - rewrite in_map_iff. intros (ups & <- & _). apply pick_spec.
Qed.

Lemma permute_In {A} (perm : list nat) (l : list A) a : In a (permute perm l) -> In a l.
Proof.
  unfold permute. rewrite in_flat_map. intros (j & _ & H). destruct (nth_error l j) eqn:E; [|destruct H].
  destruct H as [<-|[]]. eapply nth_error_In; exact E.
Qed.

Lemma In_firstn {A} n : forall (l : list A) a, In a (firstn n l) -> In a l.
Proof. induction n as [|n IH]; intros [|x l] a H; simpl in *; try tauto. destruct H; [left; assumption|right; apply IH; assumption]. Qed.

Definition snap_ok (d : domain) (xs : list row) (r : row) : Prop :=
  sat_cons (comps d) (int_cons d) r = true /\ exists x, In x xs /\ nbr_of (int_mask d) x r.

Lemma feasible_neighbors_spec d rnd x r : In r (feasible_neighbors d rnd x) ->
  sat_cons (comps d) (int_cons d) r = true /\ nbr_of (int_mask d) x r.
Proof. unfold feasible_neighbors. rewrite filter_In. intros [Hn Hs]. split; [exact Hs|eapply int_neighbors_spec; exact Hn]. Qed.

(* one row of the first pass: its entry is the first of its shuffled feasible neighbours, a hole if there is none, and the spare
   list grows by such neighbours only *)
Lemma snap_pass_cons d n x r rnds perms padding o p : snap_pass d n rnds perms (x :: r) padding = (o, p) ->
  exists o' padding', o = hd_error (permute (hd [] perms) (feasible_neighbors d (hd [] rnds) x)) :: o' /\
    snap_pass d n (tl rnds) (tl perms) r padding' = (o', p) /\
    incl padding' (padding ++ permute (hd [] perms) (feasible_neighbors d (hd [] rnds) x)).
Proof.
  cbn [snap_pass]. destruct (permute (hd [] perms) (feasible_neighbors d (hd [] rnds) x)) as [|f rest];
    destruct (snap_pass d n (tl rnds) (tl perms) r _) as [o' p'] eqn:E; intros H; injection H as <- <-;
    eexists _, _; (split; [reflexivity|split; [exact E|]]).
  - apply incl_appl, incl_refl.
  - destruct (Nat.ltb (length padding) n); [|apply incl_appl, incl_refl].
    apply incl_app; [apply incl_appl, incl_refl|]. intros y Hy. apply in_or_app. right. right. eapply In_firstn. exact Hy.
Qed.

Lemma snap_pass_ok d n all : forall xs rnds perms padding o p,
  incl xs all -> Forall (snap_ok d all) padding ->
  snap_pass d n rnds perms xs padding = (o, p) ->
  Forall (snap_ok d all) p /\ Forall (fun r => match r with Some f => snap_ok d all f | None => True end) o.
Proof.
  induction xs as [|x r IH]; intros rnds perms padding o p Hsub Hpad H.
  - simpl in H. injection H as <- <-. split; [exact Hpad|constructor].
  - apply snap_pass_cons in H. destruct H as (o' & padding' & -> & E & Hinc).
    assert (Hfn : forall f, In f (permute (hd [] perms) (feasible_neighbors d (hd [] rnds) x)) -> snap_ok d all f).
    { intros f Hf. apply permute_In, feasible_neighbors_spec in Hf. split; [apply Hf|].
      exists x. split; [apply Hsub; left; reflexivity|apply Hf]. }
    assert (Hpad' : Forall (snap_ok d all) padding').
    { rewrite Forall_forall in *. intros y Hy. apply Hinc, in_app_or in Hy. destruct Hy as [Hy|Hy]; [apply Hpad|apply Hfn]; exact Hy. }
    destruct (IH _ _ _ _ _ (fun y Hy => Hsub y (or_intror Hy)) Hpad' E) as [A B]. split; [exact A|constructor; [|exact B]].
    destruct (permute (hd [] perms) (feasible_neighbors d (hd [] rnds) x)); [exact I|apply Hfn; left; reflexivity].
Qed.

Lemma snap_fill_ok (P : row -> Prop) : forall o padding,
  Forall (fun r => match r with Some f => P f | None => True end) o -> Forall P padding -> Forall P (snap_fill o padding).
Proof.
  induction o as [|[f|] o IH]; intros padding Ho Hp; simpl; [constructor| |].
  - inversion Ho; subst. constructor; [assumption|apply IH; assumption].
  - inversion Ho; subst. destruct padding as [|g p]; [apply IH; [assumption|constructor]|].
    inversion Hp; subst. constructor; [assumption|apply IH; assumption].
Qed.

(* int_feasible_snap_sound: every row returned by the integer-feasible snapping satisfies every int constraint and is some
   input row (its own, or for a padded row another one) with the int-constrained coordinates moved to floor or ceiling and all
   other coordinates kept, for every shuffle and every outcome of the random-neighbour branch *)
Theorem int_feasible_snap_sound d rnds perms xs : Forall (snap_ok d xs) (snap_feasible d rnds perms xs).
Proof.
  unfold snap_feasible. destruct (snap_pass d (length xs) rnds perms xs []) as [o p] eqn:E.
  destruct (snap_pass_ok d (length xs) xs xs rnds perms [] o p (incl_refl xs) (Forall_nil _) E) as [A B].
  apply snap_fill_ok; assumption.
Qed.

(* some floor/ceil combination of the int-constrained coordinates of x satisfies every int constraint *)
Definition has_feasible_vertex (d : domain) (x : row) : Prop :=
  exists r, nbr_of (int_mask d) x r /\ sat_cons (comps d) (int_cons d) r = true.
(* contract of numpy.random.shuffle: the oracle list of positions for each row is a permutation of the positions of that row's
   feasible neighbours *)
Fixpoint perms_ok (d : domain) (rnds : list (list (list bool))) (perms : list (list nat)) (xs : list row) : Prop :=
  match xs with
  | [] => True
  | x :: r => Permutation (hd [] perms) (seq 0 (length (feasible_neighbors d (hd [] rnds) x))) /\
              perms_ok d (tl rnds) (tl perms) r
  end.
(* what the first pass leaves for a row: a feasible neighbour of the row itself, or a hole when the row has none *)
Definition row_snapped (d : domain) (x : row) (o : option row) : Prop :=
  match o with
  | Some f => sat_cons (comps d) (int_cons d) f = true /\ nbr_of (int_mask d) x f
  | None => ~ has_feasible_vertex d x
  end.

Lemma permute_nonempty {A} (perm : list nat) (l : list A) :
  Permutation perm (seq 0 (length l)) -> l <> [] -> permute perm l <> [].
Proof.
  intros Hp Hl. destruct l as [|a l]; [congruence|].
  assert (H0 : In O perm). { eapply Permutation_in; [symmetry; exact Hp|]. simpl. left. reflexivity. }
  assert (Ha : In a (permute perm (a :: l))).
  { unfold permute. apply in_flat_map. exists O. split; [exact H0|]. simpl. left. reflexivity. }
  intros E. rewrite E in Ha. exact Ha.
Qed.

Lemma feasible_vertex_found d rnd x : (count_true (int_mask d) <= max_grid_dim)%nat ->
  has_feasible_vertex d x -> feasible_neighbors d rnd x <> [].
Proof.
  intros Hc (r & Hn & Hs) E.
  assert (Hin : In r (feasible_neighbors d rnd x)).
  { unfold feasible_neighbors. apply filter_In. split; [|exact Hs]. unfold int_neighbors.
    apply Nat.leb_le in Hc. rewrite Hc. apply lattice_spec. exact Hn. }
  rewrite E in Hin. exact Hin.
Qed.

Lemma snap_pass_complete d n : (count_true (int_mask d) <= max_grid_dim)%nat ->
  forall xs rnds perms padding o p, perms_ok d rnds perms xs ->
  snap_pass d n rnds perms xs padding = (o, p) -> Forall2 (row_snapped d) xs o.
Proof.
  intros Hc. induction xs as [|x r IH]; intros rnds perms padding o p Hp H.
  - simpl in H. injection H as <- <-. constructor.
  - destruct Hp as [Hp1 Hp2]. apply snap_pass_cons in H. destruct H as (o' & padding' & -> & E & _).
    constructor; [|eapply IH; eassumption].
    destruct (permute (hd [] perms) (feasible_neighbors d (hd [] rnds) x)) as [|f rest] eqn:Efn; cbn [hd_error row_snapped].
    + intros Hf. exact (permute_nonempty _ _ Hp1 (feasible_vertex_found d (hd [] rnds) x Hc Hf) Efn).
    + apply (feasible_neighbors_spec d (hd [] rnds)), (permute_In (hd [] perms)). rewrite Efn. left. reflexivity.
Qed.

(* the second pass, without the final numpy.delete: holes take the spare neighbours in order, remaining holes stay holes *)
Fixpoint fill_opt (o : list (option row)) (padding : list row) : list (option row) :=
  match o with
  | [] => []
  | Some f :: r => Some f :: fill_opt r padding
  | None :: r => match padding with [] => None :: fill_opt r [] | f :: p => Some f :: fill_opt r p end
  end.
Definition somes {A} (l : list (option A)) : list A := flat_map (fun o => match o with Some a => [a] | None => [] end) l.

Lemma snap_fill_somes : forall o padding, snap_fill o padding = somes (fill_opt o padding).
Proof.
  induction o as [|[f|] o IH]; intros padding; simpl; [reflexivity|rewrite IH; reflexivity|].
  destruct padding as [|g p]; simpl; rewrite IH; reflexivity.
Qed.
Lemma fill_opt_keeps : forall o padding, Forall2 (fun a b => forall f, a = Some f -> b = Some f) o (fill_opt o padding).
Proof.
  induction o as [|[f|] o IH]; intros padding; simpl; [constructor|constructor; [auto|apply IH]|].
  destruct padding as [|g p]; (constructor; [intros f H; discriminate|apply IH]).
Qed.

(* int_feasible_snap_complete, general form: the returned batch is a row-by-row list with only holes deleted, and a row that has
   a feasible floor/ceil combination of its own is never a hole: it is replaced by one of its own feasible combinations *)
Theorem int_feasible_snap_complete_rows d rnds perms xs :
  (count_true (int_mask d) <= max_grid_dim)%nat -> perms_ok d rnds perms xs ->
  exists filled, snap_feasible d rnds perms xs = somes filled /\
    Forall2 (fun x o => has_feasible_vertex d x ->
               exists f, o = Some f /\ sat_cons (comps d) (int_cons d) f = true /\ nbr_of (int_mask d) x f) xs filled.
Proof.
  intros Hc Hp. unfold snap_feasible. destruct (snap_pass d (length xs) rnds perms xs []) as [o p] eqn:E.
  exists (fill_opt o p). split; [apply snap_fill_somes|].
  pose proof (snap_pass_complete d (length xs) Hc xs rnds perms [] o p Hp E) as H1.
  pose proof (fill_opt_keeps o p) as H2. revert H2. generalize (fill_opt o p). clear E Hp.
  induction H1 as [|x oi xs' o' Hx _ IH]; intros fl H2; inversion H2; subst; [constructor|].
  constructor; [|apply IH; assumption]. intros Hf. destruct oi as [f|]; [|exfalso; exact (Hx Hf)]. exists f. split; [auto|exact Hx].
Qed.

(* every row has a feasible combination (the property's "int-constraint sets with an integer solution near the point"):
   no row is deleted or replaced by another row's neighbour; row i of the result is a feasible combination of row i *)
Theorem int_feasible_snap_complete d rnds perms xs :
  (count_true (int_mask d) <= max_grid_dim)%nat -> perms_ok d rnds perms xs -> Forall (has_feasible_vertex d) xs ->
  Forall2 (fun x f => sat_cons (comps d) (int_cons d) f = true /\ nbr_of (int_mask d) x f) xs (snap_feasible d rnds perms xs).
Proof.
  intros Hc Hp Hall. destruct (int_feasible_snap_complete_rows d rnds perms xs Hc Hp) as (filled & -> & H).
  clear Hp. revert Hall. induction H as [|x o xs' fl Hx _ IH]; intros Hall; [constructor|].
  inversion Hall as [|? ? Hx1 Hxs]; subst.
  destruct (Hx Hx1) as (f & -> & Hf). simpl. constructor; [exact Hf|apply IH; exact Hxs].
Qed.

Lemma nbr_of_false_prefix : forall n m x r, (n <= length x)%nat -> nbr_of (repeat false n ++ m) x r ->
  exists r', r = firstn n x ++ r' /\ nbr_of m (skipn n x) r'.
Proof.
  induction n as [|n IH]; intros m x r Hl H; [exists r; split; [reflexivity|exact H]|].
  destruct x as [|v t]; [simpl in Hl; lia|]. cbn [repeat app nbr_of] in H. destruct r as [|o r0]; [destruct H|].
  destruct H as [-> H]. destruct (IH m t r0) as (r' & -> & Hr); [simpl in Hl; lia|exact H|].
  exists r'. split; [reflexivity|exact Hr].
Qed.

Lemma any_nonzero_int c cs ws : Forall (fun w => forall2b (weight_ok CInt) w (c :: cs) = true) ws ->
  any_nonzero ws = true -> is_int c = true.
Proof.
  induction 1 as [|w ws Hw _ IH]; simpl; [discriminate|]. rewrite orb_true_iff. intros [H|H]; [|apply IH; exact H].
  apply forall2b_cons_r in Hw. destruct Hw as (a & w' & -> & Ha & _).
  simpl in H. apply negb_true_iff in H. destruct (weight_ok_spec _ _ _ Ha) as [H0|Hc]; [|destruct c; (contradiction || reflexivity)].
  apply Qeq_bool_iff in H0. congruence.
Qed.
Lemma tl_weight_ok c cs ws : Forall (fun w => forall2b (weight_ok CInt) w (c :: cs) = true) ws ->
  Forall (fun w => forall2b (weight_ok CInt) w cs = true) (map (@tl Q) ws).
Proof.
  induction 1 as [|w ws Hw _ IH]; simpl; constructor; [|exact IH].
  apply forall2b_cons_r in Hw. destruct Hw as (a & w' & -> & _ & Hw). exact Hw.
Qed.

Lemma floor_ceil_in_range (lo hi : Z) v : inject_Z lo <= v -> v <= inject_Z hi ->
  (inject_Z lo <= inject_Z (Qfloor v) /\ inject_Z (Qfloor v) <= inject_Z hi) /\
  (inject_Z lo <= inject_Z (Qceiling v) /\ inject_Z (Qceiling v) <= inject_Z hi).
Proof.
  intros Hlo Hhi. pose proof (Qfloor_le v) as F. pose proof (Qle_ceiling v) as Cc.
  pose proof (Qfloor_resp_le _ _ Hlo) as F2. rewrite Qfloor_Z in F2.
  pose proof (Qceiling_resp_le _ _ Hhi) as C2. rewrite Qceiling_Z in C2.
  rewrite Zle_Qle in F2, C2. repeat split; lra.
Qed.

Lemma cmask_scalar c cs ws : is_cat c = false -> cmask (c :: cs) ws = any_nonzero ws :: cmask cs (map (@tl Q) ws).
Proof. destruct c; try discriminate; reflexivity. Qed.
Lemma box_of_scalar c : is_cat c = false ->
  exists lo hi, box_of c = [(lo, hi)] /\ (is_int c = true -> exists zl zh, lo = inject_Z zl /\ hi = inject_Z zh).
Proof.
  destruct c as [lo hi|lo hi|es|es]; try discriminate; intros _; eexists _, _; (split; [reflexivity|]); try discriminate.
  intros _. exists lo, hi. split; reflexivity.
Qed.

Lemma nbr_in_box_cs : forall cs ws x r, Forall (fun w => forall2b (weight_ok CInt) w cs = true) ws ->
  in_box (flat_map box_of cs) x -> nbr_of (cmask cs ws) x r -> in_box (flat_map box_of cs) r.
Proof.
  induction cs as [|c cs IH]; intros ws x r Hws Hb Hn.
  - simpl in Hn. subst r. exact Hb.
  - pose proof (tl_weight_ok c cs ws Hws) as Hws'. destruct (is_cat c) eqn:Ec.
    + destruct c as [| |es|]; try discriminate. cbn [cmask] in Hn. cbn [flat_map box_of] in Hb |- *.
      apply Forall2_app_split in Hb. rewrite repeat_length in Hb. destruct Hb as (Hl & H1 & H2).
      destruct (nbr_of_false_prefix (length es) _ x r Hl Hn) as (r' & -> & Hr).
      apply Forall2_app; [exact H1|exact (IH _ _ r' Hws' H2 Hr)].
    + destruct (box_of_scalar c Ec) as (lo & hi & Hbox & Hint). rewrite (cmask_scalar c cs ws Ec) in Hn.
      cbn [flat_map] in Hb |- *. rewrite Hbox in Hb |- *. inversion Hb as [|? v ? t Hv Ht]; subst. simpl in Hv.
      destruct (any_nonzero ws) eqn:E; cbn [nbr_of] in Hn; (destruct r as [|o r0]; [destruct Hn|]); destruct Hn as [Ho Hn];
        (constructor; [|exact (IH _ t r0 Hws' Ht Hn)]).
      * (* a masked coordinate belongs to an int component: floor and ceiling stay within its integer bounds *)
        destruct (Hint (any_nonzero_int c cs ws Hws E)) as (zl & zh & -> & ->).
        destruct (floor_ceil_in_range zl zh v (proj1 Hv) (proj2 Hv)) as [Hf Hc]. destruct Ho as [->| ->]; assumption.
      * subst o. exact Hv.
Qed.

(* a floor/ceil combination of the int-constrained coordinates of a point of the relaxed box is again in the relaxed box
   (the int bounds are integers), so "satisfies the int constraints" is all the feasibility filter has to test *)
Theorem nbr_in_box d x r : wf_domain d = true -> in_box (one_hot_box d) x -> nbr_of (int_mask d) x r -> in_box (one_hot_box d) r.
Proof.
  intros Hwf Hb Hn. unfold one_hot_box, int_mask in *. eapply nbr_in_box_cs; [|exact Hb|exact Hn].
  apply Forall_forall. intros w Hw. apply in_map_iff in Hw. destruct Hw as (k & <- & Hk).
  unfold int_cons in Hk. apply filter_In in Hk. destruct Hk as [Hk Ht].
  pose proof (wf_domain_cons d k Hwf Hk) as H. destruct (cty k); [discriminate|exact H].
Qed.

Definition nQ (n : nat) : Q := inject_Z (Z.of_nat n).
Lemma nQ_S n : nQ (S n) == nQ n + 1.
Proof. unfold nQ. rewrite Nat2Z.inj_succ. unfold Z.succ. rewrite inject_Z_plus. reflexivity. Qed.
Lemma nQ_nonneg n : 0 <= nQ n.
Proof. unfold nQ. change 0 with (inject_Z 0). rewrite <- Zle_Qle. lia. Qed.
Lemma nQ_plus a b : nQ (a + b) == nQ a + nQ b.
Proof. unfold nQ. rewrite Nat2Z.inj_add, inject_Z_plus. reflexivity. Qed.
(* neither proof evaluates 10^300 *)
Lemma eps300_pos : 0 < eps300.
Proof. reflexivity. Qed.
Lemma eps300_le : eps300 <= 1 # 10.
Proof.
  unfold eps300, Qle. cbn [Qnum Qden]. rewrite !Z.mul_1_l, Pos2Z.inj_pow.
  apply (Z.pow_le_mono_r 10 1 300); [reflexivity|discriminate].
Qed.
Lemma nQ_eps_nonneg n : 0 <= nQ n * eps300.
Proof. apply Qmult_le_0_compat; [apply nQ_nonneg|apply Qlt_le_weak, eps300_pos]. Qed.
Lemma nQ_eps_le a b : (a <= b)%nat -> nQ a * eps300 <= nQ b * eps300.
Proof.
  intros H. apply Qmult_le_compat_r; [|apply Qlt_le_weak, eps300_pos]. unfold nQ. rewrite <- Zle_Qle. lia.
Qed.
Lemma eps_den_pos n : 0 < 1 + nQ n * eps300.
Proof. pose proof (nQ_eps_nonneg n). lra. Qed.

(* contract of numpy.power on the two values a one-hot block holds: 0 ** e = 0 and 1 ** e = 1 for e > 0 *)
Definition pow_contract (powf : Q -> Q -> Q) : Prop := forall e, 0 < e -> powf 0 e == 0 /\ powf 1 e == 1.

Lemma eff_temp_pos T : 0 < eff_temp T.
Proof.
  unfold eff_temp, Qmaxb. match goal with |- context [Qle_bool ?a min_temp] => set (t := a) end.
  destruct (Qle_bool t min_temp) eqn:E; [reflexivity|].
  apply Qle_bool_false in E. unfold min_temp in E. lra.
Qed.

Definition sumQ (l : list Q) : Q := fold_right Qplus 0 l.
Lemma qsum_from l : forall acc, fold_left (fun a b => Qred (a + b)) l acc == acc + sumQ l.
Proof.
  induction l as [|x l IH]; intros acc; [simpl; lra|]. cbn [fold_left]. rewrite IH, Qred_correct. simpl. lra.
Qed.
Lemma qsum_sumQ l : qsum l == sumQ l.
Proof. unfold qsum. rewrite qsum_from. lra. Qed.
Lemma sumQ_app a b : sumQ (a ++ b) == sumQ a + sumQ b.
Proof. induction a as [|x a IH]; simpl; [lra|]. rewrite IH. lra. Qed.
Lemma sumQ_repeat w n : sumQ (repeat w n) == nQ n * w.
Proof.
  induction n as [|n IH]; [change (nQ 0) with 0; simpl; lra|].
  cbn [repeat sumQ fold_right]. fold (sumQ (repeat w n)). rewrite IH, nQ_S. lra.
Qed.
Lemma map_repeat {A B} (f : A -> B) a n : map f (repeat a n) = repeat (f a) n.
Proof. induction n as [|n IH]; simpl; [reflexivity|rewrite IH; reflexivity]. Qed.
Lemma qsum_block w0 w1 a b : qsum (repeat w0 a ++ w1 :: repeat w0 b) == w1 + nQ (a + b) * w0.
Proof.
  rewrite qsum_sumQ, sumQ_app. cbn [sumQ fold_right]. fold (sumQ (repeat w0 b)). rewrite !sumQ_repeat, nQ_plus. lra.
Qed.

Lemma draw_ix_ge u : forall l acc i j, draw_ix u acc l i = Some j -> (i <= j)%nat.
Proof.
  induction l as [|a l IH]; intros acc i j H; cbn [draw_ix] in H; [discriminate|].
  destruct (Qltb u (Qred (acc + a))); [injection H as <-; lia|]. apply IH in H. lia.
Qed.
(* scanning the cdf of  p0 ... p0 p1 rest  from the running sum acc <= u: the draw lands on the position of p1 exactly when
   acc + a*p0 <= u < acc + a*p0 + p1 *)
Lemma draw_block_from u p0 p1 rest : 0 <= p0 -> forall a acc i, acc <= u ->
  (draw_ix u acc (repeat p0 a ++ p1 :: rest) i = Some (i + a)%nat <-> acc + nQ a * p0 <= u /\ u < acc + nQ a * p0 + p1).
Proof.
  intros Hp. induction a as [|a IH]; intros acc i Hacc; cbn [repeat app draw_ix].
  - change (nQ 0) with 0. rewrite Nat.add_0_r. destruct (Qltb u (Qred (acc + p1))) eqn:E.
    + apply Qltb_lt in E. rewrite Qred_correct in E. split; [intros _; lra|reflexivity].
    + apply Qltb_ge in E. rewrite Qred_correct in E. split; [intros H; apply draw_ix_ge in H; lia|lra].
  - pose proof (Qmult_le_0_compat _ _ (nQ_nonneg a) Hp) as Hn. rewrite nQ_S.
    destruct (Qltb u (Qred (acc + p0))) eqn:E.
    + apply Qltb_lt in E. rewrite Qred_correct in E. split; [intros H; injection H; lia|lra].
    + apply Qltb_ge in E. rewrite Qred_correct in E.
      rewrite <- Nat.add_succ_comm, IH, Qred_correct by (rewrite Qred_correct; exact E). split; intros [L U]; split; lra.
Qed.

(* The probabilities rel_prob_func hands to numpy.random.choice at an exact one-hot vertex of a block of n = a+1+b categories:
   every OTHER category gets 1e-300 / (1 + n*1e-300), which is NOT zero (the code adds 1e-300 to every weight); the category
   of the vertex gets (1 + 1e-300) / (1 + n*1e-300). *)
Theorem rel_probs_onehot powf T a b : pow_contract powf ->
  exists p0 p1, rel_probs powf T (onehot a b) = repeat p0 a ++ p1 :: repeat p0 b /\
                p0 == eps300 / (1 + nQ (a + 1 + b) * eps300) /\ p1 == (1 + eps300) / (1 + nQ (a + 1 + b) * eps300) /\
                0 < p0 /\ 0 < p1.
Proof.
  intros Hpow. destruct (Hpow (/ eff_temp T) (Qinv_lt_0_compat _ (eff_temp_pos T))) as [H0 H1].
  set (w0 := Qred (powf 0 (/ eff_temp T) + eps300)). set (w1 := Qred (powf 1 (/ eff_temp T) + eps300)).
  set (s := qsum (repeat w0 a ++ w1 :: repeat w0 b)).
  assert (Hw0 : w0 == eps300) by (pose proof (Qred_correct (powf 0 (/ eff_temp T) + eps300)); unfold w0; lra).
  assert (Hw1 : w1 == 1 + eps300) by (pose proof (Qred_correct (powf 1 (/ eff_temp T) + eps300)); unfold w1; lra).
  assert (Hs : s == 1 + nQ (a + 1 + b) * eps300).
  { unfold s. rewrite qsum_block, Hw0, Hw1, !nQ_plus. change (nQ 1) with 1. lra. }
  pose proof (eps_den_pos (a + 1 + b)) as Hpos. pose proof eps300_pos as He.
  assert (E0 : Qred (w0 / s) == eps300 / (1 + nQ (a + 1 + b) * eps300))
    by (rewrite Qred_correct; apply Qdiv_comp; assumption).
  assert (E1 : Qred (w1 / s) == (1 + eps300) / (1 + nQ (a + 1 + b) * eps300))
    by (rewrite Qred_correct; apply Qdiv_comp; assumption).
  exists (Qred (w0 / s)), (Qred (w1 / s)). split; [|split; [exact E0|split; [exact E1|split]]].
  - unfold rel_probs, rel_weights, onehot. rewrite map_app. cbn [map]. rewrite !map_repeat. fold w0 w1. fold s.
    rewrite map_app. cbn [map]. rewrite !map_repeat. reflexivity.
  - rewrite E0. apply Qlt_shift_div_l; [exact Hpos|]. lra.
  - rewrite E1. apply Qlt_shift_div_l; [exact Hpos|]. lra.
Qed.

(* the set of uniform draws for which numpy.random.choice returns position k of a block of n categories sitting at the one-hot
   vertex k (division-free form of  k*p0 <= u < k*p0 + p1): a lower tail of width k*1e-300/(1+n*1e-300) and an upper tail of
   width (n-k-1)*1e-300/(1+n*1e-300) are excluded *)
Definition in_window (n k : nat) (u : Q) : Prop :=
  nQ k * eps300 <= u * (1 + nQ n * eps300) /\ u * (1 + nQ n * eps300) < 1 + nQ (S k) * eps300.

(* the window  k*p0 <= u < k*p0 + p1  with p0 = e/s, p1 = (1+e)/s, cleared of the division by the sum s *)
Lemma window_div e s k u : 0 < s ->
  (k * (e / s) <= u /\ u < k * (e / s) + (1 + e) / s <-> k * e <= u * s /\ u * s < 1 + (k + 1) * e).
Proof.
  intros Hs. rewrite <- (Qmult_le_r _ u s Hs), <- (Qmult_lt_r u _ s Hs).
  setoid_replace (k * (e / s) * s) with (k * e) by (field; lra).
  setoid_replace ((k * (e / s) + (1 + e) / s) * s) with (1 + (k + 1) * e) by (field; lra).
  reflexivity.
Qed.
Theorem draw_onehot_iff powf T a b u : pow_contract powf -> 0 <= u ->
  (draw_ix u 0 (rel_probs powf T (onehot a b)) 0 = Some a <-> in_window (a + 1 + b) a u).
Proof.
  intros Hpow Hu. destruct (rel_probs_onehot powf T a b Hpow) as (p0 & p1 & -> & H0 & H1 & Hp0 & Hp1).
  rewrite (draw_block_from u p0 p1 _ (Qlt_le_weak _ _ Hp0) a 0 0%nat Hu), !Qplus_0_l. unfold in_window. rewrite H0, H1, nQ_S. apply window_div, eps_den_pos.
Qed.

(* the draw 0 (which numpy's random_sample can return) selects position 0 whatever the vertex *)
Lemma not_in_window_0 n k : ~ in_window n (S k) 0.
Proof.
  intros [H _]. rewrite nQ_S in H. pose proof eps300_pos. pose proof (nQ_eps_nonneg k). lra.
Qed.

(* a sufficient, uniform condition: u in [n*1e-300, 1 - n*1e-300] *)
Lemma in_window_uniform n m k u : (k < n)%nat -> (n <= m)%nat ->
  nQ m * eps300 <= u -> u <= 1 - nQ m * eps300 -> in_window n k u.
Proof.
  intros Hk Hn L U. unfold in_window. rewrite nQ_S, Qmult_plus_distr_l, Qmult_1_l.
  pose proof (nQ_eps_le k n (Nat.lt_le_incl _ _ Hk)) as H1. pose proof (nQ_eps_le n m Hn) as H2.
  pose proof (nQ_eps_nonneg k) as H3. pose proof eps300_pos as He. revert L U H1 H2 H3 He.
  generalize (nQ k * eps300) (nQ n * eps300) (nQ m * eps300). generalize eps300. intros e ek en em L U H1 H2 H3 He.
  (* 0 <= u <= 1, so 0 <= u * en <= en *)
  assert (A1 : 0 <= u * en) by (apply Qmult_le_0_compat; lra).
  assert (A2 : u * en <= 1 * en) by (apply Qmult_le_compat_r; lra).
  split; lra.
Qed.

(* block by block: at the one-hot vertex of category z = es[k], a draw u in [0,1) returns z if and only if it lies in the window *)
Theorem choose_draw_onehot_iff powf T u es k z : pow_contract powf -> NoDup es -> nth_error es k = Some z -> 0 <= u ->
  (choose_draw powf T u (onehot k (length es - k - 1)) es = Some z <-> in_window (length es) k u).
Proof.
  intros Hpow Hnd Hk Hu. assert (Hkl : (k < length es)%nat) by (apply nth_error_Some; congruence).
  pose proof (draw_onehot_iff powf T k (length es - k - 1) u Hpow Hu) as H.
  replace (k + 1 + (length es - k - 1))%nat with (length es) in H by lia. rewrite <- H. unfold choose_draw.
  destruct (draw_ix u 0 (rel_probs powf T (onehot k (length es - k - 1))) 0) as [j|] eqn:E.
  - split; [|intros E'; injection E' as ->; exact Hk]. intros Hj. f_equal.
    apply (proj1 (NoDup_nth_error es) Hnd); [apply nth_error_Some; congruence|congruence].
  - split; discriminate.
Qed.

(* the same at the block the encoder writes for the value v of a categorical parameter *)
Lemma choose_draw_indicator_iff powf T u es v z : pow_contract powf -> wf_component (Cat es) = true -> In z es ->
  v == inject_Z z -> 0 <= u ->
  (choose_draw powf T u (indicator v es) es = Some z <-> in_window (length es) (find_pos v es) u).
Proof.
  intros Hpow Hwc Hz Hv Hu. pose proof (wf_cat es Hwc) as Hnd. destruct (indicator_onehot v z Hv es Hz Hnd) as (A & B & _).
  rewrite A. apply choose_draw_onehot_iff; assumption.
Qed.

(* ... and the draw 0 returns the first category at every other vertex: its probability 1e-300/(1+n*1e-300) is positive *)
Lemma choose_draw_zero powf T a b es e : pow_contract powf -> hd_error es = Some e ->
  choose_draw powf T 0 (onehot (S a) b) es = Some e.
Proof.
  intros Hpow He. unfold choose_draw. destruct (rel_probs_onehot powf T (S a) b Hpow) as (p0 & p1 & -> & _ & _ & Hp0 & _).
  cbn [repeat app draw_ix]. assert (E : Qltb 0 (Qred (0 + p0)) = true) by (apply Qltb_lt; rewrite Qred_correct; lra).
  rewrite E. destruct es; [discriminate|exact He].
Qed.

(* the uniform draws (one per categorical parameter, in order) lie in the window of the category the point holds *)
Fixpoint draws_in_window (cs : list component) (p : point) (us : list Q) : Prop :=
  match cs, p with
  | Cat es :: r, v :: t => match us with
                           | u :: us' => 0 <= u /\ in_window (length es) (find_pos v es) u /\ draws_in_window r t us'
                           | [] => False
                           end
  | _ :: r, _ :: t => draws_in_window r t us
  | _, _ => True
  end.
Lemma draws_in_window_scalar c r v t us : is_cat c = false -> draws_in_window (c :: r) (v :: t) us = draws_in_window r t us.
Proof. destruct c; try discriminate; reflexivity. Qed.

Lemma stoch_roundtrip_cs powf T : pow_contract powf ->
  forall cs p, Forall (fun c => wf_component c = true) cs -> Forall2 in_component cs p ->
  forall us, draws_in_window cs p us ->
  exists q, decode_gen (choose_draw powf T) cs us (enc cs p) = Some q /\ peq q p.
Proof.
  intros Hpow cs p Hwf H. induction H as [|c v cs' p' Hc _ IH]; intros us Hus.
  - exists []. split; [reflexivity|constructor].
  - inversion Hwf as [|? ? Hwc Hwr]; subst. destruct (is_cat c) eqn:Ec.
    + destruct c as [| |es|]; try discriminate. destruct Hc as (z & Hz & Hv).
      destruct us as [|u us']; [destruct Hus|]. destruct Hus as (Hu & Hw & Hus).
      destruct (IH Hwr us' Hus) as (q' & Hq & Hpe). exists (inject_Z z :: q').
      split; [|constructor; [symmetry; exact Hv|exact Hpe]].
      rewrite enc_cat, decode_gen_cat by apply indicator_length.
      rewrite (proj2 (choose_draw_indicator_iff powf T u es v z Hpow Hwc Hz Hv Hu) Hw), Hq. reflexivity.
    + rewrite (draws_in_window_scalar _ _ _ _ _ Ec) in Hus. destruct (IH Hwr us Hus) as (q' & Hq & Hpe).
      exists (snap1 c v :: q'). rewrite (enc_scalar _ _ _ _ Ec), (decode_gen_scalar _ _ _ _ _ _ Ec), Hq.
      split; [reflexivity|constructor; [exact (snap1_fix c v v Hc (Qeq_refl v))|exact Hpe]].
Qed.

(* C09_decode_roundtrip: the stochastic decode of the encoding of an admissible configuration returns that configuration, for
   every temperature (None, 0, below the minimum, any value) and every list of uniform draws lying in the windows *)
Theorem decode_roundtrip powf d T us p : pow_contract powf -> wf_domain d = true -> Admissible d p ->
  draws_in_window (comps d) p us -> exists q, decode_row powf d T us (encode d p) = Some q /\ peq q p.
Proof.
  intros Hpow Hwf [Hin _] Hus. rewrite (encode_enc d p Hin). unfold decode_row.
  apply stoch_roundtrip_cs; [exact Hpow|apply wf_domain_comps; exact Hwf|exact Hin|exact Hus].
Qed.

(* uniform sufficient condition on the draws: each u in [m*1e-300, 1 - m*1e-300], m the largest number of categories *)
Definition max_cats (cs : list component) : nat := fold_right (fun c m => Nat.max (width c) m) O cs.
Lemma draws_uniform_window : forall cs p us, Forall (fun c => wf_component c = true) cs -> Forall2 in_component cs p ->
  forall m, (max_cats cs <= m)%nat -> (length (filter is_cat cs) <= length us)%nat ->
  Forall (fun u => nQ m * eps300 <= u /\ u <= 1 - nQ m * eps300) us -> draws_in_window cs p us.
Proof.
  intros cs p us Hwf H. revert us. induction H as [|c v cs' p' Hc _ IH]; intros us m Hm Hl Hu; [exact I|].
  inversion Hwf as [|? ? Hwc Hwr]; subst. cbn [max_cats fold_right] in Hm. fold (max_cats cs') in Hm.
  destruct c as [lo hi|lo hi|es|es]; cbn [draws_in_window]; cbn [filter is_cat] in Hl.
  1,2,4: apply (IH Hwr us m); [lia|exact Hl|exact Hu].
  destruct us as [|u us']; [simpl in Hl; lia|]. inversion Hu as [|? ? [L U] Hu']; subst.
  destruct Hc as (z & Hz & Hv). destruct (indicator_onehot v z Hv es Hz (wf_cat es Hwc)) as (_ & _ & Hk).
  cbn [width] in Hm. split; [|split].
  - pose proof (nQ_eps_nonneg m). lra.
  - apply (in_window_uniform (length es) m); [exact Hk|lia|exact L|exact U].
  - apply (IH Hwr us' m); [lia|simpl in Hl; lia|exact Hu'].
Qed.

Theorem decode_roundtrip_uniform powf d T us p : pow_contract powf -> wf_domain d = true -> Admissible d p ->
  (length (filter is_cat (comps d)) <= length us)%nat ->
  Forall (fun u => nQ (max_cats (comps d)) * eps300 <= u /\ u <= 1 - nQ (max_cats (comps d)) * eps300) us ->
  exists q, decode_row powf d T us (encode d p) = Some q /\ peq q p.
Proof.
  intros Hpow Hwf Ha Hl Hu. apply decode_roundtrip; try assumption. destruct Ha as [Hin _].
  apply (draws_uniform_window _ _ _ (wf_domain_comps d Hwf) Hin (max_cats (comps d))); [lia|exact Hl|exact Hu].
Qed.

(* the converse: when the decode of the encoding returns the configuration, every draw was in its window *)
Lemma stoch_roundtrip_cs_conv powf T : pow_contract powf ->
  forall cs p, Forall (fun c => wf_component c = true) cs -> Forall2 in_component cs p ->
  forall us q, Forall (fun u => 0 <= u) us ->
  decode_gen (choose_draw powf T) cs us (enc cs p) = Some q -> peq q p -> draws_in_window cs p us.
Proof.
  intros Hpow cs p Hwf H. induction H as [|c v cs' p' Hc _ IH]; intros us q Hus Hd Hpe; [exact I|].
  inversion Hwf as [|? ? Hwc Hwr]; subst. destruct (is_cat c) eqn:Ec.
  - destruct c as [| |es|]; try discriminate. destruct Hc as (z & Hz & Hv). rewrite enc_cat in Hd.
    destruct us as [|u us']; [cbn [decode_gen] in Hd; destruct (Nat.ltb _ _); discriminate|].
    rewrite decode_gen_cat in Hd by apply indicator_length. inversion Hus as [|? ? Hu Hus']; subst.
    destruct (choose_draw powf T u (indicator v es) es) as [c|] eqn:E; [|discriminate].
    destruct (decode_gen (choose_draw powf T) cs' us' (enc cs' p')) as [q'|] eqn:Eq; [|discriminate].
    injection Hd as <-. inversion Hpe as [|? ? ? ? Hcv Hpe']; subst.
    assert (c = z) by (apply inject_Z_injective; rewrite <- Hv; exact Hcv). subst c.
    split; [exact Hu|]. split; [apply (choose_draw_indicator_iff powf T u es v z); assumption|apply (IH Hwr us' q'); assumption].
  - rewrite (enc_scalar _ _ _ _ Ec), (decode_gen_scalar _ _ _ _ _ _ Ec) in Hd. rewrite (draws_in_window_scalar _ _ _ _ _ Ec).
    destruct (decode_gen (choose_draw powf T) cs' us (enc cs' p')) as [q'|] eqn:Eq; [|discriminate].
    injection Hd as <-. inversion Hpe; subst. apply (IH Hwr us q'); assumption.
Qed.

(* C09_decode_roundtrip, exact form: for draws in [0,1) (only 0 <= u is used), the stochastic decode of the encoding of an
   admissible configuration returns that configuration IF AND ONLY IF every draw lies in its window *)
Theorem decode_roundtrip_iff powf d T us p : pow_contract powf -> wf_domain d = true -> Admissible d p ->
  Forall (fun u => 0 <= u) us ->
  ((exists q, decode_row powf d T us (encode d p) = Some q /\ peq q p) <-> draws_in_window (comps d) p us).
Proof.
  intros Hpow Hwf Ha Hus. split; [|apply decode_roundtrip; assumption].
  destruct Ha as [Hin _]. intros (q & Hq & Hpe). rewrite (encode_enc d p Hin) in Hq. unfold decode_row in Hq.
  eapply stoch_roundtrip_cs_conv; try eassumption. apply wf_domain_comps. exact Hwf.
Qed.

Lemma pow_int_contract : pow_contract pow_int.
Proof.
  intros e He. unfold pow_int. destruct (Qnum (Qred e)) eqn:En; [| |].
  1,3: split; reflexivity.
  destruct (Qden (Qred e)); try (split; reflexivity). split.
  - rewrite Qred_correct. apply Qpower_positive_0.
  - rewrite Qred_correct. apply Qpower_positive_1.
Qed.
(* without the hypothesis on the draws the round trip is false: the draw u = 0 (a value numpy's random_sample can return) at the
   one-hot vertex of the third category returns the first category *)
Theorem decode_roundtrip_all_draws_refuted :
  exists d T us p, wf_domain d = true /\ Admissible d p /\ Forall (fun u => 0 <= u /\ u < 1) us /\
    ~ (exists q, decode_row pow_int d T us (encode d p) = Some q /\ peq q p).
Proof.
  exists {| comps := [Double (-2) 5; Cat [5; 1; 7]%Z]; cons := [] |}, None, [0], [(3#2); 7].
  assert (Ha : Admissible {| comps := [Double (-2) 5; Cat [5; 1; 7]%Z]; cons := [] |} [(3#2); 7])
    by (apply admissibleb_spec; reflexivity).
  split; [reflexivity|]. split; [exact Ha|].
  split; [constructor; [split; [apply Qle_refl|reflexivity]|constructor]|].
  intros Hq. apply (decode_roundtrip_iff pow_int _ None [0] _ pow_int_contract) in Hq;
    [|reflexivity|exact Ha|constructor; [apply Qle_refl|constructor]].
  destruct Hq as (_ & H & _). exact (not_in_window_0 3 1 H).
Qed.

(* r is x with every categorical block replaced by a one-hot vertex (the unit vector at some position of the block) and every
   other coordinate kept *)
Fixpoint cat_vertex (cs : list component) (x r : row) : Prop :=
  match cs with
  | [] => r = x
  | Cat es :: cs' =>
      exists i r', (i < length es)%nat /\ r = unit_vec (length es) i ++ r' /\ cat_vertex cs' (skipn (length es) x) r'
  | _ :: cs' => match x with
                | v :: t => exists r', r = v :: r' /\ cat_vertex cs' t r'
                | [] => r = []
                end
  end.
(* Domain.product_of_categories: the number of one-hot vertices *)
Fixpoint cat_count (cs : list component) : nat :=
  match cs with [] => 1%nat | Cat es :: r => (length es * cat_count r)%nat | _ :: r => cat_count r end.

Theorem cat_lattice_spec : forall cs x r, In r (cat_lattice cs x) <-> cat_vertex cs x r.
Proof.
  induction cs as [|c cs IH]; intros x r.
  - apply In_singleton.
  - destruct c as [lo hi|lo hi|es|es]; cbn [cat_lattice cat_vertex].
    1,2,4: destruct x as [|v t];
      [apply In_singleton
      |rewrite in_map_iff; split;
        [intros (r' & <- & H); exists r'; split; [reflexivity|apply IH; exact H]
        |intros (r' & -> & H); exists r'; split; [reflexivity|apply IH; exact H]]].
    rewrite in_flat_map. split.
    + intros (i & Hi & H). apply in_seq in Hi. apply in_map_iff in H. destruct H as (r' & <- & H).
      exists i, r'. split; [lia|]. split; [reflexivity|apply IH; exact H].
    + intros (i & r' & Hi & -> & H). exists i. split; [apply in_seq; lia|]. apply in_map_iff.
      exists r'. split; [reflexivity|apply IH; exact H].
Qed.

Lemma flat_map_length_const {A B} (f : A -> list B) n : forall l, (forall a, In a l -> length (f a) = n) ->
  length (flat_map f l) = (length l * n)%nat.
Proof.
  induction l as [|a l IH]; intros H; [reflexivity|]. simpl. rewrite app_length, IH, H; [reflexivity|left; reflexivity|].
  intros b Hb. apply H. right. exact Hb.
Qed.

Theorem cat_lattice_length : forall cs x, (one_hot_dim cs <= length x)%nat -> length (cat_lattice cs x) = cat_count cs.
Proof.
  induction cs as [|c cs IH]; intros x Hl; [reflexivity|].
  destruct c as [lo hi|lo hi|es|es]; cbn [cat_lattice cat_count]; cbn [one_hot_dim fold_right width] in Hl;
    fold (one_hot_dim cs) in Hl.
  1,2,4: destruct x as [|v t]; [simpl in Hl; lia|]; rewrite map_length; apply IH; simpl in Hl; lia.
  rewrite (flat_map_length_const _ (cat_count cs)); [rewrite seq_length; reflexivity|].
  intros i _. rewrite map_length. apply IH. rewrite skipn_length. lia.
Qed.

Lemma peq_app_inv a : forall a' b b', length a = length a' -> peq (a ++ b) (a' ++ b') -> peq a a' /\ peq b b'.
Proof.
  induction a as [|x a IH]; intros [|y a'] b b' Hl H; simpl in Hl; try congruence.
  - split; [constructor|exact H].
  - simpl in H. inversion H; subst. destruct (IH a' b b') as [H1 H2]; [congruence|assumption|].
    split; [constructor; assumption|exact H2].
Qed.

Lemma peq_nth a b : peq a b -> forall k, nth k a 0 == nth k b 0.
Proof. induction 1 as [|x y a b Hxy _ IH]; intros [|k]; simpl; [reflexivity|reflexivity|exact Hxy|apply IH]. Qed.

Lemma unit_vec_peq_inj n i j : (i < n)%nat -> peq (unit_vec n i) (unit_vec n j) -> i = j.
Proof.
  intros Hi H. apply peq_nth with (k := i) in H. rewrite !nth_unit, Nat.eqb_refl in H by exact Hi.
  destruct (Nat.eqb i j) eqn:E; [apply Nat.eqb_eq; exact E|discriminate].
Qed.

Lemma InA_map_inv {A B} (eqB : B -> B -> Prop) (f : A -> B) b l :
  InA eqB b (map f l) -> exists a, In a l /\ eqB b (f a).
Proof.
  induction l as [|x l IH]; simpl; intros H; inversion H; subst.
  - exists x. split; [left; reflexivity|assumption].
  - destruct (IH H1) as (a & Ha & Hb). exists a. split; [right; assumption|assumption].
Qed.

Lemma NoDupA_map_inj {A} (eqA : A -> A -> Prop) (f : A -> A) :
  (forall a b, eqA (f a) (f b) -> eqA a b) -> forall l, NoDupA eqA l -> NoDupA eqA (map f l).
Proof.
  intros Hinj l H. induction H as [|x l Hx _ IH]; simpl; constructor; [|exact IH].
  intros Hin. apply Hx. apply (InA_map_inv eqA) in Hin. destruct Hin as (a & Ha & Hb).
  apply InA_alt. exists a. split; [apply Hinj; exact Hb|exact Ha].
Qed.

Lemma NoDupA_flat_map {I} (f : I -> list row) : forall l, NoDup l ->
  (forall i, In i l -> NoDupA peq (f i)) ->
  (forall i j a, In i l -> In j l -> InA peq a (f i) -> InA peq a (f j) -> i = j) ->
  NoDupA peq (flat_map f l).
Proof.
  induction l as [|i l IH]; intros Hnd Hp Hd; simpl; [constructor|].
  inversion Hnd as [|? ? Hi Hl]; subst.
  apply NoDupA_app; [exact peq_Equivalence|apply Hp; left; reflexivity| |].
  - apply IH; [exact Hl|intros j Hj; apply Hp; right; exact Hj|].
    intros j k a Hj Hk. apply Hd; right; assumption.
  - intros a Ha Hb. apply InA_alt in Hb. destruct Hb as (b & Hab & Hb). apply in_flat_map in Hb.
    destruct Hb as (j & Hj & Hb). apply Hi.
    rewrite (Hd i j a (or_introl eq_refl) (or_intror Hj) Ha); [exact Hj|].
    apply InA_alt. exists b. split; assumption.
Qed.

Theorem cat_lattice_NoDup : forall cs x, NoDupA peq (cat_lattice cs x).
Proof.
  induction cs as [|c cs IH]; intros x; [simpl; constructor; [intros H; inversion H|constructor]|].
  destruct c as [lo hi|lo hi|es|es]; cbn [cat_lattice].
  1,2,4: destruct x as [|v t]; [constructor; [intros H; inversion H|constructor]|];
    apply NoDupA_map_inj; [|apply IH]; intros a b H; inversion H; assumption.
  apply NoDupA_flat_map; [apply seq_NoDup| |].
  - intros i _. apply NoDupA_map_inj; [|apply IH]. intros a b H.
    apply (peq_app_inv (unit_vec (length es) i) (unit_vec (length es) i)) in H; [tauto|reflexivity].
  - intros i j a Hi Hj Ha Hb. apply in_seq in Hi. apply in_seq in Hj.
    apply (InA_map_inv peq) in Ha. apply (InA_map_inv peq) in Hb.
    destruct Ha as (ra & _ & Ha). destruct Hb as (rb & _ & Hb).
    assert (H : peq (unit_vec (length es) i ++ ra) (unit_vec (length es) j ++ rb))
      by (eapply peq_trans; [apply peq_sym; exact Ha|exact Hb]).
    apply peq_app_inv in H; [|rewrite !unit_vec_length; reflexivity]. destruct H as [H _].
    apply (unit_vec_peq_inj (length es)); [lia|exact H].
Qed.

(* the endpoint's function: all rows *)
Theorem neighboring_cat_points_spec d xs r :
  In r (neighboring_cat_points d xs) <-> exists x, In x xs /\ cat_vertex (comps d) x r.
Proof.
  unfold neighboring_cat_points. rewrite in_flat_map. split; intros (x & Hx & H); exists x; (split; [exact Hx|]); apply cat_lattice_spec; exact H.
Qed.
