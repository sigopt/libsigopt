(* C09: the task-cost column of the views' encode entry point (views/view.py form_one_hot_points_with_tasks) and the task
   dimension of the domain it is decoded with (views/rest/gp_next_points_categorical.py _form_domain_with_task_dimension,
   Model.EndpointTail.with_task).  Appending the cost to the encoding of p is the encoding of p ++ [cost] in the domain with the
   task dimension, so the deterministic round trip of Proofs.Decode carries over to rows with a cost.  The second half reads
   the costs the multitask GP tail returns (Model.TaskTail) off the last column of the rows it returns them with. *)
From Coq Require Import Qabs SetoidList Lia Lqa.
From LV Require Import Model.Domain Model.Decode Proofs.Domain Proofs.Decode Model.EndpointTail Model.TaskTail.
Import ListNotations.
Open Scope Q_scope.

Module DSX := LV.Model.Distinct.

Lemma fold_left_bound (R : Q -> Q -> Prop) (op : Q -> Q -> Q) :
  (forall a, R a a) -> (forall a b c, R a b -> R b c -> R a c) -> (forall a b, R (op a b) a /\ R (op a b) b) ->
  forall l a, R (fold_left op l a) a /\ forall e, In e l -> R (fold_left op l a) e.
Proof.
  intros Hrefl Htrans Hop. induction l as [|b l IH]; intros a; simpl; [split; [apply Hrefl|intros e []]|].
  destruct (IH (op a b)) as [H1 H2]. destruct (Hop a b) as [Ha Hb].
  split; [exact (Htrans _ _ _ H1 Ha)|]. intros e [<-|He]; [exact (Htrans _ _ _ H1 Hb)|apply H2; exact He].
Qed.
Lemma Qminb_le a b : Qminb a b <= a /\ Qminb a b <= b.
Proof. unfold Qminb. destruct (Qle_bool a b) eqn:E; [apply Qle_bool_iff in E|apply Qle_bool_false in E]; split; lra. Qed.
Lemma Qmaxb_ge a b : a <= Qmaxb a b /\ b <= Qmaxb a b.
Proof. unfold Qmaxb. destruct (Qle_bool a b) eqn:E; [apply Qle_bool_iff in E|apply Qle_bool_false in E]; split; lra. Qed.
Lemma list_min_lower l e : In e l -> list_min l <= e.
Proof.
  destruct l as [|a l]; [intros []|]. simpl. destruct (fold_left_bound Qle Qminb Qle_refl Qle_trans Qminb_le l a) as [H1 H2].
  intros [<-|He]; [exact H1|apply H2; exact He].
Qed.
Lemma list_max_upper l e : In e l -> e <= list_max l.
Proof.
  destruct l as [|a l]; [intros []|]. simpl.
  destruct (fold_left_bound (fun x y => y <= x) Qmaxb Qle_refl (fun a b c H1 H2 => Qle_trans c b a H2 H1) Qmaxb_ge l a) as [H1 H2].
  intros [<-|He]; [exact H1|apply H2; exact He].
Qed.

Lemma in_box_app a b x y : in_box a x -> in_box b y -> in_box (a ++ b) (x ++ y).
Proof. unfold in_box. intros H1 H2. apply Forall2_app; assumption. Qed.
Lemma cat_block_in_box v : forall es, in_box (repeat (0, 1) (length es)) (indicator v es).
Proof.
  induction es as [|e es IH]; simpl; [constructor|]. constructor; [|exact IH]. simpl. destruct (Qeq_bool v (inject_Z e)); lra.
Qed.
Lemma enc_in_box : forall cs p, Forall2 in_component cs p -> in_box (flat_map box_of cs) (enc cs p).
Proof.
  intros cs p H. induction H as [|c v cs p Hc _ IH]; [constructor|].
  destruct c as [lo hi|lo hi|es|es]; cbn [flat_map box_of enc].
  - constructor; [simpl; exact Hc|exact IH].
  - constructor; [|exact IH]. simpl. destruct Hc as (z & Hz & Hlo & Hhi). rewrite Hz. rewrite <- !Zle_Qle. split; assumption.
  - apply in_box_app; [apply cat_block_in_box|exact IH].
  - constructor; [|exact IH]. simpl. destruct Hc as (e & He & Hv). rewrite Hv. split; [apply list_min_lower|apply list_max_upper]; exact He.
Qed.
Theorem encode_in_box d p : Admissible d p -> in_box (one_hot_box d) (encode d p).
Proof. intros [Hin _]. rewrite (encode_enc d p Hin). apply enc_in_box. exact Hin. Qed.
Lemma in_box_in_boxb : forall b x, in_box b x -> in_boxb b x = true.
Proof.
  unfold in_box, in_boxb. intros b x H. induction H as [|[lo hi] v b x [H1 H2] _ IH]; simpl; [reflexivity|].
  simpl in H1, H2. apply Qle_bool_iff in H1. apply Qle_bool_iff in H2. rewrite H1, H2, IH. reflexivity.
Qed.

Lemma has_cat_task cs lo hi : has_cat (cs ++ [Double lo hi]) = has_cat cs.
Proof. unfold has_cat. rewrite existsb_app. simpl. rewrite !orb_false_r. reflexivity. Qed.
Lemma enc_task : forall cs p lo hi c, length cs = length p -> enc (cs ++ [Double lo hi]) (p ++ [c]) = enc cs p ++ [c].
Proof.
  induction cs as [|k cs IH]; intros [|v p] lo hi c Hl; simpl in Hl; try discriminate; [reflexivity|].
  destruct k; cbn [app enc]; rewrite IH by congruence; try reflexivity. rewrite app_assoc. reflexivity.
Qed.
Lemma encode_with_task_is_encode d opts p c : Forall2 in_component (comps d) p ->
  encode_with_task d p (Some c) = encode (with_task d opts) (p ++ [c]).
Proof.
  intros Hin. pose proof (Forall2_len _ _ _ Hin) as Hl. unfold encode_with_task, encode. cbn [with_task comps].
  rewrite has_cat_task. destruct (has_cat (comps d)) eqn:E; [rewrite enc_task by exact Hl; reflexivity|reflexivity].
Qed.
Lemma dot_app : forall a x b y, length a = length x -> dot (a ++ b) (x ++ y) == dot a x + dot b y.
Proof.
  induction a as [|u a IH]; intros [|v x] b y Hl; simpl in Hl; try discriminate; simpl; [lra|]. rewrite IH by congruence. lra.
Qed.
Lemma with_task_admits d opts p c : wf_domain d = true -> Admissible d p -> In c opts -> Admissible (with_task d opts) (p ++ [c]).
Proof.
  intros Hwf [Hin Hk] Hc. split; cbn [with_task comps cons].
  - apply Forall2_app; [exact Hin|]. constructor; [|constructor]. simpl. split; [apply list_min_lower|apply list_max_upper]; exact Hc.
  - rewrite Forall_forall in *. intros k' Hk'. apply in_map_iff in Hk' as (k & <- & Hkin). cbn [rhs weights].
    assert (Hl : length (weights k) = length p) by (rewrite (wf_domain_cons_length d k Hwf Hkin); eapply Forall2_len; exact Hin).
    rewrite dot_app by exact Hl. simpl. specialize (Hk k Hkin). lra.
Qed.
Lemma forall2b_snoc {A B} (f : A -> B -> bool) : forall l m a b, forall2b f l m = true -> f a b = true -> forall2b f (l ++ [a]) (m ++ [b]) = true.
Proof.
  induction l as [|x l IH]; intros [|y m] a b H Hab; simpl in *; try discriminate; [rewrite Hab; reflexivity|].
  apply andb_true_iff in H as [H1 H2]. rewrite H1. simpl. apply IH; assumption.
Qed.
Lemma with_task_wellformed d opts : wf_domain d = true -> list_min opts < list_max opts -> wf_domain (with_task d opts) = true.
Proof.
  intros Hwf Hlt. unfold wf_domain in *. apply andb_true_iff in Hwf as [H1 H2]. apply andb_true_iff. cbn [with_task comps cons]. split.
  - rewrite forallb_app, H1. simpl. rewrite andb_true_r. apply Qltb_lt. exact Hlt.
  - rewrite forallb_forall in *. intros k' Hk'. apply in_map_iff in Hk' as (k & <- & Hk). specialize (H2 k Hk).
    unfold wf_constraint in *. cbn [weights cty]. apply andb_true_iff in H2 as [A B]. apply andb_true_iff. split.
    + rewrite !app_length. simpl. apply Nat.eqb_eq in A. apply Nat.eqb_eq. congruence.
    + apply forall2b_snoc; [exact B|]. unfold weight_ok. simpl. reflexivity.
Qed.
Lemma with_task_not_discrete d opts : is_discrete (with_task d opts) = false.
Proof.
  unfold is_discrete, DSX.is_discrete, ddom. cbn [with_task comps]. rewrite map_app, forallb_app. simpl. apply andb_false_r.
Qed.
Lemma is_constrained_with_task d opts : is_constrained (with_task d opts) = is_constrained d.
Proof. unfold is_constrained. cbn [with_task cons]. rewrite map_length. reflexivity. Qed.
Lemma one_hot_dim_task cs lo hi : one_hot_dim (cs ++ [Double lo hi]) = S (one_hot_dim cs).
Proof. induction cs as [|k cs IH]; simpl; [reflexivity|]. rewrite IH. lia. Qed.

Theorem task_roundtrip d opts p c : wf_domain d = true -> list_min opts < list_max opts -> Admissible d p -> In c opts ->
  let x := encode_with_task d p (Some c) in
  in_boxb (one_hot_box (with_task d opts)) x = true /\
  peq (snap_det (with_task d opts) x) x /\
  length x = S (one_hot_dim (comps d)) /\
  (exists q, decode_det (with_task d opts) x = Some q /\ peq q (p ++ [c])) /\
  peq (snap_tasks [c] opts) [c].
Proof.
  intros Hwf Hlt Hadm Hc x. destruct Hadm as [Hin Hk].
  pose proof (with_task_wellformed d opts Hwf Hlt) as Hwt.
  pose proof (with_task_admits d opts p c Hwf (conj Hin Hk) Hc) as Hat.
  assert (Hx : x = encode (with_task d opts) (p ++ [c])) by (apply encode_with_task_is_encode; exact Hin).
  destruct (round_roundtrip (with_task d opts) (p ++ [c]) Hwt Hat) as (q & Hq & Hpq & Hfix & Hlen).
  rewrite Hx. split; [|split; [|split; [|split]]].
  - apply in_box_in_boxb. apply encode_in_box. exact Hat.
  - exact Hfix.
  - rewrite Hlen. cbn [with_task comps]. apply one_hot_dim_task.
  - exists q. split; assumption.
  - unfold snap_tasks. simpl. constructor; [apply (nearest_fix c opts c Hc); reflexivity|constructor].
Qed.

Lemma forall2_map_l {A B C} (P : B -> C -> Prop) (f : A -> B) : forall l m, Forall2 (fun a c => P (f a) c) l m -> Forall2 P (map f l) m.
Proof. induction 1; simpl; constructor; assumption. Qed.

(* the task-cost clause on the multitask tail of the GP endpoint
   (Model.TaskTail / Model.EndpointTail.gp_tail): every returned cost is a nearest option of the raw task coordinate of the row it is
   returned with - for the proposals that were kept and for the rows drawn to replace rejected duplicates alike *)
Theorem task_tail_costs_snapped d opts parallel af xs hist hist_oh o r : opts <> [] ->
  gp_tail d opts parallel af xs hist hist_oh o = Some r ->
  exists out costs, task_tail_rows d opts af xs hist_oh o = Some out /\
    r_points r = map (@removelast Q) out /\ r_costs r = Some costs /\
    Forall2 (fun p c => In c opts /\ forall e, In e opts -> Qabs (last p 0 - c) <= Qabs (last p 0 - e)) out costs.
Proof.
  intros Hne H. destruct opts as [|o1 orest]; [congruence|]. cbn [gp_tail] in H. unfold task_tail_rows. unfold obind in *.
  set (opts := o1 :: orest) in *. set (dt := with_task d opts) in *.
  destruct (convert_from_one_hot dt false af (g_dec o) xs) as [pts|]; [|discriminate].
  destruct (decode_b dt (g_hdec o) hist_oh) as [aug|]; [|discriminate].
  destruct (replace_dups dt pts aug uniq_tol (g_choice o) (g_q o)) as [out|]; [|discriminate]. injection H as <-.
  exists out, (snap_tasks (map (fun p : point => last p 0) out) opts). cbn [r_points r_costs].
  split; [reflexivity|]. split; [reflexivity|]. split; [reflexivity|].
  unfold snap_tasks. rewrite map_map. apply Forall2_map_self. intros p.
  split; [apply nearest_In; discriminate|intros e He; apply nearest_min; exact He].
Qed.

(* the rows the costs are returned with: the proposals kept by the two duplicate tests (in order), followed by the rows drawn for the
   rejected ones; on an unconstrained domain these are the per-component draws, the LAST column being the uniform draw of the task
   dimension (the domain with the task dimension is never discrete, so the distinct sampler is the plain per-component sampler) *)
Theorem task_tail_rows_structure d opts af xs hist_oh o out :
  task_tail_rows d opts af xs hist_oh o = Some out ->
  let dt := with_task d opts in
  exists pts aug kept fill,
    convert_from_one_hot dt false af (g_dec o) xs = Some pts /\ decode_b dt (g_hdec o) hist_oh = Some aug /\
    kept_of dt pts aug uniq_tol = Some kept /\ out = kept ++ fill /\
    ((DSX.zlen pts - DSX.zlen kept =? 0)%Z = true -> fill = []) /\
    ((DSX.zlen pts - DSX.zlen kept =? 0)%Z = false -> is_constrained d = false ->
       fill = DSX.quasi_random (DSX.zlen pts - DSX.zlen kept) (q_cols (g_q o))).
Proof.
  intros H dt. unfold task_tail_rows, obind in H. fold dt in H.
  destruct (convert_from_one_hot dt false af (g_dec o) xs) as [pts|]; [|discriminate].
  destruct (decode_b dt (g_hdec o) hist_oh) as [aug|]; [|discriminate].
  unfold replace_dups in H. destruct (kept_of dt pts aug uniq_tol) as [kept|] eqn:Ek; [|discriminate].
  destruct (distinct_pts dt (DSX.zlen pts - DSX.zlen kept) aug (g_choice o) (g_q o)) as [fill|] eqn:Ef; [|discriminate].
  injection H as <-. exists pts, aug, kept, fill.
  split; [reflexivity|]. split; [reflexivity|]. split; [exact Ek|]. split; [reflexivity|]. split.
  - intros Hz. unfold distinct_pts in Ef. rewrite Hz in Ef. congruence.
  - intros Hz Hc. unfold distinct_pts in Ef. rewrite Hz in Ef.
    unfold dt in Ef. rewrite with_task_not_discrete in Ef. simpl in Ef. unfold quasi_points in Ef.
    rewrite is_constrained_with_task, Hc in Ef. congruence.
Qed.

Lemma task_costs_okb_sound opts rows costs : task_costs_okb opts rows costs = true ->
  Forall2 (fun p c => InA Qeq c opts /\ forall e, In e opts -> Qabs (last p 0 - c) <= Qabs (last p 0 - e)) rows costs.
Proof.
  unfold task_costs_okb. intros H. apply andb_true_iff in H as [_ H]. revert costs H.
  induction rows as [|p rows IH]; intros [|c costs] H; simpl in H; try discriminate; constructor.
  - apply andb_true_iff in H as [H _]. unfold nearest_option_b in H. apply andb_true_iff in H as [H1 H2]. split.
    + apply existsb_exists in H1 as (e & He & Heq). apply Qeq_bool_iff in Heq. apply InA_alt. exists e. split; assumption.
    + rewrite forallb_forall in H2. intros e He. apply Qle_bool_iff. apply H2. exact He.
  - apply IH. apply andb_true_iff in H as [_ H]. exact H.
Qed.
