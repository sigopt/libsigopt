(* C10: distinct and random sampling.  The configurations of a discrete domain are numbered in mixed radix (index_to_point and
   point_to_index are inverse, up to ==), and distinct_spec follows by counting: the indexes still available and the unobserved
   configurations are equally many.  Then the ranges requested from the random libraries (uniform, priors), which sampler a view
   uses, and replace_duplicate_points as one selection mask followed by a distinct fill. *)
From Coq Require Import FinFun QArith Qround Lia SetoidList.
From LV Require Import Model.Distinct.
Import ListNotations.
Open Scope Q_scope.

Definition peq : point -> point -> Prop := Forall2 Qeq.

(* Qeq_bool x and peqb p depend on x and p only up to equality: symmetry and transitivity in the form the membership
   tests need them *)
Lemma Qeq_bool_congr x y : Qeq_bool x y = true -> forall r, Qeq_bool x r = Qeq_bool y r.
Proof. intros H r. apply Qeq_bool_iff in H. rewrite H. reflexivity. Qed.

Lemma peqb_refl p : peqb p p = true.
Proof. induction p; cbn; [reflexivity|]. rewrite Qeq_bool_refl. exact IHp. Qed.
Lemma peqb_congr p : forall q, peqb p q = true -> forall r, peqb p r = peqb q r.
Proof.
  induction p as [|x p IH]; intros [|y q] H [|z r]; cbn in *; try discriminate; try reflexivity.
  apply andb_true_iff in H as [H1 H2]. rewrite (Qeq_bool_congr _ _ H1), (IH _ H2). reflexivity.
Qed.
Lemma peqb_sym p q : peqb p q = true -> peqb q p = true.
Proof. intro H. rewrite <- (peqb_congr p q H). apply peqb_refl. Qed.
Lemma peqb_trans p q r : peqb p q = true -> peqb q r = true -> peqb p r = true.
Proof. intros H K. rewrite (peqb_congr p q H). exact K. Qed.
Lemma peqb_iff p : forall q, peqb p q = true <-> peq p q.
Proof.
  induction p as [|x p IH]; intros [|y q]; cbn.
  - split; [constructor|reflexivity].
  - split; [discriminate|intro H; inversion H].
  - split; [discriminate|intro H; inversion H].
  - rewrite andb_true_iff, Qeq_bool_iff, IH. split; [intros [A B]; constructor; assumption|intro H; inversion H; split; assumption].
Qed.
Lemma peqb_length p : forall q, peqb p q = true -> length p = length q.
Proof.
  induction p as [|x p IH]; intros [|y q] H; cbn in *; try discriminate; [reflexivity|].
  apply andb_true_iff in H as [_ H]. f_equal. apply IH. exact H.
Qed.

Lemma existsb_ext {A} (f g : A -> bool) l : (forall x, f x = g x) -> existsb f l = existsb g l.
Proof. intro H. induction l as [|x l IH]; cbn; [reflexivity|]. rewrite H, IH. reflexivity. Qed.
Lemma existsb_InA {A} (R : A -> A -> Prop) (eqb : A -> A -> bool) : (forall x y, eqb x y = true <-> R x y) ->
  forall x l, existsb (eqb x) l = true <-> InA R x l.
Proof.
  intros H x l. rewrite existsb_exists, InA_alt. split; intros [y [Hy Hl]]; exists y.
  - split; [apply H; exact Hl|exact Hy].
  - split; [exact Hl|apply H; exact Hy].
Qed.

Lemma memP_iff p l : memP p l = true <-> InA peq p l.
Proof. apply existsb_InA, peqb_iff. Qed.
Lemma memP_congr p q l : peqb p q = true -> memP p l = memP q l.
Proof. intro H. apply existsb_ext, peqb_congr, H. Qed.
Lemma memQ_congr x y l : Qeq_bool x y = true -> memQ x l = memQ y l.
Proof. intro H. apply existsb_ext, Qeq_bool_congr, H. Qed.
Lemma memQ_InA x l : memQ x l = true <-> InA Qeq x l.
Proof. apply existsb_InA, Qeq_bool_iff. Qed.
Lemma In_memQ x l : In x l -> memQ x l = true.
Proof. intro H. apply memQ_InA, In_InA; [exact Q_Setoid|exact H]. Qed.
Lemma memZ_iff x l : memZ x l = true <-> In x l.
Proof.
  unfold memZ. rewrite existsb_exists. split.
  - intros [y [A B]]. apply Z.eqb_eq in B. subst. exact A.
  - intro H. exists x. split; [exact H|apply Z.eqb_refl].
Qed.

Lemma InA_inject x l : InA Qeq x (map inject_Z l) <-> exists z, In z l /\ x == inject_Z z.
Proof.
  rewrite InA_alt. split.
  - intros [y [A B]]. apply in_map_iff in B as [z [<- Hz]]. exists z. split; assumption.
  - intros [z [A B]]. exists (inject_Z z). split; [exact B|apply in_map; exact A].
Qed.
Lemma memQ_inject z l : memQ (inject_Z z) (map inject_Z l) = true <-> In z l.
Proof.
  rewrite memQ_InA, InA_inject. split.
  - intros [w [W E]]. apply (proj1 (inject_Z_injective z w)) in E. subst w. exact W.
  - intro H. exists z. split; [exact H|reflexivity].
Qed.

Fixpoint nodupQ (l : list Q) : bool := match l with [] => true | x :: r => negb (memQ x r) && nodupQ r end.

Lemma zlen_cons {A} (x : A) l : zlen (x :: l) = (1 + zlen l)%Z.
Proof. unfold zlen. cbn [length]. lia. Qed.
Lemma zlen_nonneg {A} (l : list A) : (0 <= zlen l)%Z.
Proof. unfold zlen. lia. Qed.
Lemma zlen_app {A} (a b : list A) : zlen (a ++ b) = (zlen a + zlen b)%Z.
Proof. unfold zlen. rewrite app_length. lia. Qed.
Lemma zlen_map {A B} (f : A -> B) l : zlen (map f l) = zlen l.
Proof. unfold zlen. rewrite map_length. reflexivity. Qed.
Lemma zlen_nil_inv {A} (l : list A) : zlen l = 0%Z -> l = [].
Proof. destruct l; [reflexivity|]. rewrite zlen_cons. pose proof (zlen_nonneg l). lia. Qed.
Lemma zlen_pos {A} (e : list A) : e <> [] -> (0 < zlen e)%Z.
Proof. destruct e; [congruence|]. intros _. rewrite zlen_cons. pose proof (zlen_nonneg e). lia. Qed.

Lemma find_pos_some x l : forall i j, find_pos x l i = Some j ->
  (i <= j < i + zlen l)%Z /\ Qeq_bool x (nth (Z.to_nat (j - i)) l 0) = true.
Proof.
  induction l as [|e l IH]; intros i j H; cbn in H; [discriminate|]. rewrite zlen_cons.
  destruct (Qeq_bool x e) eqn:E.
  - inversion H; subst. rewrite Z.sub_diag. pose proof (zlen_nonneg l). split; [lia|exact E].
  - apply IH in H as [R N]. split; [lia|].
    replace (Z.to_nat (j - i)) with (S (Z.to_nat (j - (i + 1)))) by lia. exact N.
Qed.
Lemma find_pos_mem x l : forall i, memQ x l = true -> exists j, find_pos x l i = Some j.
Proof.
  induction l as [|e l IH]; intros i H; cbn in *; [discriminate|].
  destruct (Qeq_bool x e); [eexists; reflexivity|]. apply IH. exact H.
Qed.
Lemma find_pos_congr x y l : Qeq_bool x y = true -> forall i, find_pos x l i = find_pos y l i.
Proof.
  intros H. induction l as [|e l IH]; intro i; cbn; [reflexivity|].
  rewrite IH, (Qeq_bool_congr _ _ H). reflexivity.
Qed.
(* in a list without repeats the first match of the n-th element is at n *)
Lemma find_pos_of_nth l : nodupQ l = true -> forall n i, (n < length l)%nat ->
  find_pos (nth n l 0) l i = Some (i + Z.of_nat n)%Z.
Proof.
  induction l as [|e l IH]; intros N n i H; cbn in *; [lia|].
  apply andb_true_iff in N as [N1 N2]. destruct n as [|n].
  - rewrite Qeq_bool_refl. f_equal. lia.
  - destruct (Qeq_bool (nth n l 0) e) eqn:E.
    + exfalso. apply negb_true_iff in N1.
      rewrite <- (memQ_congr _ _ _ E), In_memQ in N1 by (apply nth_In; lia). discriminate.
    + rewrite IH by (assumption || lia). f_equal. lia.
Qed.

Fixpoint prodZ (l : list Z) : Z := match l with [] => 1%Z | x :: r => (x * prodZ r)%Z end.
Definition total_of (els : list (list Q)) : Z := prodZ (map zlen els).
Definition wf_els (els : list (list Q)) : Prop := Forall (fun e => e <> [] /\ nodupQ e = true) els.

Lemma total_of_cons e els : total_of (e :: els) = (zlen e * total_of els)%Z.
Proof. reflexivity. Qed.
Lemma prodZ_pos lens : Forall (fun l => 1 <= l)%Z lens -> (1 <= prodZ lens)%Z.
Proof. induction 1; cbn; nia. Qed.
Lemma wf_els_lens els : wf_els els -> Forall (fun l => 1 <= l)%Z (map zlen els).
Proof. induction 1 as [|e els [Hne _] _ IH]; cbn; constructor; [|exact IH]. pose proof (zlen_pos e Hne). lia. Qed.
Lemma total_pos els : wf_els els -> (0 < total_of els)%Z.
Proof. intro W. pose proof (prodZ_pos _ (wf_els_lens els W)). unfold total_of. lia. Qed.

(* one digit of the mixed-radix representation: what index_to_point passes on is i / b, and it stays in range *)
Lemma digit_step b P i : (0 < b)%Z -> (0 <= i < b * P)%Z ->
  (0 <= i mod b < b)%Z /\ ((i - i mod b) / b = i / b)%Z /\ (0 <= i / b < P)%Z /\ (i mod b + b * (i / b) = i)%Z.
Proof.
  intros Hb Hi. pose proof (Z.mod_pos_bound i b Hb) as Hm. pose proof (Z.div_mod i b ltac:(lia)) as E.
  split; [exact Hm|]. split; [|split; [nia|lia]].
  replace (i - i mod b)%Z with (i / b * b)%Z by lia. apply Z.div_mul. lia.
Qed.

Lemma digit_join b P a j : (0 <= a < b)%Z -> (0 <= j < P)%Z ->
  ((a + b * j) mod b = a)%Z /\ ((a + b * j - a) / b = j)%Z /\ (0 <= a + b * j < b * P)%Z.
Proof.
  intros Ha Hj. split; [|split; [|nia]].
  - rewrite Z.mul_comm, Z.mod_add by lia. apply Z.mod_small, Ha.
  - replace (a + b * j - a)%Z with (j * b)%Z by ring. apply Z.div_mul. lia.
Qed.

Lemma index_to_point_length els : forall i, length (index_to_point els i) = length els.
Proof. induction els as [|e els IH]; intro i; cbn; [reflexivity|]. f_equal. apply IH. Qed.

Theorem index_roundtrip els : wf_els els -> forall i, (0 <= i < total_of els)%Z ->
  point_to_index els (index_to_point els i) = Some i /\ length (index_to_point els i) = length els.
Proof.
  intros W i Hi. split; [|apply index_to_point_length]. revert i Hi.
  induction W as [|e els [Hne Hnd] _ IH]; intros i Hi; [cbn in *; f_equal; lia|].
  destruct (digit_step _ _ i (zlen_pos e Hne) Hi) as (Hm & Hs & Hr & Hi').
  cbn. rewrite Hs, (IH _ Hr), find_pos_of_nth by (assumption || (unfold zlen in *; lia)).
  f_equal. rewrite Z2Nat.id by lia. exact Hi'.
Qed.

Lemma index_point_elements els : wf_els els -> forall i, (0 <= i < total_of els)%Z ->
  Forall2 (fun e x => In x e) els (index_to_point els i).
Proof.
  induction 1 as [|e els [Hne Hnd] _ IH]; intros i Hi; [constructor|].
  destruct (digit_step _ _ i (zlen_pos e Hne) Hi) as (Hm & Hs & Hr & _).
  cbn. rewrite Hs. constructor; [apply nth_In; unfold zlen in *; lia|apply IH; exact Hr].
Qed.

Theorem point_roundtrip els : wf_els els -> forall p i, length p = length els -> point_to_index els p = Some i ->
  (0 <= i < total_of els)%Z /\ peqb (index_to_point els i) p = true.
Proof.
  induction 1 as [|e els [Hne Hnd] Hw IH]; intros p i L H.
  - destruct p; [|discriminate]. cbn in *. inversion H; subst. split; [lia|reflexivity].
  - destruct p as [|x p]; [discriminate|]. rewrite total_of_cons. cbn in L, H |- *.
    destruct (find_pos x e 0) as [a|] eqn:Fa; [|discriminate].
    destruct (point_to_index els p) as [j|] eqn:Fj; [|discriminate]. inversion H; subst i. clear H.
    destruct (IH p j ltac:(lia) Fj) as [R Pq]. destruct (find_pos_some _ _ _ _ Fa) as [Ra N].
    rewrite Z.sub_0_r in N. destruct (digit_join (zlen e) (total_of els) a j ltac:(lia) R) as (Hm & Hd & Hr).
    rewrite Hm, Hd, Pq, andb_true_r. split; [exact Hr|]. apply Qeq_bool_sym, N.
Qed.

Lemma point_to_index_congr els : forall p q, peqb p q = true -> point_to_index els p = point_to_index els q.
Proof.
  induction els as [|e els IH]; intros [|x p] [|y q] H; cbn in *; try discriminate; try reflexivity.
  apply andb_true_iff in H as [H1 H2]. rewrite (find_pos_congr _ _ _ H1), (IH _ _ H2). reflexivity.
Qed.

(* mirrors CategoricalDomain._verify_domain_components *)
Definition wf_comp (c : comp) : bool :=
  match c with
  | CDouble lo hi => Qltb lo hi
  | CInt lo hi => (lo <? hi)%Z
  | CCat es => (2 <=? length es)%nat && nodupQ (map inject_Z es)
  | CGrid es => (2 <=? length es)%nat && nodupQ es
  end.
Definition wf_dom (d : domain) : bool := forallb wf_comp d.

(* typed rows: the value of an int parameter is integral (reading fixed in DESIGN 7.0) *)
Definition integral (x : Q) : bool := Qeq_bool x (inject_Z (Qfloor x)).
Definition typed1 (c : comp) (x : Q) : bool := match c with CInt _ _ => integral x | _ => true end.
Fixpoint typed (d : domain) (p : point) : bool :=
  match d, p with
  | [], [] => true
  | c :: d', x :: p' => typed1 c x && typed d' p'
  | _, _ => false
  end.

Lemma in_zrange z lo hi : In z (zrange lo hi) <-> (lo <= z <= hi)%Z.
Proof.
  unfold zrange. rewrite in_map_iff. split.
  - intros [n [E H]]. apply in_seq in H. lia.
  - intro H. exists (Z.to_nat (z - lo)). split; [lia|]. apply in_seq. lia.
Qed.
Lemma zrange_length lo hi : zlen (zrange lo hi) = Z.max 0 (hi + 1 - lo).
Proof. unfold zlen, zrange. rewrite map_length, seq_length. lia. Qed.
Lemma zrange_NoDup lo hi : NoDup (zrange lo hi).
Proof.
  unfold zrange. apply FinFun.Injective_map_NoDup; [|apply seq_NoDup]. intros a b H. lia.
Qed.
Lemma nodupQ_inject l : NoDup l -> nodupQ (map inject_Z l) = true.
Proof.
  induction 1 as [|x l H _ IH]; cbn; [reflexivity|]. rewrite IH, andb_true_r. apply negb_true_iff.
  apply not_true_is_false. rewrite memQ_inject. exact H.
Qed.

Lemma wf_elements c : wf_comp c = true -> is_discrete1 c = true -> elements c <> [] /\ nodupQ (elements c) = true.
Proof.
  destruct c as [lo hi|lo hi|es|es]; cbn; intros W D; try discriminate.
  - apply Z.ltb_lt in W. split; [|apply nodupQ_inject, zrange_NoDup].
    intro E. apply map_eq_nil in E. pose proof (proj2 (in_zrange lo lo hi) ltac:(lia)) as H. rewrite E in H. exact H.
  - apply andb_true_iff in W as [W1 W2]. split; [|exact W2]. destruct es; [discriminate|cbn; congruence].
  - apply andb_true_iff in W as [W1 W2]. split; [|exact W2]. destruct es; [discriminate|congruence].
Qed.
Lemma wf_dom_els d : wf_dom d = true -> is_discrete d = true -> wf_els (map elements d).
Proof.
  induction d as [|c d IH]; cbn; intros W D; [constructor|].
  apply andb_true_iff in W as [W1 W2]. apply andb_true_iff in D as [D1 D2].
  constructor; [apply wf_elements; assumption|apply IH; assumption].
Qed.

(* for a typed value the library's range / isin test is membership in the element list *)
Lemma inside1_elements c x : is_discrete1 c = true -> typed1 c x = true ->
  inside1 c x = memQ x (elements c).
Proof.
  destruct c as [lo hi|lo hi|es|es]; cbn [inside1 elements is_discrete1 typed1]; intros D T;
    try discriminate; try reflexivity.
  apply Qeq_bool_iff in T. apply eq_iff_eq_true.
  rewrite andb_true_iff, !Qle_bool_iff, memQ_InA, InA_inject. split.
  - intros [H1 H2]. exists (Qfloor x). split; [|exact T]. apply in_zrange.
    rewrite <- (Qfloor_Z lo), <- (Qfloor_Z hi). split; apply Qfloor_resp_le; assumption.
  - intros [z [I E]]. apply in_zrange in I. rewrite E, <- !Zle_Qle. exact I.
Qed.
Lemma memQ_typed c x : memQ x (elements c) = true -> typed1 c x = true.
Proof.
  destruct c as [lo hi|lo hi|es|es]; cbn [elements typed1]; intro M; try reflexivity.
  apply memQ_InA, InA_inject in M as [z [_ E]]. apply Qeq_bool_iff. rewrite E, Qfloor_Z. reflexivity.
Qed.
Lemma in_comp_b_elements c x : is_discrete1 c = true -> in_comp_b c x = memQ x (elements c).
Proof. destruct c; cbn; intro D; try discriminate; reflexivity. Qed.

Lemma inside_length d : forall p, inside d p = true -> length p = length d.
Proof.
  induction d as [|c d IH]; intros [|x p] H; cbn in *; try discriminate; [reflexivity|].
  apply andb_true_iff in H as [_ H]. f_equal. apply IH. exact H.
Qed.
Lemma inside1_congr c x y : Qeq_bool x y = true -> inside1 c x = inside1 c y.
Proof.
  intro H. destruct c; cbn; try (apply memQ_congr; exact H); apply Qeq_bool_iff in H; rewrite H; reflexivity.
Qed.
Lemma inside_congr d : forall p q, peqb p q = true -> inside d p = inside d q.
Proof.
  induction d as [|c d IH]; intros [|x p] [|y q] H; cbn in *; try discriminate; try reflexivity.
  apply andb_true_iff in H as [H1 H2]. rewrite (inside1_congr _ _ _ H1), (IH _ _ H2). reflexivity.
Qed.

Lemma inside_has_index d : is_discrete d = true -> forall p, inside d p = true -> typed d p = true ->
  exists i, point_to_index (map elements d) p = Some i.
Proof.
  induction d as [|c d IH]; intros D [|x p] I T; cbn in *; try discriminate; [eexists; reflexivity|].
  apply andb_true_iff in D as [D1 D2]. apply andb_true_iff in I as [I1 I2]. apply andb_true_iff in T as [T1 T2].
  rewrite (inside1_elements c x D1 T1) in I1. destruct (find_pos_mem x (elements c) 0 I1) as [a Ha]. rewrite Ha.
  destruct (IH D2 p I2 T2) as [j Hj]. rewrite Hj. eexists; reflexivity.
Qed.

Lemma elements_inside d : is_discrete d = true -> forall p,
  Forall2 (fun e x => In x e) (map elements d) p ->
  inside d p = true /\ in_domain_b d p = true /\ typed d p = true.
Proof.
  induction d as [|c d IH]; intros D p F; cbn in *; inversion F as [|e x els p' H0 H3]; subst; [repeat split|].
  apply andb_true_iff in D as [D1 D2]. destruct (IH D2 _ H3) as [A [B C]]. cbn.
  pose proof (In_memQ _ _ H0) as H1. pose proof (memQ_typed c x H1) as T.
  rewrite (inside1_elements c x D1 T), (in_comp_b_elements c x D1), H1, A, B, C, T. repeat split.
Qed.

Lemma filter_split_length {A} (f : A -> bool) l :
  (length (filter f l) + length (filter (fun x => negb (f x)) l) = length l)%nat.
Proof. induction l as [|x l IH]; cbn; [reflexivity|]. destruct (f x); cbn; lia. Qed.

Lemma filter_notin_length (ex l : list Z) : NoDup ex -> NoDup l -> incl ex l ->
  zlen (filter (fun i => negb (memZ i ex)) l) = (zlen l - zlen ex)%Z.
Proof.
  intros Nex Nl I. pose proof (filter_split_length (fun i => memZ i ex) l) as S.
  assert (E : length (filter (fun i => memZ i ex) l) = length ex).
  { apply Nat.le_antisymm.
    - apply NoDup_incl_length; [apply NoDup_filter; exact Nl|]. intros x H. apply filter_In in H as [_ H].
      apply memZ_iff. exact H.
    - apply NoDup_incl_length; [exact Nex|]. intros x H. apply filter_In. split; [apply I; exact H|apply memZ_iff; exact H]. }
  unfold zlen. lia.
Qed.
Lemma filter_map_length {A B} (f : A -> B) (g : B -> bool) l :
  zlen (filter (fun x => g (f x)) l) = zlen (filter g (map f l)).
Proof. unfold zlen. f_equal. induction l as [|x l IH]; cbn; [reflexivity|]. destruct (g (f x)); cbn; rewrite IH; reflexivity. Qed.

Lemma all_some_total {A B} (f : A -> option B) (g : A -> B) l : (forall x, In x l -> f x = Some (g x)) ->
  all_some (map f l) = Some (map g l).
Proof.
  induction l as [|x l IH]; intro H; cbn; [reflexivity|].
  rewrite (H x (or_introl eq_refl)), IH by (intros z Hz; apply H; right; exact Hz). reflexivity.
Qed.

Lemma dedup_cons q h :
  dedup_rows (q :: h) = if memP q (dedup_rows h) then dedup_rows h else q :: dedup_rows h.
Proof. reflexivity. Qed.
Lemma dedup_In p h : In p (dedup_rows h) -> In p h.
Proof.
  induction h as [|q h IH]; [intros []|]. rewrite dedup_cons. destruct (memP q (dedup_rows h)).
  - intro H. right. apply IH. exact H.
  - intros [E|H]; [left; exact E|right; apply IH; exact H].
Qed.
Lemma memP_cons p q l : memP p (q :: l) = peqb p q || memP p l.
Proof. reflexivity. Qed.
Lemma dedup_memP p h : memP p (dedup_rows h) = memP p h.
Proof.
  induction h as [|q h IH]; [reflexivity|]. rewrite dedup_cons, memP_cons. destruct (memP q (dedup_rows h)) eqn:M.
  - rewrite IH. destruct (peqb p q) eqn:E; [|reflexivity].
    rewrite <- IH, (memP_congr _ _ _ E). exact M.
  - rewrite memP_cons, IH. reflexivity.
Qed.
Lemma dedup_nodup h : nodup_b (dedup_rows h) = true.
Proof.
  induction h as [|q h IH]; [reflexivity|]. rewrite dedup_cons. destruct (memP q (dedup_rows h)) eqn:M; [exact IH|].
  cbn [nodup_b]. rewrite M, IH. reflexivity.
Qed.
Lemma nodup_b_map {B} (g : point -> B) l : nodup_b l = true ->
  (forall q q', In q l -> In q' l -> g q = g q' -> peqb q q' = true) -> NoDup (map g l).
Proof.
  induction l as [|q l IH]; intros N P; [constructor|].
  cbn in N. apply andb_true_iff in N as [N1 N2]. constructor.
  - intro Hj. apply in_map_iff in Hj as [q' [E A]]. apply negb_true_iff in N1.
    assert (M : memP q l = true).
    { apply existsb_exists. exists q'. split; [exact A|]. apply P; [left; reflexivity|right; exact A|congruence]. }
    congruence.
  - apply IH; [exact N2|]. intros a b Ha Hb. apply P; right; assumption.
Qed.

Lemma flat_map_cons_length {A} (es : list A) (rest : list (list A)) :
  length (flat_map (fun x => map (cons x) rest) es) = (length es * length rest)%nat.
Proof. induction es as [|x es IH]; cbn; [reflexivity|]. rewrite app_length, map_length, IH. reflexivity. Qed.
Lemma configs_length d : zlen (configs d) = total_of (map elements d).
Proof.
  induction d as [|c d IH]; unfold total_of, zlen in *; cbn; [reflexivity|].
  rewrite flat_map_cons_length. rewrite Nat2Z.inj_mul, IH. reflexivity.
Qed.
Lemma configs_In d : forall c, In c (configs d) <-> Forall2 (fun e x => In x e) (map elements d) c.
Proof.
  induction d as [|a d IH]; intro c; cbn.
  - split; [intros [<-|[]]; constructor|intro H; inversion H; left; reflexivity].
  - rewrite in_flat_map. split.
    + intros [x [Hx Hc]]. apply in_map_iff in Hc as [r [<- Hr]]. constructor; [exact Hx|apply IH; exact Hr].
    + intro H. inversion H as [|e x els r Hx Hr]; subst. exists x. split; [exact Hx|].
      apply in_map. apply IH. exact Hr.
Qed.

Lemma total_from_some lens : Forall (fun l => 1 <= l)%Z lens -> forall acc, (1 <= acc)%Z ->
  (acc * prodZ lens < max_search)%Z -> total_from acc lens = Some (acc * prodZ lens)%Z.
Proof.
  induction 1 as [|l lens Hl Hrest IH]; intros acc Ha Hlt; cbn in *; [f_equal; lia|].
  pose proof (prodZ_pos lens Hrest) as Hp. destruct (Z.leb_spec max_search (acc * l)); [nia|].
  rewrite IH by nia. f_equal. ring.
Qed.
Lemma total_from_els els : wf_els els -> (total_of els < max_search)%Z ->
  total_from 1 (map zlen els) = Some (total_of els).
Proof.
  intros W S. rewrite (total_from_some _ (wf_els_lens els W) 1) by (lia || (rewrite Z.mul_1_l; exact S)).
  f_equal. apply Z.mul_1_l.
Qed.

(* what the random library may return (contract of numpy.random.choice(replace=False) / randint) *)
Definition oracle_ok (p : plan) (orc : list Z) : Prop :=
  match p with
  | PChoice avail n => NoDup orc /\ incl orc avail /\ zlen orc = n
  | PAll _ total extra => zlen orc = extra /\ Forall (fun i => (0 <= i < total + 1)%Z) orc
  | _ => True
  end.

(* the branch that enumerates: more requested than remain, or k + #distinct in-domain history > duplicate_prob * total *)
Definition enumerative (d : domain) (k : Z) (h : list point) (dp : Q) : Prop :=
  let t := total_of (map elements d) in
  let nex := zlen (dedup_rows (remove_outside d h)) in
  (t < k + nex)%Z \/ dp * inject_Z t < inject_Z (k + nex).

(* The counting argument.  ix sends the rows of the domain (in range and typed) to [0, T), injectively up to peqb; it sends
   the configurations onto [0, T) and the distinct in-domain history rows to the excluded indexes ex.  So the indexes that
   remain available and the unobserved configurations are both T - |excl| many, and an available index names an
   unobserved configuration. *)
Section DistinctMain.
Variable d : domain.
Variable h : list point.
Hypothesis Wf : wf_dom d = true.
Hypothesis Disc : is_discrete d = true.
Hypothesis Typed : Forall (fun p => typed d p = true) h.
Let els := map elements d.
Let T := total_of els.
Let excl := dedup_rows (remove_outside d h).
Definition ix (c : point) : Z := match point_to_index els c with Some i => i | None => (-1)%Z end.
Let ex := map ix excl.
Let avail := filter (fun i => negb (memZ i ex)) (zrange 0 (T - 1)).

Lemma Wels : wf_els els.
Proof. apply wf_dom_els; assumption. Qed.

Definition is_row (p : point) : Prop := inside d p = true /\ typed d p = true.

Lemma row_index p : is_row p ->
  point_to_index els p = Some (ix p) /\ (0 <= ix p < T)%Z /\ peqb (index_to_point els (ix p)) p = true.
Proof.
  intros [I Ty]. destruct (inside_has_index d Disc p I Ty) as [i Hi]. fold els in Hi. unfold ix. rewrite Hi.
  split; [reflexivity|]. apply (point_roundtrip els Wels p i); [|exact Hi].
  unfold els. rewrite map_length. apply inside_length, I.
Qed.
Lemma ix_congr p q : peqb p q = true -> ix p = ix q.
Proof. intro H. unfold ix. rewrite (point_to_index_congr els p q H). reflexivity. Qed.
Lemma ix_injective p q : is_row p -> is_row q -> ix p = ix q -> peqb p q = true.
Proof.
  intros Rp Rq E. destruct (row_index p Rp) as (_ & _ & A). destruct (row_index q Rq) as (_ & _ & B).
  rewrite E in A. eapply peqb_trans; [apply peqb_sym; exact A|exact B].
Qed.

Lemma excl_row q : In q excl -> In q h /\ is_row q.
Proof.
  intro H. apply dedup_In, filter_In in H as [H1 H2]. rewrite Forall_forall in Typed. split; [|split]; auto.
Qed.
Lemma config_row c : In c (configs d) -> is_row c /\ in_domain_b d c = true.
Proof. intro H. apply configs_In in H. destruct (elements_inside d Disc c H) as (A & B & C). repeat split; assumption. Qed.
Lemma ix_index i : (0 <= i < T)%Z -> ix (index_to_point els i) = i /\ In (index_to_point els i) (configs d).
Proof.
  intros R. split; [unfold ix; rewrite (proj1 (index_roundtrip els Wels i R)); reflexivity|].
  apply configs_In, (index_point_elements els Wels i R).
Qed.

Lemma excl_indexes : all_some (map (point_to_index els) excl) = Some ex.
Proof. apply all_some_total. intros q H. apply row_index, excl_row, H. Qed.
Lemma ex_range : incl ex (zrange 0 (T - 1)).
Proof.
  intros i H. apply in_map_iff in H as [q [<- Hq]]. apply in_zrange.
  destruct (row_index q (proj2 (excl_row q Hq))) as (_ & R & _). lia.
Qed.
Lemma ex_NoDup : NoDup ex.
Proof.
  apply nodup_b_map; [apply dedup_nodup|]. intros q q' Hq Hq'. apply ix_injective; apply excl_row; assumption.
Qed.

Lemma observed_iff c : is_row c -> memP c h = memZ (ix c) ex.
Proof.
  intros Rc. apply eq_iff_eq_true. rewrite memZ_iff. unfold memP, ex. rewrite existsb_exists, in_map_iff. split.
  - intros [q [Qh E]].
    assert (Mc : memP c excl = true).
    { unfold excl. rewrite dedup_memP. apply existsb_exists. exists q. split; [|exact E].
      apply filter_In. split; [exact Qh|]. rewrite <- (inside_congr d _ _ E). apply Rc. }
    apply existsb_exists in Mc as [q' [A E']]. exists q'. split; [|exact A]. symmetry. apply ix_congr, E'.
  - intros [q [E Hq]]. destruct (excl_row q Hq) as [Qh Rq]. exists q. split; [exact Qh|].
    apply ix_injective; auto.
Qed.

Lemma zrange_T : zlen (zrange 0 (T - 1)) = T.
Proof. pose proof (total_pos els Wels) as P. fold T in P. rewrite zrange_length. lia. Qed.
Lemma ex_length : zlen ex = zlen excl.
Proof. apply zlen_map. Qed.

Lemma avail_length : zlen avail = (T - zlen excl)%Z.
Proof.
  unfold avail. rewrite (filter_notin_length ex _ ex_NoDup (zrange_NoDup _ _) ex_range), zrange_T, ex_length. reflexivity.
Qed.

(* the configurations have pairwise different indexes, by counting: they are T many and their indexes cover [0, T) *)
Lemma map_ix_configs : NoDup (map ix (configs d)) /\ incl (zrange 0 (T - 1)) (map ix (configs d)).
Proof.
  assert (I : incl (zrange 0 (T - 1)) (map ix (configs d))).
  { intros i Hi. apply in_zrange in Hi. destruct (ix_index i ltac:(lia)) as [E C].
    apply in_map_iff. eexists. split; eassumption. }
  split; [|exact I]. apply (NoDup_incl_NoDup (zrange_NoDup 0 (T - 1))); [|exact I].
  apply Nat2Z.inj_le. fold (zlen (map ix (configs d))) (zlen (zrange 0 (T - 1))).
  rewrite zlen_map, configs_length, zrange_T. reflexivity.
Qed.

Lemma unobserved_length : zlen (unobserved d h) = (T - zlen excl)%Z.
Proof.
  unfold unobserved.
  rewrite (filter_ext_in _ (fun c => negb (memZ (ix c) ex)))
    by (intros c Hc; f_equal; apply observed_iff, config_row, Hc).
  destruct map_ix_configs as [N I].
  rewrite (filter_map_length ix (fun i => negb (memZ i ex))), (filter_notin_length ex _ ex_NoDup N (incl_tran ex_range I)),
    ex_length, zlen_map, configs_length. reflexivity.
Qed.

Lemma avail_points L : NoDup L -> incl L avail ->
  let r := map (index_to_point els) L in
  NoDupA peq r /\ Forall (fun p => in_domain_b d p = true) r /\ Forall (fun p => ~ InA peq p h) r.
Proof.
  intros N I.
  assert (R : forall i, In i L -> let c := index_to_point els i in
                ix c = i /\ in_domain_b d c = true /\ ~ InA peq c h).
  { intros i Hi c. apply I, filter_In in Hi as [A B]. apply in_zrange in A.
    destruct (ix_index i ltac:(lia)) as [E C]. fold c in E, C. destruct (config_row c C) as [Rc Dom].
    split; [exact E|]. split; [exact Dom|]. rewrite <- memP_iff, (observed_iff c Rc), E.
    apply negb_true_iff in B. congruence. }
  cbn zeta. split; [|split; apply Forall_forall; intros p Hp; apply in_map_iff in Hp as [i [<- Hi]]; apply (R i Hi)].
  clear I. induction N as [|a L Ha N IH]; cbn; constructor.
  - intro C. apply InA_alt in C as [y [Py Hy]]. apply in_map_iff in Hy as [b [<- Hb]].
    apply peqb_iff, ix_congr in Py. rewrite (proj1 (R a (or_introl eq_refl))), (proj1 (R b (or_intror Hb))) in Py.
    congruence.
  - apply IH. intros i Hi. apply R. right. exact Hi.
Qed.

Lemma enumerate_eq n : enumerate els excl T n =
  if (n <? zlen avail)%Z then PChoice avail n else PAll avail T (n - zlen avail).
Proof. unfold enumerate. rewrite excl_indexes. reflexivity. Qed.

(* the two enumerating plans, asked for no more than remain, return that many good rows *)
Lemma enumerated_points k dp n orc cols : distinct_plan d k h dp = enumerate els excl T n ->
  (n <= T - zlen excl)%Z -> oracle_ok (distinct_plan d k h dp) orc ->
  exists r, distinct_points d k h dp orc cols = Some r /\ zlen r = n /\ NoDupA peq r /\
    Forall (fun p => in_domain_b d p = true) r /\ Forall (fun p => ~ InA peq p h) r.
Proof.
  intros Ep Hn Or. unfold distinct_points. fold els. rewrite Ep, enumerate_eq in *. rewrite <- avail_length in Hn.
  destruct (n <? zlen avail)%Z eqn:C; cbn in Or; (eexists; split; [reflexivity|]).
  - destruct Or as (N & I & Len). split; [|apply avail_points; assumption]. rewrite zlen_map. exact Len.
  - apply Z.ltb_ge in C. destruct Or as [O1 _]. replace (n - zlen avail)%Z with 0%Z in O1 by lia.
    apply zlen_nil_inv in O1. subst orc. rewrite app_nil_r.
    split; [|apply avail_points; [apply NoDup_filter, zrange_NoDup|apply incl_refl]]. rewrite zlen_map. lia.
Qed.

(* under the branch hypothesis the analysis is a ValueError with at most k rows remaining, or plain enumeration *)
Lemma enumerative_analysis k dp : (T < max_search)%Z -> enumerative d k h dp ->
  (analyze (map zlen els) k (zlen excl) dp = AError T /\ (T - zlen excl <= k)%Z) \/
  (analyze (map zlen els) k (zlen excl) dp = AEnum T /\ (k <= T - zlen excl)%Z).
Proof.
  intros Small En. pose proof (zlen_nonneg excl) as Ne. unfold analyze. rewrite (total_from_els els Wels Small). fold T.
  destruct (Z.ltb_spec T k); [left; split; [reflexivity|lia]|].
  destruct (Z.ltb_spec T (k + zlen excl)); [left; split; [reflexivity|lia]|].
  destruct (Qle_bool (inject_Z (k + zlen excl)) (dp * inject_Z T)) eqn:C; [|right; split; [reflexivity|lia]].
  (* the i.i.d. shortcut is excluded by the hypothesis *)
  exfalso. apply Qle_bool_iff in C. destruct En as [En|En]; [fold els T excl in En; lia|].
  apply Qlt_not_le in En. contradiction.
Qed.

(* so the plan asks for n = min(k, #remaining) rows, by enumeration unless n = 0 *)
Lemma enumerative_plan k dp : (T < max_search)%Z -> enumerative d k h dp ->
  let n := Z.min k (T - zlen excl) in
  (n = 0%Z /\ distinct_plan d k h dp = PEmpty) \/ distinct_plan d k h dp = enumerate els excl T n.
Proof.
  intros Small En. cbv zeta.
  assert (Hr : (0 <= T - zlen excl)%Z) by (rewrite <- avail_length; apply zlen_nonneg).
  unfold distinct_plan. fold els excl. rewrite Disc. cbn [negb].
  destruct (Z.eqb_spec k 0) as [->|K0]; [left; split; [apply Z.min_l, Hr|reflexivity]|].
  destruct (enumerative_analysis k dp Small En) as [[-> H]|[-> H]].
  - rewrite (Z.min_r _ _ H). destruct (Z.leb_spec (T - zlen excl) 0); [left; split; [lia|reflexivity]|right; reflexivity].
  - rewrite (Z.min_l _ _ H). right. reflexivity.
Qed.
End DistinctMain.

Theorem distinct_spec d k h dp orc cols :
  wf_dom d = true -> is_discrete d = true -> (total_of (map elements d) < max_search)%Z -> (0 <= k)%Z ->
  Forall (fun p => typed d p = true) h ->
  enumerative d k h dp ->
  oracle_ok (distinct_plan d k h dp) orc ->
  exists r, distinct_points d k h dp orc cols = Some r /\
    zlen r = Z.min k (zlen (unobserved d h)) /\ NoDupA peq r /\
    Forall (fun p => in_domain_b d p = true) r /\ Forall (fun p => ~ InA peq p h) r.
Proof.
  intros Wf Disc Small _ Ty En Or. rewrite (unobserved_length d h Wf Disc Ty).
  destruct (enumerative_plan d h Wf Disc Ty k dp Small En) as [[Hn Hp]|Hp].
  - exists []. unfold distinct_points. rewrite Hp, Hn. repeat constructor.
  - apply (enumerated_points d h Wf Disc Ty k dp _ orc cols Hp); [apply Z.le_min_r|exact Or].
Qed.

Definition in_comp (c : comp) (x : Q) : Prop :=
  match c with
  | CDouble lo hi => lo <= x /\ x <= hi
  | CInt lo hi => exists z : Z, x == inject_Z z /\ (lo <= z <= hi)%Z
  | CCat es => exists z : Z, In z es /\ x == inject_Z z
  | CGrid es => InA Qeq x es
  end.
Definition In_domain (d : domain) (p : point) : Prop := Forall2 in_comp d p.

(* range contracts of the random libraries *)
Definition draw_ok (r : request) (x : Q) : Prop :=
  match r with
  | RChoice a => InA Qeq x a
  | RRandint lo hi => exists z : Z, x == inject_Z z /\ (lo <= z < hi)%Z
  | RUniform lo hi => lo <= x /\ x <= hi
  | RTruncnorm a b loc s => loc + s * a <= x /\ x <= loc + s * b
  | RBeta a b loc s => loc <= x /\ x <= loc + s
  | RInvalid => False
  end.

Lemma in_comp_b_iff c x : in_comp_b c x = true <-> in_comp c x.
Proof.
  destruct c as [lo hi|lo hi|es|es]; cbn [in_comp_b in_comp inside1].
  - rewrite andb_true_iff, !Qle_bool_iff. reflexivity.
  - rewrite memQ_InA, InA_inject. split; intros [z [A B]]; exists z.
    + apply in_zrange in A. split; assumption.
    + split; [apply in_zrange; exact B|exact A].
  - rewrite memQ_InA, InA_inject. reflexivity.
  - apply memQ_InA.
Qed.
Lemma in_domain_b_iff d : forall p, in_domain_b d p = true <-> In_domain d p.
Proof.
  induction d as [|c d IH]; intros [|x p]; cbn.
  - split; [constructor|reflexivity].
  - split; [discriminate|intro H; inversion H].
  - split; [discriminate|intro H; inversion H].
  - rewrite andb_true_iff, in_comp_b_iff, IH. split; [intros [A B]; constructor; assumption|intro H; inversion H; split; assumption].
Qed.

(* every value of the parameter, and nothing else, is within the requested draw: ints on [lo, hi + 1), choice over
   exactly the element list *)
Theorem full_support c x : in_comp c x <-> draw_ok (request1 c) x.
Proof.
  destruct c as [lo hi|lo hi|es|es]; cbn [in_comp draw_ok request1].
  - reflexivity.
  - split; intros [z [A B]]; exists z; (split; [exact A|lia]).
  - rewrite InA_inject. reflexivity.
  - reflexivity.
Qed.

Definition cols_ok (n : nat) (rs : list request) (cols : list (list Q)) : Prop :=
  Forall2 (fun r col => length col = n /\ Forall (draw_ok r) col) rs cols.

Lemma rows_of_in_domain d : forall n cols, cols_ok n (quasi_requests d) cols ->
  forall i, (i < n)%nat -> In_domain d (map (fun col => nth i col 0) cols).
Proof.
  induction d as [|c d IH]; intros n cols H i Hi; unfold quasi_requests in *; cbn in *; inversion H; subst; cbn.
  - constructor.
  - constructor.
    + apply full_support. destruct H2 as [L F]. rewrite Forall_forall in F. apply F. apply nth_In. congruence.
    + apply (IH n); assumption.
Qed.
Theorem quasi_random_in_domain d n cols : cols_ok (Z.to_nat n) (quasi_requests d) cols ->
  Forall (In_domain d) (quasi_random n cols).
Proof.
  intro H. unfold quasi_random, rows_of. apply Forall_forall. intros p Hp. apply in_map_iff in Hp as [i [<- Hi]].
  apply in_seq in Hi. apply (rows_of_in_domain d _ cols H). lia.
Qed.
(* every admissible point is produced by some admissible draws *)
Theorem quasi_random_reaches d p : In_domain d p ->
  exists cols, cols_ok 1 (quasi_requests d) cols /\ quasi_random 1 cols = [p].
Proof.
  intro H. exists (map (fun x => [x]) p). split.
  - unfold quasi_requests. induction H as [|c x d p Hc _ IH]; cbn; constructor; [|exact IH].
    split; [reflexivity|]. constructor; [apply full_support; exact Hc|constructor].
  - unfold quasi_random, rows_of. change (Z.to_nat 1) with 1%nat. cbn [seq map]. f_equal. rewrite map_map. apply map_id.
Qed.

Theorem prior_normal_truncated lo hi m s x : ~ s == 0 ->
  exists a b, request_prior (CDouble lo hi) (Normal m s) = RTruncnorm a b m s /\
    a == (lo - m) / s /\ b == (hi - m) / s /\
    (draw_ok (RTruncnorm a b m s) x <-> lo <= x /\ x <= hi).
Proof.
  intro Hs. eexists. eexists. split; [reflexivity|]. split; [reflexivity|]. split; [reflexivity|].
  assert (E : forall a, m + s * ((a - m) / s) == a) by (intro a; rewrite Qmult_div_r by exact Hs; ring).
  cbn [draw_ok]. rewrite !E. reflexivity.
Qed.
Theorem prior_beta_scaled lo hi a b x :
  request_prior (CDouble lo hi) (Beta a b) = RBeta a b lo (hi - lo) /\
  (draw_ok (RBeta a b lo (hi - lo)) x <-> lo <= x /\ x <= hi).
Proof.
  split; [reflexivity|]. cbn [draw_ok]. assert (E : lo + (hi - lo) == hi) by ring. rewrite E. reflexivity.
Qed.
Theorem prior_absent c : request_prior c NoPrior = request1 c.
Proof. destruct c; reflexivity. Qed.
(* the three views use the prior sampler iff priors are supplied and the domain is unconstrained *)
Theorem view_dispatch {A} (ps : list A) constrained :
  view_path ps constrained = UsePriors <-> ps <> [] /\ constrained = false.
Proof.
  unfold view_path. destruct ps as [|a ps]; [|destruct constrained]; split; try discriminate; try (intros [H1 H2]; congruence).
  intros _. split; [discriminate|reflexivity].
Qed.
Theorem view_requests_priors d ps : ps <> [] -> view_requests d ps false = Some (prior_requests d ps).
Proof. destruct ps; [congruence|reflexivity]. Qed.

Lemma random_sampler_priors {A} (ps : list A) constrained :
  random_sampler ps constrained = SPriors <-> ps <> [] /\ constrained = false.
Proof.
  unfold random_sampler. rewrite <- (view_dispatch ps constrained). destruct (view_path ps constrained); split; congruence.
Qed.
Lemma random_sampler_not_estimator {A} (ps : list A) constrained : random_sampler ps constrained <> SEstimator.
Proof. unfold random_sampler. destruct (view_path ps constrained); discriminate. Qed.

(* every random-suggestion route of a whole SPE request honours the priors: the estimator is sampled only when the experiment is past
   its initialisation phase, not swamped by open suggestions and the estimator could be formed; on every other route the sampler is the
   prior sampler iff priors are supplied and the domain is unconstrained *)
Theorem spe_view_estimator_iff {A} (ps : list A) constrained init obs open formed :
  spe_view_sampler ps constrained init obs open formed = SEstimator <->
  init = false /\ sample_randomly obs open = false /\ formed = true.
Proof.
  unfold spe_view_sampler. pose proof (random_sampler_not_estimator ps constrained) as N.
  destruct init, (sample_randomly obs open), formed; cbn [orb negb];
    (split; [intro H; try elim (N H); repeat split|intros (H1 & H2 & H3); try discriminate; reflexivity]).
Qed.
Theorem spe_view_random_routes {A} (ps : list A) constrained init obs open formed :
  init = true \/ sample_randomly obs open = true \/ formed = false ->
  spe_view_sampler ps constrained init obs open formed = random_sampler ps constrained /\
  (spe_view_sampler ps constrained init obs open formed = SPriors <-> ps <> [] /\ constrained = false).
Proof.
  intros H. assert (E : spe_view_sampler ps constrained init obs open formed = random_sampler ps constrained).
  { unfold spe_view_sampler. destruct init; [reflexivity|]. destruct (sample_randomly obs open); [reflexivity|]. destruct formed; [|reflexivity].
    destruct H as [H|[H|H]]; discriminate. }
  split; [exact E|]. rewrite E. apply random_sampler_priors.
Qed.
Theorem spe_search_view_random_routes {A} (ps : list A) constrained ph init obs open formed :
  ph = SearchInit \/ (ph = SearchExploit /\ (init = true \/ sample_randomly obs open = true \/ formed = false)) ->
  spe_search_view_sampler ps constrained ph init obs open formed = random_sampler ps constrained /\
  (spe_search_view_sampler ps constrained ph init obs open formed = SPriors <-> ps <> [] /\ constrained = false).
Proof.
  intros [->|[-> H]]; cbn [spe_search_view_sampler].
  - split; [reflexivity|]. apply random_sampler_priors.
  - apply spe_view_random_routes. exact H.
Qed.
Theorem sample_randomly_spec obs open : sample_randomly obs open = true <-> inject_Z obs <= (17 # 10) * inject_Z open.
Proof. unfold sample_randomly, SPE_OPEN_SUGGESTION_RATIO_BOUND. apply Qle_bool_iff. Qed.

Definition shortcut_d : domain :=
  [CInt 0 99; CCat [1; 2; 5; 7; 9; 11; 12; 13; 14; 15]%Z; CGrid [1 # 2; 3 # 2; 3; 7; 8]].
Definition shortcut_h : list point := [[0; 1; 1 # 2]; [1; 2; 3 # 2]; [0; 1; 1 # 2]].
Definition shortcut_cols : list (list Q) := [[0; 0]; [1; 1]; [1 # 2; 1 # 2]].

Theorem distinct_shortcut_refuted :
  exists d k h dp orc cols r,
    wf_dom d = true /\ is_discrete d = true /\ (total_of (map elements d) < max_search)%Z /\ (0 <= k)%Z /\
    Forall (fun p => typed d p = true) h /\ oracle_ok (distinct_plan d k h dp) orc /\
    cols_ok (Z.to_nat k) (quasi_requests d) cols /\
    distinct_points d k h dp orc cols = Some r /\
    ~ NoDupA peq r /\ (exists p, In p r /\ InA peq p h) /\ ~ enumerative d k h dp.
Proof.
  exists shortcut_d, 2%Z, shortcut_h, default_dup_prob, [], shortcut_cols, [[0; 1; 1 # 2]; [0; 1; 1 # 2]].
  assert (Hp : distinct_plan shortcut_d 2 shortcut_h default_dup_prob = PRandom 2) by (vm_compute; reflexivity).
  split; [vm_compute; reflexivity|]. split; [vm_compute; reflexivity|]. split; [vm_compute; reflexivity|].
  split; [lia|]. split; [repeat constructor|]. split; [rewrite Hp; exact I|]. split.
  { unfold shortcut_d, shortcut_cols, quasi_requests, cols_ok. cbn [map request1 Z.to_nat Pos.to_nat Pos.iter_op Nat.add].
    repeat constructor.
    - exists 0%Z. split; [reflexivity|lia].
    - exists 0%Z. split; [reflexivity|lia]. }
  split; [unfold distinct_points; rewrite Hp; reflexivity|]. split; [|split].
  - intro H. inversion H as [|x l Hx _]; subst. apply Hx. left. apply peqb_iff. reflexivity.
  - exists [0; 1; 1 # 2]. split; [left; reflexivity|]. left. apply peqb_iff. reflexivity.
  - unfold enumerative. vm_compute. intros [H|H]; discriminate.
Qed.

Lemma Qltb_lt x y : Qltb x y = true <-> x < y.
Proof.
  unfold Qltb. rewrite negb_true_iff, <- not_true_iff_false, Qle_bool_iff. split; [apply Qnot_le_lt|apply Qlt_not_le].
Qed.
Lemma far_iff V tol u v :
  far V tol u v = true <-> tol < 0 \/ tol * tol * inject_Z (zlen V) < sdist2 V u v.
Proof.
  unfold far. destruct (Qltb tol 0) eqn:E.
  - apply Qltb_lt in E. split; auto.
  - rewrite Qltb_lt. split; [right; assumption|]. intros [H|H]; [|exact H]. apply Qltb_lt in H. congruence.
Qed.

Lemma unique_self_seq V tol : forall l earlier,
  unique_self V tol earlier l =
  map (fun j => forallb (fun e => far V tol e (nth j l [])) (earlier ++ firstn j l)) (seq 0 (length l)).
Proof.
  induction l as [|p r IH]; intro earlier; cbn [unique_self length seq map]; [reflexivity|].
  cbn [nth firstn]. rewrite app_nil_r. f_equal. rewrite IH, <- seq_shift, map_map.
  apply map_ext. intro j. cbn [nth firstn]. rewrite <- app_assoc. reflexivity.
Qed.

Lemma all_some_select {A B} (f : A -> option B) : forall (m : list bool) (l : list A) (ys : list B),
  all_some (map f l) = Some ys -> all_some (map f (select m l)) = Some (select m ys).
Proof.
  induction m as [|b m IH]; intros l ys H; [reflexivity|].
  destruct l as [|x l]; cbn in H.
  - inversion H; subst. reflexivity.
  - destruct (f x) as [y|] eqn:E; [|discriminate]. destruct (all_some (map f l)) as [r|] eqn:R; [|discriminate].
    inversion H; subst. destruct b; cbn; rewrite ?E, (IH l r R); reflexivity.
Qed.

Lemma select_nil {A} m : @select A m [] = [].
Proof. destruct m; reflexivity. Qed.

(* the two filters of replace_duplicate_points - within the batch, then against the history - select by one mask *)
Lemma dedupe_masks {A} V tol ehs : forall eps (pts : list A) earlier,
  select (unique_vs V tol ehs (select (unique_self V tol earlier eps) eps)) (select (unique_self V tol earlier eps) pts) =
  select (map (fun j => forallb (fun e => far V tol e (nth j eps [])) (earlier ++ firstn j eps) &&
                        forallb (fun c => far V tol c (nth j eps [])) ehs) (seq 0 (length eps))) pts.
Proof.
  induction eps as [|p r IH]; intros pts earlier; [reflexivity|].
  cbn [unique_self length seq map nth firstn]. rewrite app_nil_r, <- seq_shift, map_map.
  rewrite (map_ext _ (fun j => forallb (fun e => far V tol e (nth j r [])) ((earlier ++ [p]) ++ firstn j r) &&
                               forallb (fun c => far V tol c (nth j r [])) ehs))
    by (intro j; cbn [nth firstn]; rewrite <- app_assoc; reflexivity).
  destruct pts as [|x pts]; [rewrite !select_nil; reflexivity|].
  destruct (forallb (fun e => far V tol e p) earlier); cbn [select unique_vs map andb]; [|apply IH].
  destruct (forallb (fun c => far V tol c p) ehs); rewrite <- IH; reflexivity.
Qed.

(* member j survives iff it is farther than the threshold from every earlier member (dropped or not) and from every
   history row *)
Definition keep_mask (d : domain) (tol : Q) (eps ehs : list point) : list bool :=
  let V := map scale1 d in
  map (fun j => forallb (fun e => far V tol e (nth j eps [])) (firstn j eps) &&
                forallb (fun c => far V tol c (nth j eps [])) ehs) (seq 0 (length eps)).

Theorem dedupe_spec d pts hist tol orc cols eps ehs :
  all_some (map (enum_point d) pts) = Some eps -> all_some (map (enum_point d) hist) = Some ehs ->
  let kept := select (keep_mask d tol eps ehs) pts in
  replace_duplicates d pts hist tol orc cols =
    match distinct_points d (zlen pts - zlen kept) hist default_dup_prob orc cols with
    | Some fill => Some (kept ++ fill)
    | None => None
    end.
Proof.
  intros He Hh kept. unfold replace_duplicates, identify_unique. rewrite He.
  rewrite (all_some_select _ _ pts eps He), Hh, (dedupe_masks _ tol ehs eps pts []). reflexivity.
Qed.

Lemma nth_map_seq {A} (f : nat -> A) n j dflt : (j < n)%nat -> nth j (map f (seq 0 n)) dflt = f j.
Proof.
  intro H. rewrite (nth_indep _ dflt (f 0%nat)) by (rewrite map_length, seq_length; exact H).
  rewrite map_nth, seq_nth by exact H. reflexivity.
Qed.
Lemma keep_mask_nth d tol eps ehs j : (j < length eps)%nat ->
  nth j (keep_mask d tol eps ehs) false =
  forallb (fun e => far (map scale1 d) tol e (nth j eps [])) (firstn j eps) &&
  forallb (fun c => far (map scale1 d) tol c (nth j eps [])) ehs.
Proof. intro H. unfold keep_mask. rewrite nth_map_seq by exact H. reflexivity. Qed.

Lemma select_length_le {A} : forall (m : list bool) (l : list A), (length (select m l) <= length l)%nat.
Proof.
  induction m as [|b m IH]; intros [|x l]; cbn; try lia. destruct b; cbn; specialize (IH l); lia.
Qed.

(* batch size: on the enumerating branch the result has |kept| + min(dropped, #unobserved) rows *)
Theorem dedupe_size d pts hist tol orc cols eps ehs :
  all_some (map (enum_point d) pts) = Some eps -> all_some (map (enum_point d) hist) = Some ehs ->
  let kept := select (keep_mask d tol eps ehs) pts in
  let m := (zlen pts - zlen kept)%Z in
  wf_dom d = true -> is_discrete d = true -> (total_of (map elements d) < max_search)%Z ->
  Forall (fun p => typed d p = true) hist ->
  enumerative d m hist default_dup_prob ->
  oracle_ok (distinct_plan d m hist default_dup_prob) orc ->
  exists fill, replace_duplicates d pts hist tol orc cols = Some (kept ++ fill) /\
    zlen fill = Z.min m (zlen (unobserved d hist)) /\
    ((m <= zlen (unobserved d hist))%Z -> zlen (kept ++ fill) = zlen pts) /\
    NoDupA peq fill /\ Forall (fun p => in_domain_b d p = true) fill /\ Forall (fun p => ~ InA peq p hist) fill.
Proof.
  intros He Hh kept m Wf Disc Small Ty En Or.
  assert (Hm : (0 <= m)%Z).
  { unfold m, kept, zlen. pose proof (select_length_le (keep_mask d tol eps ehs) pts). lia. }
  destruct (distinct_spec d m hist default_dup_prob orc cols Wf Disc Small Hm Ty En Or) as [fill [E [L R]]].
  exists fill. rewrite (dedupe_spec d pts hist tol orc cols eps ehs He Hh). fold kept m. rewrite E.
  split; [reflexivity|]. split; [exact L|]. split; [|exact R].
  intro Hle. rewrite zlen_app, L. unfold m in *. lia.
Qed.

Lemma rows_of_length n cols : length (rows_of n cols) = n.
Proof. unfold rows_of. rewrite map_length, seq_length. reflexivity. Qed.
Lemma enumerate_not_random els excl t n m : enumerate els excl t n <> PRandom m.
Proof.
  unfold enumerate. destruct (all_some _); [|discriminate].
  match goal with |- context [if ?c then _ else _] => destruct c end; discriminate.
Qed.
Lemma plan_random_n d k h dp n : distinct_plan d k h dp = PRandom n -> n = k.
Proof.
  unfold distinct_plan. destruct (k =? 0)%Z; [discriminate|]. destruct (negb (is_discrete d)); [congruence|].
  destruct (analyze _ _ _ _); try congruence.
  - destruct (_ <=? 0)%Z; [discriminate|]. intro H. apply enumerate_not_random in H. contradiction.
  - intro H. apply enumerate_not_random in H. contradiction.
Qed.
(* on the random branches (non-discrete domain, huge domain, shortcut) the batch size is always restored *)
Theorem dedupe_size_random d pts hist tol orc cols eps ehs n :
  all_some (map (enum_point d) pts) = Some eps -> all_some (map (enum_point d) hist) = Some ehs ->
  let kept := select (keep_mask d tol eps ehs) pts in
  distinct_plan d (zlen pts - zlen kept) hist default_dup_prob = PRandom n ->
  exists fill, replace_duplicates d pts hist tol orc cols = Some (kept ++ fill) /\ zlen (kept ++ fill) = zlen pts.
Proof.
  intros He Hh kept Hp. rewrite (dedupe_spec d pts hist tol orc cols eps ehs He Hh). fold kept.
  unfold distinct_points. rewrite Hp. eexists. split; [reflexivity|].
  apply plan_random_n in Hp. rewrite zlen_app. unfold quasi_random, zlen at 2. rewrite rows_of_length.
  assert (0 <= zlen pts - zlen kept)%Z.
  { unfold kept, zlen. pose proof (select_length_le (keep_mask d tol eps ehs) pts). lia. }
  subst n. lia.
Qed.

(* non-vacuity of distinct_spec: 15 configurations, one observed 14 times plus an out-of-domain row, ask 5 *)
Example distinct_example :
  let d := [CInt 0 4; CCat [1; 2; 5]%Z] in
  let h := repeat [2; 5] 14 ++ [[9; 1]] in
  wf_dom d = true /\ is_discrete d = true /\ Forall (fun p => typed d p = true) h /\
  enumerative d 5 h 0 /\ oracle_ok (distinct_plan d 5 h 0) [0; 3; 7; 9; 13]%Z /\
  distinct_points d 5 h 0 [0; 3; 7; 9; 13]%Z [] = Some [[0; 1]; [3; 1]; [2; 2]; [4; 2]; [3; 5]] /\
  zlen (unobserved d h) = 14%Z.
Proof.
  intros d h. split; [reflexivity|]. split; [reflexivity|].
  split; [apply Forall_forall, forallb_forall; reflexivity|].
  split; [right; vm_compute; reflexivity|]. split.
  - cbv -[incl]. split; [repeat constructor; cbn; lia|]. split; [|reflexivity].
    intros x Hx. apply memZ_iff. revert x Hx. apply forallb_forall. reflexivity.
  - split; vm_compute; reflexivity.
Qed.
