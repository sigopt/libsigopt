(* The boolean tests of Model.Domain against the propositions they decide: Qltb, forall2b, in_componentb and, from these,
   admissibleb against Admissible.  The C09 and C01 proofs and the history checkers state membership through these. *)
From Coq Require Import List QArith Qround.
From LV Require Import Model.Domain.
Import ListNotations.
Open Scope Q_scope.

Lemma Qltb_lt x y : Qltb x y = true <-> x < y.
Proof.
  unfold Qltb. rewrite negb_true_iff, <- not_true_iff_false, Qle_bool_iff. split; [apply Qnot_le_lt|apply Qlt_not_le].
Qed.
Lemma Qltb_ge x y : Qltb x y = false <-> y <= x.
Proof. unfold Qltb. rewrite negb_false_iff. apply Qle_bool_iff. Qed.
Lemma Qle_bool_false x y : Qle_bool x y = false <-> y < x.
Proof. rewrite <- Qltb_lt. unfold Qltb. symmetry. apply negb_true_iff. Qed.

Lemma forall2b_spec {A B} (f : A -> B -> bool) (P : A -> B -> Prop) : (forall x y, f x y = true <-> P x y) ->
  forall a b, forall2b f a b = true <-> Forall2 P a b.
Proof.
  intros Hf. induction a as [|x a IH]; intros [|y b]; simpl; split; intros H; try discriminate; try constructor; try (inversion H; fail).
  - apply Hf. apply andb_true_iff in H. tauto.
  - apply andb_true_iff in H. apply IH. tauto.
  - inversion H; subst. apply andb_true_iff. split; [apply Hf; assumption|apply IH; assumption].
Qed.

Lemma forall2b_cons_r {A B} (f : A -> B -> bool) l y m : forall2b f l (y :: m) = true ->
  exists x l', l = x :: l' /\ f x y = true /\ forall2b f l' m = true.
Proof.
  destruct l as [|x l']; [discriminate|]. simpl. rewrite andb_true_iff. intros [H1 H2]. exists x, l'. auto.
Qed.

Lemma is_intb_spec x : is_intb x = true <-> exists z, x == inject_Z z.
Proof.
  unfold is_intb. rewrite Qeq_bool_iff. split.
  - intros H. exists (Qfloor x). exact H.
  - intros [z Hz]. rewrite Hz at 2. rewrite Qfloor_Z. exact Hz.
Qed.
Lemma Qfloor_of_int x z : x == inject_Z z -> Qfloor x = z.
Proof. intros H. rewrite H. apply Qfloor_Z. Qed.

Lemma in_componentb_spec c x : in_componentb c x = true <-> in_component c x.
Proof.
  destruct c as [lo hi|lo hi|es|es]; simpl.
  3,4: rewrite existsb_exists; split; intros [z [Hi Hz]]; exists z; (split; [exact Hi|]); apply Qeq_bool_iff; exact Hz.
  - rewrite andb_true_iff, !Qle_bool_iff. tauto.
  - rewrite !andb_true_iff, is_intb_spec, !Z.leb_le. split.
    + intros [[[z Hz] H1] H2]. exists z. rewrite (Qfloor_of_int _ _ Hz) in H1, H2. auto.
    + intros [z [Hz [H1 H2]]]. rewrite (Qfloor_of_int _ _ Hz). split; [split; [exists z; exact Hz|exact H1]|exact H2].
Qed.

(* C01_admissibleb_spec of DESIGN Appendix A; stated in Props as C09_admissibleb_spec *)
Theorem admissibleb_spec d p : admissibleb d p = true <-> Admissible d p.
Proof.
  unfold admissibleb, Admissible. rewrite andb_true_iff, (forall2b_spec _ _ in_componentb_spec), forallb_forall, Forall_forall.
  split; intros [H1 H2]; (split; [exact H1|]); intros c Hc; apply Qle_bool_iff, H2, Hc.
Qed.
