(* Proofs about the live-object model of ContinuousDomain (Model/DomainHist.v), C08 over histories.  The invariant `coherent`
   (the stored half-spaces and unconstrained indices are those of the latest constraint list) holds after every history;
   under it each query answers as a freshly built domain would, so the theorems of Restrict.v carry over. *)
From Coq Require Import List Qabs Lia.
From LV Require Import Model.Restrict Model.Samplers Model.DomainHist Proofs.Restrict.
Import ListNotations.
Open Scope Q_scope.

(* The stored fields are those of the latest set *)
Definition coherent (s : dstate) : Prop :=
  s_hs s = stored_hs (s_bounds s) (s_cons s) /\ s_uncon s = stored_uncon (s_bounds s) (s_cons s).

Lemma coherent_fresh bs : coherent (dfresh bs).
Proof. split; reflexivity. Qed.

Lemma latest_cons_step o : forall r cur, latest_cons cur (o :: r) = latest_cons (latest_cons cur [o]) r.
Proof. intros r cur. destruct o; reflexivity. Qed.

(* one operation keeps the box, leaves as constraint list the one it sets (if it sets one), and stores the fields of that list *)
Lemma dstep_state s o :
  s_bounds (fst (dstep s o)) = s_bounds s /\ s_cons (fst (dstep s o)) = latest_cons (s_cons s) [o] /\
  (coherent s -> coherent (fst (dstep s o))).
Proof.
  destruct o; simpl;
    [destruct cs| |destruct (restrict_points_st s vp on us ps)| | | | |destruct (s_constrained s); [destruct (s_force s)|]];
    (split; [reflexivity|split; [reflexivity|]]).
  1, 2: intros _; split; reflexivity.
  all: exact (fun H => H).
Qed.

Lemma drun_state : forall ops s,
  s_bounds (drun s ops) = s_bounds s /\ s_cons (drun s ops) = latest_cons (s_cons s) ops /\
  (coherent s -> coherent (drun s ops)).
Proof.
  induction ops as [|o r IH]; intros s; [split; [reflexivity|split; [reflexivity|exact (fun H => H)]]|].
  destruct (dstep_state s o) as (Hb & Hc & Hk), (IH (fst (dstep s o))) as (Hb' & Hc' & Hk').
  cbn [drun]. rewrite Hb', Hb, Hc', Hc. split; [reflexivity|]. split; [symmetry; apply latest_cons_step|auto].
Qed.

Lemma dtrace_nth : forall pre s o post,
  nth (length pre) (dtrace s (pre ++ o :: post)) ONone = snd (dstep (drun s pre) o).
Proof.
  induction pre as [|p pre IH]; intros s o post; simpl.
  - destruct (dstep s o); reflexivity.
  - destruct (dstep s p) as [s' out] eqn:E. simpl. rewrite IH.
    change s' with (fst (s', out)). rewrite <- E. reflexivity.
Qed.

Theorem history_stored_fields bs ops :
  let s := drun (dfresh bs) ops in
  s_bounds s = bs /\ s_cons s = latest_cons [] ops /\
  s_hs s = stored_hs bs (latest_cons [] ops) /\ s_uncon s = stored_uncon bs (latest_cons [] ops).
Proof.
  cbv zeta. destruct (drun_state ops (dfresh bs)) as (Hb & Hc & Hk). destruct (Hk (coherent_fresh bs)) as [H1 H2].
  rewrite Hb, Hc in H1, H2. repeat split; assumption.
Qed.

Lemma nnz_app a b : nnz (a ++ b) = (nnz a + nnz b)%nat.
Proof. unfold nnz. rewrite filter_app, app_length. reflexivity. Qed.

Lemma column_app j a b : column j (a ++ b) = column j a ++ column j b.
Proof. unfold column. apply map_app. Qed.

Lemma unit_entry (v : Q) pre k j : nth j (repeat 0 pre ++ v :: repeat 0 k) 0 = if Nat.eqb j pre then v else 0.
Proof.
  revert j. induction pre as [|pre IH]; intros j; simpl.
  - destruct j as [|j]; simpl; [reflexivity|apply nth_repeat].
  - destruct j as [|j]; simpl; [reflexivity|apply IH].
Qed.

Lemma nnz_cons_cell (x : Q) l : nnz (x :: l) = ((if Qeq_bool x 0 then 0 else 1) + nnz l)%nat.
Proof. unfold nnz. simpl. destruct (Qeq_bool x 0); reflexivity. Qed.

(* rows that carry one non-zero entry v each, on the diagonal starting at column pre: a column left of the diagonal meets none
   of them, a column under the diagonal exactly one *)
Lemma unit_rows_column (v : Q) (rhs : Q * Q -> Q) (rows : nat -> list (Q * Q) -> list halfspace) :
  Qeq_bool v 0 = false -> (forall pre, rows pre [] = []) ->
  (forall pre b bs, rows pre (b :: bs) = (repeat 0 pre ++ v :: repeat 0 (length bs), rhs b) :: rows (S pre) bs) ->
  forall bs pre j, ((j < pre)%nat -> nnz (column j (rows pre bs)) = 0%nat) /\
                   ((pre <= j < pre + length bs)%nat -> nnz (column j (rows pre bs)) = 1%nat).
Proof.
  intros Hv Hnil Hcons. induction bs as [|b bs IH]; intros pre j.
  - rewrite Hnil. simpl. split; [reflexivity|lia].
  - rewrite Hcons. unfold column in *. cbn [map]. rewrite nnz_cons_cell. cbn [fst length]. rewrite unit_entry.
    destruct (IH (S pre) j) as [IH0 IH1]. destruct (Nat.eqb_spec j pre) as [->|Hne].
    + rewrite Hv, (IH0 (Nat.lt_succ_diag_r pre)). split; [intro H; destruct (Nat.lt_irrefl _ H)|reflexivity].
    + split; intro Hj; [apply IH0, Nat.lt_lt_succ_r, Hj|apply IH1; lia].
Qed.
Lemma lower_column bs j : (j < length bs)%nat -> nnz (column j (lower_rows 0 bs)) = 1%nat.
Proof. intro Hj. apply (unit_rows_column (-(1)) (fun b => - fst b) lower_rows); [reflexivity..|lia]. Qed.
Lemma upper_column bs j : (j < length bs)%nat -> nnz (column j (upper_rows 0 bs)) = 1%nat.
Proof. intro Hj. apply (unit_rows_column 1 snd upper_rows); [reflexivity..|lia]. Qed.

Lemma Qeq_bool_opp x : Qeq_bool (- x) 0 = Qeq_bool x 0.
Proof.
  destruct (Qeq_bool x 0) eqn:E.
  - apply Qeq_bool_iff in E. apply Qeq_bool_iff. rewrite E. reflexivity.
  - apply Qeq_bool_neq in E. destruct (Qeq_bool (- x) 0) eqn:F; [|reflexivity].
    apply Qeq_bool_iff in F. exfalso. apply E. rewrite <- (Qopp_involutive x), F. reflexivity.
Qed.

Lemma cons_column j : forall cs : list (point * Q),
  Nat.eqb (nnz (column j (map (fun c => (map Qopp (fst c), - snd c)) cs))) 0 =
  forallb (fun c => Qeq_bool (nth j (fst c) 0) 0) cs.
Proof.
  induction cs as [|c cs IH]; [reflexivity|].
  unfold column in *. simpl map. rewrite nnz_cons_cell. simpl fst. simpl forallb.
  change 0 with (Qopp 0) at 1. rewrite map_nth, Qeq_bool_opp.
  destruct (Qeq_bool (nth j (fst c) 0) 0); simpl; [exact IH|reflexivity].
Qed.

(* a column of the box meets one lower and one upper bound row: its count is 2 exactly when no constraint row mentions it *)
Lemma infer_is_free bs cs : infer_uncon (length bs) (halfspaces (Dom bs cs)) = free_columns bs cs.
Proof.
  unfold infer_uncon, free_columns. apply filter_ext_in. intros j Hj. apply in_seq in Hj.
  unfold halfspaces, cons_rows. simpl bounds. simpl cstrs.
  rewrite !column_app, !nnz_app, lower_column, upper_column by lia.
  rewrite <- cons_column. set (a := nnz _). destruct a as [|a]; [reflexivity|]. apply Nat.eqb_neq. lia.
Qed.

Lemma stored_uncon_free bs cs : stored_uncon bs cs = free_columns bs cs.
Proof.
  destruct cs as [|c cs]; [|apply infer_is_free].
  unfold stored_uncon, free_columns. simpl. induction (seq 0 (length bs)); simpl; congruence.
Qed.

(* which indices the inference lists: exactly the coordinates of the box that every constraint gives weight zero *)
Theorem uncon_indices_spec bs cs j :
  In j (stored_uncon bs cs) <-> (j < length bs)%nat /\ forall c, In c cs -> nth j (fst c) 0 == 0.
Proof.
  rewrite stored_uncon_free. unfold free_columns. split.
  - intro H. apply filter_In in H. destruct H as [H1 H2]. apply in_seq in H1. split; [lia|].
    intros c Hc. apply Qeq_bool_iff. exact (proj1 (forallb_forall _ _) H2 c Hc).
  - intros [H1 H2]. apply filter_In. split; [apply in_seq; lia|].
    apply forallb_forall. intros c Hc. apply Qeq_bool_iff, H2, Hc.
Qed.

Lemma constrained_dom s : is_constrained (dom_of s) = s_constrained s.
Proof. reflexivity. Qed.

Lemma stored_hs_constrained s : coherent s -> s_constrained s = true -> s_hs s = halfspaces (dom_of s).
Proof.
  intros [H _] Hc. rewrite H. unfold stored_hs, dom_of. unfold s_constrained in Hc. destruct (s_cons s); [discriminate|reflexivity].
Qed.

Lemma acceptable_fresh s x : coherent s -> acceptable_st s x = acceptable (dom_of s) x.
Proof.
  intros H. unfold acceptable_st, acceptable. rewrite constrained_dom. simpl bounds.
  destruct (s_constrained s) eqn:E; [|reflexivity]. rewrite (stored_hs_constrained s H E). reflexivity.
Qed.

Lemma select_viable_fresh s vp : coherent s -> s_constrained s = true ->
  select_viable_st s vp = select_viable (dom_of s) (s_centre s) vp.
Proof.
  intros H E. unfold select_viable_st, select_viable. destruct vp as [v|]; [|reflexivity].
  rewrite (acceptable_fresh s v H). unfold on_boundary_st, on_boundary. rewrite (stored_hs_constrained s H E). reflexivity.
Qed.

Lemma restrict_fresh s vp on us ps : coherent s ->
  restrict_points_st s vp on us ps = restrict_points (dom_of s) (s_centre s) vp on us ps.
Proof.
  intros H. unfold restrict_points_st, restrict_points. rewrite constrained_dom. simpl bounds.
  destruct (s_constrained s) eqn:E; [|reflexivity].
  rewrite (select_viable_fresh s vp H E), (stored_hs_constrained s H E). reflexivity.
Qed.

Lemma near_fresh s pt on zs us : coherent s -> near_point_st s pt on zs us = near_point (dom_of s) (s_centre s) pt on zs us.
Proof.
  intros H. unfold near_point_st, near_point. rewrite (acceptable_fresh s pt H), restrict_fresh by exact H. reflexivity.
Qed.

Lemma existsb_eqb_In j l : existsb (Nat.eqb j) l = true <-> In j l.
Proof.
  rewrite existsb_exists. split; [intros [x [Hx E]]; apply Nat.eqb_eq in E; subst; exact Hx|].
  intros Hj. exists j. split; [exact Hj|apply Nat.eqb_refl].
Qed.

(* membership in the inferred list is the column test itself *)
Lemma infer_uncon_mem j dim hs : (j < dim)%nat -> existsb (Nat.eqb j) (infer_uncon dim hs) = Nat.eqb (nnz (column j hs)) 2.
Proof.
  intro Hj. apply eq_true_iff_eq. unfold infer_uncon. rewrite existsb_eqb_In, filter_In, in_seq.
  split; [intros [_ H]; exact H|intro H; split; [lia|exact H]].
Qed.

Lemma forallb_ext {A} (f g : A -> bool) : (forall x, f x = g x) -> forall l, forallb f l = forallb g l.
Proof. intros H. induction l as [|a l IH]; simpl; [reflexivity|]. rewrite H, IH. reflexivity. Qed.

Lemma fixed_ok_fresh s fixed : coherent s -> fixed_ok_st s fixed = fixed_ok (dom_of s) fixed.
Proof.
  intros [_ H2]. unfold fixed_ok_st, fixed_ok. revert fixed. apply forallb_ext. intros iv. rewrite constrained_dom. simpl bounds. unfold s_dim.
  destruct (Nat.ltb (fst iv) (length (s_bounds s))) eqn:L; [|reflexivity]. f_equal.
  destruct (s_constrained s) eqn:E; [|reflexivity]. simpl.
  rewrite H2. unfold stored_uncon, dom_of. unfold s_constrained in E. destruct (s_cons s); [discriminate|].
  apply infer_uncon_mem, Nat.ltb_lt, L.
Qed.

(* every query answers as a freshly built domain would *)
Theorem query_is_fresh s o : coherent s -> is_query o = true -> snd (dstep s o) = fresh_out (dom_of s) (s_centre s) o.
Proof.
  intros H Q. destruct o; try discriminate; simpl.
  - rewrite (restrict_fresh s vp on us ps H). destruct (restrict_points _ _ _ _ _ _); reflexivity.
  - rewrite (near_fresh s pt on zs us H). reflexivity.
  - rewrite (acceptable_fresh s x H). reflexivity.
  - destruct H as [_ H2]. rewrite H2, stored_uncon_free. reflexivity.
  - rewrite (fixed_ok_fresh s fixed H). reflexivity.
Qed.

Theorem query_reads_only s o : is_query o = true -> fst (dstep s o) = s.
Proof.
  intros Q. destruct o; try discriminate; simpl; try reflexivity.
  destruct (restrict_points_st s vp on us ps); reflexivity.
Qed.

(* the headline: after ANY history on one object, a query returns what a freshly built domain returns whose constraint list is
   the one the history's latest set_constraint_list handed over (and whose centre is the one found for it) *)
Theorem history_query_is_fresh bs pre o post : is_query o = true ->
  let s := drun (dfresh bs) pre in
  nth (length pre) (dtrace (dfresh bs) (pre ++ o :: post)) ONone = fresh_out (Dom bs (latest_cons [] pre)) (s_centre s) o.
Proof.
  intros Q. cbv zeta. rewrite dtrace_nth.
  destruct (drun_state pre (dfresh bs)) as (Hb & Hc & Hk).
  rewrite (query_is_fresh _ o (Hk (coherent_fresh bs)) Q). unfold dom_of. rewrite Hb, Hc. reflexivity.
Qed.

Theorem history_restrict_feasible s vp on us ps : coherent s ->
  interior (dom_of s) (s_centre s) -> Forall (fun p => length p = s_dim s) ps -> Forall unit_interval us ->
  (forall h, In h (cons_rows (dom_of s)) -> (2 <= nnz (fst h))%nat) ->
  exists m used, snd (dstep s (DRestrict vp on us ps)) = OPts m used /\ length m = length ps /\ Forall (feasible (dom_of s)) m.
Proof.
  intros H Hi Hps Hus Hnz. simpl. rewrite (restrict_fresh s vp on us ps H).
  pose proof (restrict_points_feasible (dom_of s) (s_centre s) vp on us ps Hi Hps Hus Hnz) as F.
  destruct (restrict_points (dom_of s) (s_centre s) vp on us ps) as [m rest].
  exists m, (length us - length rest)%nat. split; [reflexivity|exact F].
Qed.

Theorem history_near_feasible s pt on zs us m : coherent s ->
  interior (dom_of s) (s_centre s) -> Forall (fun z => length z = s_dim s) zs -> Forall unit_interval us ->
  (forall h, In h (cons_rows (dom_of s)) -> (2 <= nnz (fst h))%nat) ->
  snd (dstep s (DNear pt on zs us)) = ONear (Some m) -> length m = length zs /\ Forall (feasible (dom_of s)) m.
Proof.
  intros H Hi Hzs Hus Hnz. simpl. rewrite (near_fresh s pt on zs us H).
  destruct (near_point (dom_of s) (s_centre s) pt on zs us) as [[out rest]|] eqn:N; simpl; [|discriminate].
  intros X. injection X as <-. apply (near_point_in_domain _ _ _ _ _ _ _ _ Hi Hus Hzs Hnz N).
Qed.

(* a fixed-coordinate wrapper the domain accepts fixes only coordinates that no constraint of the latest set mentions *)
Theorem fixed_accepted_is_valid s fixed : coherent s -> fixed_ok_st s fixed = true -> fixed_valid (dom_of s) fixed.
Proof.
  intros H F iv Hin. unfold fixed_ok_st in F. rewrite forallb_forall in F. specialize (F iv Hin).
  apply andb_true_iff in F. destruct F as [F F3]. apply andb_true_iff in F. destruct F as [F1 F2].
  apply Nat.ltb_lt in F1. apply andb_true_iff in F2. destruct F2 as [Fa Fb]. apply Qle_bool_iff in Fa, Fb.
  simpl bounds. simpl cstrs. split; [exact F1|]. split; [split; assumption|].
  destruct (s_constrained s) eqn:E; simpl in F3.
  - apply existsb_eqb_In in F3. destruct H as [_ H2]. rewrite H2 in F3. apply uncon_indices_spec in F3. apply F3.
  - unfold s_constrained in E. destruct (s_cons s); [intros c []|discriminate].
Qed.

Lemma Forall_map2 {A B C} (P : C -> Prop) (f : A -> B -> C) : forall l1 l2,
  (forall a b, In a l1 -> In b l2 -> P (f a b)) -> Forall P (map2 f l1 l2).
Proof.
  induction l1 as [|a l1 IH]; intros [|b l2] H; simpl; try constructor.
  - apply H; left; reflexivity.
  - apply IH. intros a' b' Ha Hb. apply H; right; assumption.
Qed.

Lemma combine_sub_bounds bs : forall idx vals, Forall2 (fun b x => fst b <= x <= snd b) (map (fun j => nth j bs (0, 0)) idx) vals ->
  forall iv, In iv (combine idx vals) -> fst (nth (fst iv) bs (0, 0)) <= snd iv <= snd (nth (fst iv) bs (0, 0)).
Proof.
  induction idx as [|j idx IH]; intros vals F iv Hin; [destruct Hin|].
  destruct vals as [|x vals]; [destruct Hin|]. simpl in F. inversion F; subst. destruct Hin as [<-|Hin]; [assumption|].
  apply (IH vals); assumption.
Qed.

(* the sampling entry point: whatever the sampler it calls returns - provided it keeps the contract of C08's sampler theorems for
   the half-space system it was HANDED - comes back as points of the region of the latest constraints *)
Theorem history_sample_feasible s n raw ok vals : coherent s -> s_constrained s = true ->
  Forall (fun p => length p = s_dim s /\ sat_all (s_hs s) p) raw ->
  Forall (in_box (sub_bounds s)) vals ->
  exists forced x0 box out, snd (dstep s (DSample n raw ok vals)) = OSample forced (halfspaces (dom_of s)) x0 box out /\
                            Forall (feasible (dom_of s)) out.
Proof.
  intros H E Hraw Hvals. simpl. rewrite E. rewrite <- (stored_hs_constrained s H E).
  assert (Fraw : Forall (feasible (dom_of s)) raw).
  { eapply Forall_impl; [|exact Hraw]. intros p [L S].
    rewrite (stored_hs_constrained s H E) in S. apply halfspaces_sat_iff; assumption. }
  destruct (s_force s).
  - eexists _, _, _, _. split; [reflexivity|]. apply Forall_map2. intros p v Hp Hv.
    unfold overwrite_st. apply fixed_point_feasible; [|rewrite Forall_forall in Fraw; apply Fraw, Hp].
    intros iv Hin. rewrite Forall_forall in Hvals. specialize (Hvals v Hv). unfold in_box, sub_bounds in Hvals.
    pose proof (combine_sub_bounds (s_bounds s) (s_uncon s) v Hvals iv Hin) as Hb.
    assert (Hj : In (fst iv) (s_uncon s)) by (destruct iv as [j x]; apply (in_combine_l _ _ _ _ Hin)).
    destruct H as [_ H2]. rewrite H2 in Hj. apply uncon_indices_spec in Hj. destruct Hj as [Hj Hz].
    simpl bounds. simpl cstrs. split; [exact Hj|]. split; [exact Hb|exact Hz].
  - eexists _, _, _, _. split; [reflexivity|]. exact Fraw.
Qed.
