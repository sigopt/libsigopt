(* C01: every suggested point is a feasible, well-formed configuration.  Composition of the C09 decode theorems and the
   C10 sampling theorems over the endpoint tails of Model/EndpointTail.v. *)
From Coq Require Import Qround Qabs SetoidList Lia Lqa.
From LV Require Import Model.Domain Model.Decode Proofs.Domain Proofs.Decode Model.EndpointTail.
From LV Require Model.Distinct Proofs.Distinct Proofs.DecodeTask.
Import ListNotations.
Open Scope Q_scope.

Module DP := LV.Proofs.Distinct.

(* what the optimisers / one-hot samplers deliver:
   a point of the relaxed box that satisfies the double-typed constraints (conclusion of C07 / C08) *)
Definition relaxed_ok (d : domain) (x : row) : Prop := in_box (one_hot_box d) x /\ sat_double_cons d x.

Lemma obind_some {A B} (o : option A) (f : A -> option B) y : obind o f = Some y -> exists a, o = Some a /\ f a = Some y.
Proof. destruct o as [a|]; [|discriminate]. intros H. exists a. split; [reflexivity|exact H]. Qed.

(* keeps cs x y: y lies in the relaxed box and every double-typed weighted sum has the value it has at x.  The snapping of
   the decode and every rounding and lattice of the neighbour search move a point in this way, coordinate by coordinate:
   a scalar component stays in its range, and is not touched at all if it is a double; a categorical block stays in [0,1]. *)
Definition keeps (cs : list component) (x y : row) : Prop :=
  in_box (flat_map box_of cs) y /\
  forall w, forall2b (weight_ok CDouble) w cs = true -> dot (oh_weights cs w) y == dot (oh_weights cs w) x.

Lemma keeps_refl cs x : in_box (flat_map box_of cs) x -> keeps cs x x.
Proof. intros H. split; [exact H|reflexivity]. Qed.
Lemma keeps_trans cs x y z : keeps cs x y -> keeps cs y z -> keeps cs x z.
Proof. intros [A B] [C D]. split; [exact C|]. intros w Hw. rewrite (D w Hw). apply B. exact Hw. Qed.
Lemma keeps_then cs f x y : (forall z, in_box (flat_map box_of cs) z -> keeps cs z (f z)) -> keeps cs x y -> keeps cs x (f y).
Proof. intros Hf K. exact (keeps_trans cs x y (f y) K (Hf y (proj1 K))). Qed.
Lemma keeps_nil : keeps [] [] [].
Proof. split; [constructor|]. intros w _. destruct w; reflexivity. Qed.
Lemma keeps_scalar c cs v o t t' : is_cat c = false -> keeps cs t t' ->
  (match box_of c with [lh] => fst lh <= o /\ o <= snd lh | _ => False end) ->
  (match c with Double _ _ => o = v | _ => True end) -> keeps (c :: cs) (v :: t) (o :: t').
Proof.
  intros Hc [A B] Ho Hd. split.
  - destruct c; try discriminate; cbn [flat_map box_of app] in *; constructor; assumption.
  - intros w Hw. apply forall2b_cons_r in Hw as (a & w' & -> & Ha & Hw).
    destruct c as [lo hi|lo hi|es|es]; try discriminate; cbn [oh_weights dot]; (apply Qplus_comp; [|exact (B w' Hw)]).
    + rewrite Hd. reflexivity.
    + destruct (weight_ok_spec _ _ _ Ha) as [Hz|[]]. rewrite Hz. lra.
    + lra.
Qed.
Lemma keeps_same c cs v t t' : is_cat c = false -> keeps cs t t' ->
  (match box_of c with [lh] => fst lh <= v /\ v <= snd lh | _ => False end) -> keeps (c :: cs) (v :: t) (v :: t').
Proof. intros Hc K Hv. apply keeps_scalar; [exact Hc|exact K|exact Hv|destruct c; trivial]. Qed.
Lemma dot_zeros_app n a (x1 x2 : row) : length x1 = n -> dot (repeat 0 n ++ a) (x1 ++ x2) == dot a x2.
Proof. intros Hl. rewrite dot_repeat0 by (rewrite app_length; lia). rewrite (skipn_app_len _ _ _ Hl). reflexivity. Qed.
Lemma keeps_cat es cs (x1 b x2 y2 : row) : length x1 = length es -> in_box (repeat (0, 1) (length es)) b ->
  keeps cs x2 y2 -> keeps (Cat es :: cs) (x1 ++ x2) (b ++ y2).
Proof.
  intros Hl Hb [A B]. pose proof (Forall2_len _ _ _ Hb) as Hlb. rewrite repeat_length in Hlb. split.
  - cbn [flat_map box_of]. apply Forall2_app; assumption.
  - intros w Hw. apply forall2b_cons_r in Hw as (a & w' & -> & _ & Hw).
    cbn [oh_weights]. rewrite !dot_zeros_app by auto. apply B. exact Hw.
Qed.

(* the relaxed box read component by component: a scalar component owns one coordinate, a categorical one a block *)
Lemma box_comps_ind (P : list component -> row -> Prop) :
  P [] [] ->
  (forall c cs v t, is_cat c = false -> (match box_of c with [lh] => fst lh <= v /\ v <= snd lh | _ => False end) ->
     P cs t -> P (c :: cs) (v :: t)) ->
  (forall es cs x1 x2, length x1 = length es -> in_box (repeat (0, 1) (length es)) x1 -> P cs x2 -> P (Cat es :: cs) (x1 ++ x2)) ->
  forall cs x, in_box (flat_map box_of cs) x -> P cs x.
Proof.
  intros Hnil Hsc Hcat. induction cs as [|c cs IH]; intros x Hb.
  - inversion Hb. exact Hnil.
  - destruct c as [lo hi|lo hi|es|es].
    3: { cbn [flat_map box_of] in Hb. apply Forall2_app_inv_l in Hb as (x1 & x2 & H1 & H2 & ->).
         apply Hcat; [|exact H1|apply IH, H2]. rewrite <- (Forall2_len _ _ _ H1). apply repeat_length. }
    all: cbn [flat_map box_of app] in Hb; inversion Hb as [|lh v bs t Hv Ht]; subst;
      apply Hsc; [reflexivity|exact Hv|apply IH, Ht].
Qed.

Lemma floor_ceil_range (lo hi : Z) v o : inject_Z lo <= v /\ v <= inject_Z hi ->
  o = inject_Z (Qfloor v) \/ o = inject_Z (Qceiling v) -> inject_Z lo <= o /\ o <= inject_Z hi.
Proof. intros [H1 H2] Ho. destruct (floor_ceil_in_range lo hi v H1 H2) as [F C]. destruct Ho as [->| ->]; assumption. Qed.
Lemma nbr_cons b m v t r : nbr_of (b :: m) (v :: t) r ->
  exists o r', r = o :: r' /\ (if b then o = inject_Z (Qfloor v) \/ o = inject_Z (Qceiling v) else o = v) /\ nbr_of m t r'.
Proof. destruct b, r as [|o r']; simpl; try contradiction; intros [Ho Hn]; eauto. Qed.
Lemma nbr_false_prefix n (x1 : row) m x2 r : length x1 = n ->
  nbr_of (repeat false n ++ m) (x1 ++ x2) r -> exists r2, r = x1 ++ r2 /\ nbr_of m x2 r2.
Proof.
  intros Hl H. apply nbr_of_false_prefix in H; [|rewrite app_length; lia].
  rewrite (firstn_app_len _ _ _ Hl), (skipn_app_len _ _ _ Hl) in H. exact H.
Qed.

Lemma any_nonzero_false ws w : any_nonzero ws = false -> In w ws -> hd 0 w == 0.
Proof.
  induction ws as [|w0 ws IH]; simpl; [tauto|]. rewrite orb_false_iff, negb_false_iff. intros [H1 H2] [->|Hw].
  - apply Qeq_bool_iff. exact H1.
  - apply IH; assumption.
Qed.
(* a neighbour over the mask of the int constraints is integral wherever an int constraint has a non-zero weight *)
Lemma cmask_nbr : forall cs x, in_box (flat_map box_of cs) x -> forall ws r,
  Forall (fun w => forall2b (weight_ok CInt) w cs = true) ws -> nbr_of (cmask cs ws) x r ->
  keeps cs x r /\ forall w, In w ws -> unmoved CInt cs w r.
Proof.
  intros cs x Hb. pattern cs, x. revert cs x Hb. apply box_comps_ind; cbv beta.
  - intros ws r _ Hn. simpl in Hn. subst r. split; [exact keeps_nil|]. intros w _. destruct w; exact I.
  - intros c cs v t Hc Hv IH ws r Hws Hn.
    rewrite (cmask_scalar c cs ws Hc) in Hn. apply nbr_cons in Hn as (o & r' & -> & Ho & Hn).
    destruct (IH _ _ (tl_weight_ok c cs ws Hws) Hn) as [K U]. pose proof (any_nonzero_int c cs ws Hws) as Hint.
    rewrite Forall_forall in Hws.
    assert (Hu : forall a w', In (a :: w') ws -> unmoved CInt cs w' r') by (intros a w' Hw; exact (U w' (in_map (@tl Q) ws (a :: w') Hw))).
    destruct (any_nonzero ws) eqn:E.
    + (* some int constraint weighs this coordinate: the component is an int *)
      specialize (Hint eq_refl). destruct c as [?|lo hi|?|?]; try discriminate. split.
      * apply keeps_scalar; [reflexivity|exact K|exact (floor_ceil_range lo hi v o Hv Ho)|exact I].
      * intros w Hw. destruct (forall2b_cons_r _ _ _ _ (Hws w Hw)) as (a & w' & -> & _).
        split; [right; destruct Ho as [->| ->]; eexists; reflexivity|exact (Hu a w' Hw)].
    + subst o. split; [apply keeps_same; assumption|].
      intros w Hw. destruct (forall2b_cons_r _ _ _ _ (Hws w Hw)) as (a & w' & -> & _).
      pose proof (any_nonzero_false ws _ E Hw) as Hz.
      destruct c; try discriminate; cbn [unmoved tl]; [|split; [left; exact Hz|]|]; exact (Hu a w' Hw).
  - intros es cs x1 x2 Hl H1 IH ws r Hws Hn. cbn [cmask] in Hn. apply (nbr_false_prefix _ _ _ _ _ Hl) in Hn as (r2 & -> & Hn).
    destruct (IH _ _ (tl_weight_ok _ cs ws Hws) Hn) as [K U]. split; [apply keeps_cat; assumption|].
    rewrite Forall_forall in Hws. intros w Hw. destruct (forall2b_cons_r _ _ _ _ (Hws w Hw)) as (a & w' & -> & _).
    cbn [unmoved]. rewrite (skipn_app_len _ _ _ Hl). exact (U w' (in_map (@tl Q) ws (a :: w') Hw)).
Qed.

Lemma unit_vec_box n k : in_box (repeat (0, 1) n) (unit_vec n k).
Proof.
  unfold unit_vec. generalize 0%nat. induction n as [|n IH]; intros s; simpl; constructor.
  - simpl. destruct (Nat.eqb s k); split; lra.
  - apply IH.
Qed.
Lemma grid_range es e : In e es -> list_min es <= e /\ e <= list_max es.
Proof. intros H. split; [apply DecodeTask.list_min_lower|apply DecodeTask.list_max_upper]; exact H. Qed.

Lemma round_int_keeps : forall cs x, in_box (flat_map box_of cs) x -> keeps cs x (round_int_row cs x).
Proof.
  apply box_comps_ind.
  - exact keeps_nil.
  - intros c cs v t Hc Hv IH. destruct c as [lo hi|lo hi|es|es]; try discriminate; cbn [round_int_row].
    2: { apply keeps_scalar; [reflexivity|exact IH| |exact I].
         destruct (round_in_range v lo hi (proj1 Hv) (proj2 Hv)). simpl. rewrite <- !Zle_Qle. split; assumption. }
    all: apply keeps_same; [reflexivity|exact IH|exact Hv].
  - intros es cs x1 x2 Hl H1 IH. cbn [round_int_row]. rewrite (firstn_app_len _ _ _ Hl), (skipn_app_len _ _ _ Hl).
    apply keeps_cat; assumption.
Qed.
Lemma round_grid_keeps cs : Forall (fun c => wf_component c = true) cs ->
  forall x, in_box (flat_map box_of cs) x -> keeps cs x (round_grid_row cs x).
Proof.
  intros Hwf x Hb. revert Hwf. pattern cs, x. revert cs x Hb. apply box_comps_ind; cbv beta.
  - intros _. exact keeps_nil.
  - intros c cs v t Hc Hv IH Hwf. inversion Hwf as [|? ? Hwc Hwcs]; subst. specialize (IH Hwcs).
    destruct c as [lo hi|lo hi|es|es]; try discriminate; cbn [round_grid_row].
    3: { apply keeps_scalar; [reflexivity|exact IH| |exact I]. apply grid_range, nearest_In, wf_grid_nonempty, Hwc. }
    all: apply keeps_same; [reflexivity|exact IH|exact Hv].
  - intros es cs x1 x2 Hl H1 IH Hwf. inversion Hwf; subst. cbn [round_grid_row].
    rewrite (firstn_app_len _ _ _ Hl), (skipn_app_len _ _ _ Hl). apply keeps_cat; auto.
Qed.
Lemma round_cat_keeps : forall cs x, in_box (flat_map box_of cs) x -> keeps cs x (round_cat_row cs x).
Proof.
  apply box_comps_ind.
  - exact keeps_nil.
  - intros c cs v t Hc Hv IH.
    assert (E : round_cat_row (c :: cs) (v :: t) = v :: round_cat_row cs t) by (destruct c; try discriminate; reflexivity).
    rewrite E. apply keeps_same; assumption.
  - intros es cs x1 x2 Hl H1 IH. cbn [round_cat_row]. rewrite (skipn_app_len _ _ _ Hl).
    apply keeps_cat; [exact Hl|apply unit_vec_box|exact IH].
Qed.
Lemma imask_nbr_keeps : forall cs x, in_box (flat_map box_of cs) x -> forall r, nbr_of (imask cs) x r -> keeps cs x r.
Proof.
  intros cs x Hb. pattern cs, x. revert cs x Hb. apply box_comps_ind; cbv beta.
  - intros r Hn. simpl in Hn. subst r. exact keeps_nil.
  - intros c cs v t Hc Hv IH r Hn.
    assert (Hm : imask (c :: cs) = is_int c :: imask cs) by (destruct c; try discriminate; reflexivity).
    rewrite Hm in Hn. apply nbr_cons in Hn as (o & r' & -> & Ho & Hn). specialize (IH _ Hn).
    destruct c as [lo hi|lo hi|es|es]; try discriminate; cbn [is_int] in Ho.
    2: { apply keeps_scalar; [reflexivity|exact IH|exact (floor_ceil_range lo hi v o Hv Ho)|exact I]. }
    all: subst o; apply keeps_same; [reflexivity|exact IH|exact Hv].
  - intros es cs x1 x2 Hl H1 IH r Hn. cbn [imask] in Hn. apply (nbr_false_prefix _ _ _ _ _ Hl) in Hn as (r2 & -> & Hn).
    apply keeps_cat; [exact Hl|exact H1|apply IH, Hn].
Qed.
Lemma cat_lattice_keeps : forall cs x, in_box (flat_map box_of cs) x -> forall r, In r (cat_lattice cs x) -> keeps cs x r.
Proof.
  intros cs x Hb. pattern cs, x. revert cs x Hb. apply box_comps_ind; cbv beta.
  - intros r [<-|[]]. exact keeps_nil.
  - intros c cs v t Hc Hv IH r Hr.
    assert (E : cat_lattice (c :: cs) (v :: t) = map (Datatypes.cons v) (cat_lattice cs t)) by (destruct c; try discriminate; reflexivity).
    rewrite E in Hr. apply in_map_iff in Hr as (r' & <- & Hr). apply keeps_same; [exact Hc|apply IH, Hr|exact Hv].
  - intros es cs x1 x2 Hl H1 IH r Hr. cbn [cat_lattice] in Hr. rewrite (skipn_app_len _ _ _ Hl) in Hr.
    apply in_flat_map in Hr as (i & _ & Hr). apply in_map_iff in Hr as (r' & <- & Hr).
    apply keeps_cat; [exact Hl|apply unit_vec_box|apply IH, Hr].
Qed.

(* what decode_row_admissible_gen asks of a relaxed row *)
Definition row_good (d : domain) (r : row) : Prop :=
  in_box (one_hot_box d) r /\
  (forall k, In k (cons d) -> rhs k <= dot (oh_weights (comps d) (weights k)) r) /\
  (forall k, In k (cons d) -> unmoved (cty k) (comps d) (weights k) r).

Lemma int_cons_In d k : In k (int_cons d) <-> In k (cons d) /\ cty k = CInt.
Proof. unfold int_cons. rewrite filter_In. destruct (cty k); split; intros [A B]; try discriminate; auto. Qed.
Lemma dbl_cons_In d k : In k (dbl_cons d) <-> In k (cons d) /\ cty k = CDouble.
Proof. unfold dbl_cons. rewrite filter_In. destruct (cty k); split; intros [A B]; try discriminate; auto. Qed.
Lemma sat_double_cons_iff d x : sat_double_cons d x <->
  forall k, In k (cons d) -> cty k = CDouble -> rhs k <= dot (oh_weights (comps d) (weights k)) x.
Proof.
  unfold sat_double_cons. rewrite Forall_forall. split; intros H k.
  - intros Hk Ht. apply H, dbl_cons_In. auto.
  - intros Hk. apply dbl_cons_In in Hk as [Hk Ht]. auto.
Qed.

Lemma snapped_row_good d xs r : wf_domain d = true -> Forall (relaxed_ok d) xs -> snap_ok d xs r -> row_good d r.
Proof.
  intros Hwf Hxs [Hsat (x & Hx & Hn)]. rewrite Forall_forall in Hxs. destruct (Hxs x Hx) as [Hbx Hdx].
  unfold int_mask in Hn.
  assert (Hws : Forall (fun w => forall2b (weight_ok CInt) w (comps d) = true) (map weights (int_cons d))).
  { apply Forall_map, Forall_forall. intros k Hk. apply int_cons_In in Hk as [Hk Ht]. rewrite <- Ht. apply wf_domain_cons; assumption. }
  destruct (cmask_nbr (comps d) x Hbx _ r Hws Hn) as ([A B] & C).
  split; [exact A|]. split; intros k Hk; destruct (cty k) eqn:Ht.
  - rewrite B by (rewrite <- Ht; apply wf_domain_cons; assumption).
    apply (proj1 (sat_double_cons_iff d x) Hdx); assumption.
  - unfold sat_cons in Hsat. rewrite forallb_forall in Hsat. apply Qle_bool_iff. apply Hsat. apply int_cons_In. auto.
  - apply unmoved_double. rewrite <- Ht. apply wf_domain_cons; assumption.
  - apply C. apply in_map. apply int_cons_In. auto.
Qed.
Lemma relaxed_row_good d x : wf_domain d = true -> is_int_constrained d = false -> relaxed_ok d x -> row_good d x.
Proof.
  intros Hwf Hic [Hb Hd]. split; [exact Hb|]. split; intros k Hk; destruct (not_int_constrained d Hic k Hk) as [Ht Hin].
  - apply (proj1 (sat_double_cons_iff d x) Hd); assumption.
  - rewrite Ht. apply unmoved_double. rewrite <- Ht. apply wf_domain_cons; assumption.
Qed.
Lemma row_good_decode {O} (choose : O -> row -> list Z -> option Z) d os r q : choose_member choose -> wf_domain d = true ->
  row_good d r -> decode_gen choose (comps d) os r = Some q -> Admissible d q.
Proof. intros Hch Hwf (A & B & C) H. exact (proj1 (decode_row_admissible_gen choose d os r q Hch Hwf A B C H)). Qed.

Lemma decode_gen_nocat {O} (choose : O -> row -> list Z -> option Z) : forall cs os x,
  has_cat cs = false -> has_grid cs = false -> in_box (flat_map box_of cs) x ->
  decode_gen choose cs os x = Some (round_int_row cs x).
Proof.
  induction cs as [|c cs IH]; intros os x Hc Hg Hb.
  - simpl in Hb. inversion Hb; subst. reflexivity.
  - unfold has_cat, has_grid in *. simpl in Hc, Hg. apply orb_false_iff in Hc as [Hc1 Hc2]. apply orb_false_iff in Hg as [Hg1 Hg2].
    destruct c as [lo hi|lo hi|es|es]; try discriminate;
      cbn [flat_map box_of app] in Hb; inversion Hb as [|bh v bt t Hv Ht]; subst; cbn [decode_gen round_int_row];
      rewrite (IH os t Hc2 Hg2 Ht); reflexivity.
Qed.

Lemma snap_fill_len : forall o p, (length (snap_fill o p) <= length o)%nat.
Proof. induction o as [|[f|] o IH]; intros p; simpl; [lia|specialize (IH p); lia|]. destruct p; [specialize (IH []); lia|specialize (IH p); simpl; lia]. Qed.
Lemma snap_pass_len d n : forall xs rnds perms padding o p, snap_pass d n rnds perms xs padding = (o, p) -> length o = length xs.
Proof.
  induction xs as [|x r IH]; intros rnds perms padding o p H; cbn [snap_pass] in H.
  - injection H as <- <-. reflexivity.
  - destruct (permute (hd [] perms) (feasible_neighbors d (hd [] rnds) x)) as [|f rest].
    + destruct (snap_pass d n (tl rnds) (tl perms) r padding) as [o' p'] eqn:E. injection H as <- <-. simpl. f_equal. eapply IH; exact E.
    + destruct (snap_pass d n (tl rnds) (tl perms) r _) as [o' p'] eqn:E.
      injection H as <- <-. simpl. f_equal. eapply IH; exact E.
Qed.
Lemma snap_feasible_len d rnds perms xs : (length (snap_feasible d rnds perms xs) <= length xs)%nat.
Proof.
  unfold snap_feasible. destruct (snap_pass d (length xs) rnds perms xs []) as [o p] eqn:E.
  rewrite <- (snap_pass_len _ _ _ _ _ _ _ _ E). apply snap_fill_len.
Qed.

Lemma all_some_map {A} : forall (l : list (option A)) ps, Decode.all_some l = Some ps -> l = map Some ps.
Proof.
  induction l as [|[a|] l IH]; intros ps H; simpl in H; [injection H as <-; reflexivity| |discriminate].
  destruct (Decode.all_some l) as [r|]; [|discriminate]. injection H as <-. simpl. rewrite <- (IH r eq_refl). reflexivity.
Qed.
Lemma all_some_In {A} (l : list (option A)) ps p : Decode.all_some l = Some ps -> In p ps -> In (Some p) l.
Proof. intros H Hp. rewrite (all_some_map l ps H). apply in_map, Hp. Qed.
Lemma all_some_len {A} (l : list (option A)) ps : Decode.all_some l = Some ps -> length ps = length l.
Proof. intros H. rewrite (all_some_map l ps H). symmetry. apply map_length. Qed.
Lemma in_combine_snd {A B} : forall (l : list A) (m : list B) a b, In (a, b) (combine l m) -> In b m.
Proof. intros l m a b H. eapply in_combine_r. exact H. Qed.

Theorem decode_batch_admissible {O} (choose : O -> row -> list Z -> option Z) d rnds perms oss xs ps :
  choose_member choose -> wf_domain d = true -> Forall (relaxed_ok d) xs ->
  decode_batch_gen choose d rnds perms oss xs = Some ps -> Forall (Admissible d) ps.
Proof.
  intros Hch Hwf Hxs H. unfold decode_batch_gen in H.
  set (xs' := if is_int_constrained d then snap_feasible d rnds perms xs else xs) in *.
  assert (Hg : Forall (row_good d) xs').
  { unfold xs'. destruct (is_int_constrained d) eqn:Hic.
    - eapply Forall_impl; [|apply int_feasible_snap_sound]. intros r Hr. eapply snapped_row_good; eassumption.
    - eapply Forall_impl; [|exact Hxs]. intros r Hr. apply relaxed_row_good; assumption. }
  destruct (negb (has_cat (comps d) || has_grid (comps d))) eqn:Hcg.
  - injection H as <-. apply negb_true_iff, orb_false_iff in Hcg as [Hc Hgr].
    apply Forall_map. eapply Forall_impl; [|exact Hg]. intros r Hr.
    apply (row_good_decode choose d [] r _ Hch Hwf Hr). apply decode_gen_nocat; [exact Hc|exact Hgr|exact (proj1 Hr)].
  - rewrite Forall_forall in Hg. apply Forall_forall. intros p Hp.
    pose proof (all_some_In _ _ _ H Hp) as Hi. apply in_map_iff in Hi as ([os r] & Hf & Hc). simpl in Hf.
    apply in_combine_r in Hc. eapply row_good_decode; [exact Hch|exact Hwf|apply Hg; exact Hc|exact Hf].
Qed.

(* the decode returns one configuration per relaxed row unless the domain is int-constrained (rows without a feasible
   neighbour are deleted); never more *)
Theorem decode_batch_length {O} (choose : O -> row -> list Z -> option Z) d rnds perms oss xs ps :
  (length xs <= length oss)%nat -> decode_batch_gen choose d rnds perms oss xs = Some ps ->
  (length ps <= length xs)%nat /\ (is_int_constrained d = false -> length ps = length xs).
Proof.
  intros Hl H. unfold decode_batch_gen in H.
  set (xs' := if is_int_constrained d then snap_feasible d rnds perms xs else xs) in *.
  assert (Hx : (length xs' <= length xs)%nat /\ (is_int_constrained d = false -> length xs' = length xs)).
  { unfold xs'. destruct (is_int_constrained d); [split; [apply snap_feasible_len|discriminate]|split; [lia|reflexivity]]. }
  assert (Hp : length ps = length xs').
  { destruct (negb (has_cat (comps d) || has_grid (comps d))).
    - injection H as <-. unfold round_ints. apply map_length.
    - rewrite (all_some_len _ _ H), map_length, combine_length. lia. }
  rewrite Hp. exact Hx.
Qed.

(* the decode as the endpoints call it: the category of each row is given *)
Lemma decode_b_ok d o xs ps : wf_domain d = true -> Forall (relaxed_ok d) xs -> (length xs <= length (o_cats o))%nat ->
  decode_b d o xs = Some ps ->
  Forall (Admissible d) ps /\ (length ps <= length xs)%nat /\ (is_int_constrained d = false -> length ps = length xs).
Proof.
  intros Hwf Hxs Hl H. split.
  - exact (decode_batch_admissible choose_given d _ _ _ xs ps choose_given_member Hwf Hxs H).
  - exact (decode_batch_length choose_given d _ _ _ xs ps Hl H).
Qed.

Lemma neighbours_keep o d x r : wf_domain d = true -> in_box (one_hot_box d) x -> In r (neighbours o d x) -> keeps (comps d) x r.
Proof.
  intros Hwf Hb Hr. unfold one_hot_box in Hb. unfold neighbours in Hr.
  pose proof (round_grid_keeps (comps d) (wf_domain_comps d Hwf)) as G. destruct o.
  - destruct Hr as [<-|[]]. apply keeps_refl. exact Hb.
  - apply in_map_iff in Hr as (r1 & <- & Hr). apply in_map_iff in Hr as (r0 & <- & Hr). apply lattice_spec in Hr.
    exact (keeps_then _ _ _ _ G (keeps_then _ _ _ _ (round_cat_keeps (comps d)) (imask_nbr_keeps _ _ Hb _ Hr))).
  - apply in_map_iff in Hr as (r1 & <- & Hr). apply in_map_iff in Hr as (r0 & <- & Hr).
    exact (keeps_then _ _ _ _ G (keeps_then _ _ _ _ (round_int_keeps (comps d)) (cat_lattice_keeps _ _ Hb _ Hr))).
  - apply in_map_iff in Hr as (r1 & <- & Hr). apply in_flat_map in Hr as (r0 & Hr0 & Hr). apply lattice_spec in Hr0.
    pose proof (imask_nbr_keeps _ _ Hb _ Hr0) as K0. exact (keeps_then _ _ _ _ G (keeps_trans _ _ _ _ K0 (cat_lattice_keeps _ _ (proj1 K0) _ Hr))).
Qed.
Lemma keeps_relaxed d x y : wf_domain d = true -> relaxed_ok d x -> keeps (comps d) x y -> relaxed_ok d y.
Proof.
  intros Hwf [Hb Hs] [A B]. split; [exact A|]. rewrite sat_double_cons_iff in *. intros k Hk Ht.
  rewrite B; [exact (Hs k Hk Ht)|]. rewrite <- Ht. apply wf_domain_cons; assumption.
Qed.
(* find_best_one_hot_neighbor_by_af, for every acquisition function and every option *)
Theorem find_best_relaxed_ok o d af xs : wf_domain d = true -> Forall (relaxed_ok d) xs -> Forall (relaxed_ok d) (find_best o d af xs).
Proof.
  intros Hwf Hxs.
  assert (G : Forall (relaxed_ok d) (map (fun x => best_neighbour af (neighbours o d x) x) xs)).
  { apply Forall_map. eapply Forall_impl; [|exact Hxs]. intros x Hx. unfold best_neighbour.
    destruct (nth_in_or_default (argmax (map af (neighbours o d x))) (neighbours o d x) x) as [Hi | Hd]; [|rewrite Hd; exact Hx].
    eapply keeps_relaxed; [exact Hwf|exact Hx|]. eapply neighbours_keep; [exact Hwf|exact (proj1 Hx)|exact Hi]. }
  unfold find_best. destruct o; [exact Hxs|exact G|exact G|exact G].
Qed.
Lemma find_best_length o d af xs : length (find_best o d af xs) = length xs.
Proof. unfold find_best. destruct o; try reflexivity; apply map_length. Qed.

Lemma in_comp_component c x : DP.in_comp (to_comp c) x <-> in_component c x.
Proof.
  destruct c as [lo hi|lo hi|es|es]; simpl; try reflexivity.
  rewrite InA_alt. split; intros (e & A & B); exists e; tauto.
Qed.
Lemma In_domain_comps d p : DP.In_domain (ddom d) p <-> Forall2 in_component (comps d) p.
Proof.
  unfold DP.In_domain, ddom. generalize (comps d) as cs. intros cs. revert p.
  induction cs as [|c cs IH]; intros p; simpl; split; intros H; inversion H; subst; constructor;
    try (apply in_comp_component; assumption); apply IH; assumption.
Qed.
Lemma unconstrained_cons d : is_constrained d = false -> cons d = [].
Proof. unfold is_constrained. rewrite negb_false_iff, Nat.eqb_eq. destruct (cons d); [reflexivity|discriminate]. Qed.
Lemma unconstrained_adm d p : is_constrained d = false -> DP.In_domain (ddom d) p -> Admissible d p.
Proof. intros Hc H. split; [apply In_domain_comps; exact H|]. rewrite (unconstrained_cons d Hc). constructor. Qed.

(* contract of generate_quasi_random_points_in_domain(n): constrained domain: n rows of the one-hot sampler, each in the
   relaxed box and satisfying the double constraints (C08), one category oracle per row; unconstrained: one column of n draws
   per component, each within the range of the request made for it (C10) *)
Definition qorc_ok (d : domain) (n : Z) (q : qorc) : Prop :=
  if is_constrained d
  then Forall (relaxed_ok d) (q_rows q) /\ length (q_rows q) = Z.to_nat n /\ (length (q_rows q) <= length (o_cats (q_dec q)))%nat
  else DP.cols_ok (Z.to_nat n) (DS.quasi_requests (ddom d)) (q_cols q).

Lemma quasi_random_adm d n cols (ps : list point) : is_constrained d = false -> DP.cols_ok (Z.to_nat n) (DS.quasi_requests (ddom d)) cols ->
  DS.quasi_random n cols = ps -> Forall (Admissible d) ps /\ length ps = Z.to_nat n.
Proof.
  intros Hc H <-. split; [|apply DP.rows_of_length].
  eapply Forall_impl; [|exact (DP.quasi_random_in_domain _ n cols H)]. intros p. apply unconstrained_adm, Hc.
Qed.
Lemma quasi_points_ok d n q ps : wf_domain d = true -> qorc_ok d n q -> quasi_points d n q = Some ps ->
  Forall (Admissible d) ps /\ (length ps <= Z.to_nat n)%nat /\ (is_int_constrained d = false -> length ps = Z.to_nat n).
Proof.
  intros Hwf Hq H. unfold quasi_points, qorc_ok in *. destruct (is_constrained d) eqn:Hc.
  - destruct Hq as (A & B & C). rewrite <- B. exact (decode_b_ok d _ _ ps Hwf A C H).
  - injection H as H. destruct (quasi_random_adm d n _ ps Hc Hq H) as [A B]. split; [exact A|]. rewrite B. split; [lia|reflexivity].
Qed.

Lemma elements_nonempty c : wf_component c = true -> DS.is_discrete1 (to_comp c) = true -> DS.elements (to_comp c) <> [].
Proof.
  destruct c as [lo hi|lo hi|es|es]; simpl; intros Hw Hd; try discriminate.
  - apply Z.ltb_lt in Hw. intros E. apply (f_equal (@length Q)) in E. rewrite map_length in E.
    pose proof (DP.zrange_length lo hi) as L. unfold DS.zlen in L. simpl in E. lia.
  - destruct es; [discriminate|simpl; discriminate].
  - destruct es; discriminate.
Qed.
Lemma index_point_any : forall els, Forall (fun e : list Q => e <> []) els -> forall i,
  Forall2 (fun e x => In x e) els (DS.index_to_point els i).
Proof.
  induction 1 as [|e els He Hels IH]; intros i; cbn [DS.index_to_point]; constructor; [|apply IH].
  apply nth_In. pose proof (Z.mod_pos_bound i (DS.zlen e) (DP.zlen_pos e He)). unfold DS.zlen in *. lia.
Qed.
Lemma discrete_els_nonempty d : wf_domain d = true -> is_discrete d = true -> Forall (fun e : list Q => e <> []) (map DS.elements (ddom d)).
Proof.
  intros Hwf Hd. pose proof (wf_domain_comps d Hwf) as Hc. unfold is_discrete, DS.is_discrete, ddom in *.
  rewrite forallb_forall in Hd. rewrite Forall_forall in *. intros e He. apply in_map_iff in He as (c' & <- & Hc').
  pose proof Hc' as Hc''. apply in_map_iff in Hc' as (c & <- & Hin). apply elements_nonempty; [apply Hc; exact Hin|apply Hd; exact Hc''].
Qed.
Lemma index_point_adm d i : wf_domain d = true -> is_discrete d = true -> is_constrained d = false ->
  Admissible d (DS.index_to_point (map DS.elements (ddom d)) i).
Proof.
  intros Hwf Hd Hc. apply unconstrained_adm; [exact Hc|]. apply DP.in_domain_b_iff.
  apply (DP.elements_inside (ddom d) Hd). apply index_point_any. apply discrete_els_nonempty; assumption.
Qed.

(* contract of the random draws made by generate_distinct_random_points(k, history) *)
Definition fill_contract (d : domain) (k : Z) (hist : list point) (orc : list Z) (q : qorc) : Prop :=
  if negb (is_discrete d) || is_constrained d then qorc_ok d k q
  else DP.cols_ok (Z.to_nat k) (DS.quasi_requests (ddom d)) (q_cols q) /\
       DP.oracle_ok (DS.distinct_plan (ddom d) k hist DS.default_dup_prob) orc.

Lemma enumerate_len els excl t n orc : DP.oracle_ok (DS.enumerate els excl t n) orc ->
  match DS.enumerate els excl t n with
  | DS.PChoice _ _ => DS.zlen orc = n
  | DS.PAll avail _ _ => (DS.zlen (avail ++ orc) = n)%Z
  | DS.PIndexError => True
  | _ => False
  end.
Proof.
  unfold DS.enumerate. destruct (DS.all_some _) as [ex|]; [|exact (fun _ => I)].
  destruct (n <? DS.zlen _)%Z eqn:E; simpl.
  - tauto.
  - intros [A _]. apply Z.ltb_ge in E. rewrite DP.zlen_app, A. lia.
Qed.

Lemma distinct_plan_cases dd k h dp :
  DS.distinct_plan dd k h dp = DS.PEmpty \/ DS.distinct_plan dd k h dp = DS.PRandom k \/
  exists t n, (n <= k)%Z /\
    DS.distinct_plan dd k h dp = DS.enumerate (map DS.elements dd) (DS.dedup_rows (DS.remove_outside dd h)) t n.
Proof.
  unfold DS.distinct_plan. destruct (k =? 0)%Z; [left; reflexivity|].
  destruct (negb (DS.is_discrete dd)); [right; left; reflexivity|].
  set (excl := DS.dedup_rows (DS.remove_outside dd h)). pose proof (DP.zlen_nonneg excl) as Hn.
  unfold DS.analyze. destruct (DS.total_from 1 _) as [t|]; [|right; left; reflexivity].
  destruct (t <? k)%Z eqn:E1; [|destruct (t <? k + _)%Z eqn:E2; [|destruct (Qle_bool _ _); [right; left; reflexivity|]]]; cbv zeta.
  1,2: destruct (_ <=? 0)%Z; [left; reflexivity|]; right; right; exists t, (t - DS.zlen excl)%Z; split; [|reflexivity].
  - apply Z.ltb_lt in E1. lia.
  - apply Z.ltb_lt in E2. lia.
  - right; right. exists t, k. split; [lia|reflexivity].
Qed.

Theorem distinct_pts_ok d k hist orc q fill : wf_domain d = true -> (0 <= k)%Z -> fill_contract d k hist orc q ->
  distinct_pts d k hist orc q = Some fill ->
  Forall (Admissible d) fill /\ (DS.zlen fill <= k)%Z /\
  (is_discrete d = false -> is_int_constrained d = false -> DS.zlen fill = k).
Proof.
  intros Hwf Hk Hc H. unfold distinct_pts, fill_contract in *.
  destruct (k =? 0)%Z eqn:Ek.
  { injection H as <-. apply Z.eqb_eq in Ek. subst k. split; [constructor|]. split; [unfold DS.zlen; simpl; lia|reflexivity]. }
  destruct (negb (is_discrete d) || is_constrained d) eqn:Eb.
  - destruct (quasi_points_ok d k q fill Hwf Hc H) as (A & B & C). split; [exact A|]. unfold DS.zlen. split; [lia|].
    intros _ Hi. rewrite (C Hi). lia.
  - apply orb_false_iff in Eb as [Ed Ec]. apply negb_false_iff in Ed. destruct Hc as [Hcols Horc].
    assert (G : Forall (Admissible d) fill /\ (DS.zlen fill <= k)%Z); [|split; [apply G|split; [apply G|intros Hd; congruence]]].
    unfold DS.distinct_points in H.
    destruct (distinct_plan_cases (ddom d) k hist DS.default_dup_prob) as [E|[E|(t & n & Hn & E)]]; rewrite E in H, Horc.
    + injection H as <-. split; [constructor|exact Hk].
    + injection H as H. destruct (quasi_random_adm d k _ fill Ec Hcols H) as [A B]. split; [exact A|]. unfold DS.zlen. lia.
    + pose proof (enumerate_len _ _ t n orc Horc) as L.
      destruct (DS.enumerate _ _ t n); try contradiction; try discriminate; injection H as <-;
        (split; [|unfold DS.zlen in *; rewrite map_length; lia]);
        apply Forall_map, Forall_forall; intros i _; apply index_point_adm; assumption.
Qed.

Lemma select_incl {A} : forall (m : list bool) (l : list A) x, In x (DS.select m l) -> In x l.
Proof.
  induction m as [|b m IH]; intros [|y l] x H; simpl in H; try contradiction.
  destruct b; [destruct H as [->|H]; [left; reflexivity|right; apply IH; exact H]|right; apply IH; exact H].
Qed.
Lemma identify_unique_sub dd test cmp tol u : DS.identify_unique dd test cmp tol = Some u ->
  incl u test /\ (length u <= length test)%nat.
Proof.
  unfold DS.identify_unique. destruct (DS.all_some (map (DS.enum_point dd) test)); [|discriminate].
  destruct cmp as [c|]; [destruct (DS.all_some (map (DS.enum_point dd) c)); [|discriminate]|]; intros H; injection H as <-;
    (split; [intros x; apply select_incl|apply DP.select_length_le]).
Qed.
Lemma kept_of_sub d pts hist tol u2 : kept_of d pts hist tol = Some u2 -> incl u2 pts /\ (length u2 <= length pts)%nat.
Proof.
  unfold kept_of. destruct (DS.identify_unique (ddom d) pts None tol) as [u1|] eqn:E1; [|discriminate]. intros E2.
  destruct (identify_unique_sub _ _ _ _ _ E1) as [A B]. destruct (identify_unique_sub _ _ _ _ _ E2) as [C D].
  split; [intros x Hx; apply A, C, Hx|unfold point in *; lia].
Qed.

(* replace_duplicate_points: every returned point is one of the proposed points or a fresh in-domain point; the batch size
   is restored unless the domain is fully discrete or int-constrained, and never exceeded *)
Theorem replace_dups_ok d pts hist tol orc q out : wf_domain d = true -> Forall (Admissible d) pts ->
  (forall u2, kept_of d pts hist tol = Some u2 -> fill_contract d (DS.zlen pts - DS.zlen u2) hist orc q) ->
  replace_dups d pts hist tol orc q = Some out ->
  Forall (Admissible d) out /\ (length out <= length pts)%nat /\
  (is_discrete d = false -> is_int_constrained d = false -> length out = length pts).
Proof.
  intros Hwf Hp Hc H. unfold replace_dups in H. destruct (kept_of d pts hist tol) as [u2|] eqn:Ek; [|discriminate].
  destruct (kept_of_sub _ _ _ _ _ Ek) as [Hi Hl].
  destruct (distinct_pts d (DS.zlen pts - DS.zlen u2) hist orc q) as [fill|] eqn:Ef; [|discriminate]. injection H as <-.
  assert (Hk : (0 <= DS.zlen pts - DS.zlen u2)%Z) by (unfold DS.zlen; lia).
  destruct (distinct_pts_ok d _ hist orc q fill Hwf Hk (Hc u2 eq_refl) Ef) as (A & B & C).
  split; [apply Forall_app; split; [|exact A]|].
  - exact (incl_Forall Hi Hp).
  - rewrite app_length. unfold DS.zlen in *. split; [lia|]. intros H1 H2. specialize (C H1 H2). lia.
Qed.

Lemma with_task_admissible d opts q : wf_domain d = true -> Admissible (with_task d opts) q -> Admissible d (removelast q).
Proof.
  intros Hwf [Hc Hk]. cbn [with_task comps cons] in *. apply Forall2_app_inv_l in Hc. destruct Hc as (q1 & q2 & H1 & H2 & ->).
  inversion H2 as [|? c ? t _ Ht]; subst. inversion Ht; subst. rewrite removelast_last.
  split; [exact H1|]. rewrite Forall_forall in *. intros k Hin.
  specialize (Hk _ (in_map _ _ _ Hin)). cbn [rhs weights] in Hk.
  rewrite DecodeTask.dot_app in Hk by (rewrite (wf_domain_cons_length d k Hwf Hin); exact (Forall2_len _ _ _ H1)). simpl in Hk. lra.
Qed.
Lemma with_task_int_constrained d opts : is_int_constrained (with_task d opts) = is_int_constrained d.
Proof.
  unfold is_int_constrained, int_cons. cbn [with_task cons]. f_equal. f_equal.
  induction (cons d) as [|k l IH]; simpl; [reflexivity|]. destruct (cty k); simpl; rewrite IH; reflexivity.
Qed.
(* snap_continuous_tasks_to_discrete_options: one option per point *)
Lemma snap_tasks_members costs opts : opts <> [] -> length (snap_tasks costs opts) = length costs /\ Forall (fun c => In c opts) (snap_tasks costs opts).
Proof.
  intros Hne. unfold snap_tasks. rewrite map_length. split; [reflexivity|].
  apply Forall_map, Forall_forall. intros x _. apply nearest_In, Hne.
Qed.

(* softmax: exp(-c_i) / sum_j exp(-c_j), with the exponentials given as positive numbers *)
Lemma qsum_pos : forall l, l <> [] -> Forall (fun e => 0 < e) l -> 0 < qsum_plain l.
Proof.
  induction l as [|a l IH]; intros Hne H; [congruence|]. inversion H; subst. simpl. destruct l as [|b l'].
  - simpl. lra.
  - assert (0 < qsum_plain (b :: l')) by (apply IH; [discriminate|assumption]). lra.
Qed.
Lemma qsum_map_div l s : ~ s == 0 -> qsum_plain (map (fun e => e / s) l) == qsum_plain l / s.
Proof. intros Hs. induction l as [|a l IH]; simpl; [field; exact Hs|]. rewrite IH. field. exact Hs. Qed.
Theorem softmax_spec exps : exps <> [] -> Forall (fun e => 0 < e) exps ->
  length (softmax exps) = length exps /\
  Forall (fun p => 0 < p) (softmax exps) /\
  qsum_plain (softmax exps) == 1 /\
  (forall i j, (i < length exps)%nat -> (j < length exps)%nat ->
     nth i (softmax exps) 0 == nth i exps 0 / qsum_plain exps /\
     (nth j exps 0 <= nth i exps 0 -> nth j (softmax exps) 0 <= nth i (softmax exps) 0)).
Proof.
  intros Hne Hp. pose proof (qsum_pos exps Hne Hp) as Hs. unfold softmax. split; [apply map_length|]. split; [|split].
  - apply Forall_map. eapply Forall_impl; [|exact Hp]. intros e He.
    unfold Qdiv. apply Qmult_lt_0_compat; [exact He|apply Qinv_lt_0_compat; exact Hs].
  - rewrite qsum_map_div by lra. field. lra.
  - intros i j Hi Hj.
    assert (E : forall n, (n < length exps)%nat -> nth n (map (fun e => e / qsum_plain exps) exps) 0 = nth n exps 0 / qsum_plain exps).
    { intros n Hn. rewrite (nth_indep _ 0 (0 / qsum_plain exps)) by (rewrite map_length; exact Hn).
      exact (map_nth (fun e => e / qsum_plain exps) exps 0 n). }
    rewrite (E i Hi), (E j Hj). split; [reflexivity|]. intros Hle. unfold Qdiv.
    apply Qmult_le_compat_r; [exact Hle|apply Qlt_le_weak, Qinv_lt_0_compat; exact Hs].
Qed.

Definition count_ok (d : domain) (n m : nat) : Prop :=
  m = n \/ ((m < n)%nat /\ (is_discrete d = true \/ is_int_constrained d = true)).
Definition costs_ok (opts : list Q) (npts : nat) (cs : option (list Q)) : Prop :=
  match opts, cs with
  | [], None => True
  | _ :: _, Some l => length l = npts /\ Forall (fun c => InA Qeq c opts) l
  | _, _ => False
  end.
Definition resp_ok (d : domain) (opts : list Q) (n : nat) (r : response) : Prop :=
  Forall (Admissible d) (r_points r) /\ count_ok d n (length (r_points r)) /\ costs_ok opts (length (r_points r)) (r_costs r).

Lemma count_okb_spec d n m : count_okb d n m = true <-> count_ok d n m.
Proof.
  unfold count_okb, count_ok. rewrite orb_true_iff, andb_true_iff, orb_true_iff, Nat.eqb_eq, Nat.ltb_lt. tauto.
Qed.
Lemma memQb_spec x l : memQb x l = true <-> InA Qeq x l.
Proof.
  unfold memQb. rewrite existsb_exists, InA_alt. split; intros (y & A & B); exists y.
  - split; [apply Qeq_bool_iff; exact B|exact A].
  - split; [exact B|apply Qeq_bool_iff; exact A].
Qed.
Lemma costs_okb_spec opts n cs : costs_okb opts n cs = true <-> costs_ok opts n cs.
Proof.
  unfold costs_okb, costs_ok. destruct opts, cs; try tauto; try (split; [discriminate|tauto]).
  rewrite andb_true_iff, Nat.eqb_eq, forallb_forall, Forall_forall. split; intros [A B]; (split; [exact A|]); intros c Hc; apply memQb_spec, B, Hc.
Qed.
Theorem resp_okb_spec d opts n r : resp_okb d opts n r = true <-> resp_ok d opts n r.
Proof.
  unfold resp_okb, resp_ok. rewrite !andb_true_iff, forallb_forall, Forall_forall, count_okb_spec, costs_okb_spec.
  split.
  - intros [[A B] C]. split; [|tauto]. intros p Hp. apply admissibleb_spec, A, Hp.
  - intros [A [B C]]. split; [split; [|exact B]|exact C]. intros p Hp. apply admissibleb_spec, A, Hp.
Qed.
Lemma count_from d n m : (m <= n)%nat -> (is_discrete d = false -> is_int_constrained d = false -> m = n) -> count_ok d n m.
Proof.
  intros Hle H. unfold count_ok. destruct (Nat.eq_dec m n) as [E|E]; [left; exact E|right]. split; [lia|].
  destruct (is_discrete d); [left; reflexivity|]. destruct (is_int_constrained d); [right; reflexivity|]. exfalso. apply E, H; reflexivity.
Qed.
Lemma resp_from d opts n r : Forall (Admissible d) (r_points r) -> (length (r_points r) <= n)%nat ->
  (is_discrete d = false -> is_int_constrained d = false -> length (r_points r) = n) ->
  costs_ok opts (length (r_points r)) (r_costs r) -> resp_ok d opts n r.
Proof. intros A B C D. split; [exact A|]. split; [apply count_from; assumption|exact D]. Qed.

(* convert_from_one_hot followed by replace_duplicate_points, on any domain *)
Lemma conv_replace_ok D parallel af dec xs hist orc q pts out :
  wf_domain D = true -> Forall (relaxed_ok D) xs -> (length xs <= length (o_cats dec))%nat ->
  convert_from_one_hot D parallel af dec xs = Some pts ->
  (forall u2, kept_of D pts hist uniq_tol = Some u2 -> fill_contract D (DS.zlen pts - DS.zlen u2) hist orc q) ->
  replace_dups D pts hist uniq_tol orc q = Some out ->
  Forall (Admissible D) out /\ (length out <= length xs)%nat /\
  (is_discrete D = false -> is_int_constrained D = false -> length out = length xs).
Proof.
  intros Hwf Hxs Hl Hc Hf Hr. unfold convert_from_one_hot in Hc.
  pose proof (find_best_relaxed_ok (conv_choice D parallel) D af xs Hwf Hxs) as Hb.
  rewrite <- (find_best_length (conv_choice D parallel) D af xs) in Hl |- *.
  destruct (decode_b_ok D dec _ pts Hwf Hb Hl Hc) as (Ha & L1 & L2).
  destruct (replace_dups_ok D pts hist uniq_tol orc q out Hwf Ha Hf Hr) as (A & B & C).
  split; [exact A|]. unfold point in *. split; [lia|]. intros H1 H2. rewrite (C H1 H2). apply L2. exact H2.
Qed.

(* the tail of the GP next-points endpoint for a request without task options *)
Theorem tail_gp_admissible d parallel af xs hist hist_oh o r :
  wf_domain d = true -> Forall (relaxed_ok d) xs -> (length xs <= length (o_cats (g_dec o)))%nat ->
  (forall pts u2, convert_from_one_hot d parallel af (g_dec o) xs = Some pts -> kept_of d pts hist uniq_tol = Some u2 ->
     fill_contract d (DS.zlen pts - DS.zlen u2) hist (g_choice o) (g_q o)) ->
  gp_tail d [] parallel af xs hist hist_oh o = Some r -> resp_ok d [] (length xs) r.
Proof.
  intros Hwf Hxs Hl Hf H. cbn [gp_tail] in H.
  apply obind_some in H as (pts & Ec & H). apply obind_some in H as (out & Er & H). injection H as <-.
  destruct (conv_replace_ok d parallel af (g_dec o) xs hist _ _ pts out Hwf Hxs Hl Ec (fun u2 => Hf pts u2 Ec) Er) as (A & B & C).
  apply resp_from; [exact A|exact B|exact C|exact I].
Qed.

(* GP next points, multitask: the relaxed points carry the task column; costs are snapped to the options *)
Theorem tail_gp_multitask_admissible d opts af xs hist hist_oh o r :
  wf_domain d = true -> opts <> [] -> list_min opts < list_max opts ->
  Forall (relaxed_ok (with_task d opts)) xs -> (length xs <= length (o_cats (g_dec o)))%nat ->
  (forall pts aug u2, convert_from_one_hot (with_task d opts) false af (g_dec o) xs = Some pts ->
     decode_b (with_task d opts) (g_hdec o) hist_oh = Some aug -> kept_of (with_task d opts) pts aug uniq_tol = Some u2 ->
     fill_contract (with_task d opts) (DS.zlen pts - DS.zlen u2) aug (g_choice o) (g_q o)) ->
  gp_tail d opts false af xs hist hist_oh o = Some r -> resp_ok d opts (length xs) r.
Proof.
  intros Hwf Hne Hlt Hxs Hl Hf H. destruct opts as [|o1 orest]; [congruence|]. cbn [gp_tail] in H.
  set (opts := o1 :: orest) in *. set (dt := with_task d opts) in *.
  apply obind_some in H as (pts & Ec & H). apply obind_some in H as (aug & Ea & H). apply obind_some in H as (out & Er & H).
  injection H as <-.
  pose proof (DecodeTask.with_task_wellformed d opts Hwf Hlt) as Hwt.
  destruct (conv_replace_ok dt false af (g_dec o) xs aug _ _ pts out Hwt Hxs Hl Ec (fun u2 => Hf pts aug u2 Ec Ea) Er) as (A & B & C).
  apply resp_from; cbn [r_points r_costs]; rewrite ?map_length.
  - apply Forall_map. eapply Forall_impl; [|exact A]. intros q Hq. apply (with_task_admissible d opts q Hwf Hq).
  - exact B.
  - intros _ Hi. apply C; [apply DecodeTask.with_task_not_discrete|]. unfold dt. rewrite with_task_int_constrained. exact Hi.
  - unfold opts at 1. destruct (snap_tasks_members (map (fun p : point => last p 0) out) opts Hne) as [L M]. rewrite map_length in L.
    split; [exact L|]. eapply Forall_impl; [|exact M]. intros c. apply (In_InA Q_Setoid).
Qed.

Definition prior_valid (p : DS.prior) : Prop := match p with DS.Normal _ s => ~ s == 0 | _ => True end.
Lemma prior_draw_in_comp c p x : prior_valid p -> DP.draw_ok (DS.request_prior c p) x -> DP.in_comp c x.
Proof.
  intros Hv H. destruct p as [|m s|a b].
  - rewrite DP.prior_absent in H. apply DP.full_support. exact H.
  - destruct c; simpl in H; try contradiction. destruct (DP.prior_normal_truncated lo hi m s x Hv) as (a' & b' & E & _ & _ & Hiff).
    simpl in E. injection E as <- <-. apply Hiff. exact H.
  - destruct c; simpl in H; try contradiction. apply (proj2 (DP.prior_beta_scaled lo hi a b x)). exact H.
Qed.
Lemma prior_rows_in_domain : forall dd ps n cols, length ps = length dd -> Forall prior_valid ps ->
  DP.cols_ok n (DS.prior_requests dd ps) cols -> forall i, (i < n)%nat -> DP.In_domain dd (map (fun col => nth i col 0) cols).
Proof.
  induction dd as [|c dd IH]; intros [|p ps] n cols Hl Hv H i Hi; simpl in Hl; try discriminate; cbn in H; inversion H; subst; cbn.
  - constructor.
  - inversion Hv; subst. constructor.
    + eapply prior_draw_in_comp; [eassumption|]. destruct H2 as [L F]. rewrite Forall_forall in F. apply F. apply nth_In. congruence.
    + eapply IH; try eassumption. congruence.
Qed.
(* contract of the draws of create_random_suggestions / RandomSearchNextPoints / initilization_sequence *)
Definition random_contract (d : domain) (ps : list DS.prior) (n : Z) (pcols : list (list Q)) (q : qorc) : Prop :=
  match DS.view_path ps (is_constrained d) with
  | DS.UsePriors => length ps = length (comps d) /\ Forall prior_valid ps /\ DP.cols_ok (Z.to_nat n) (prior_reqs d ps) pcols
  | DS.UseQuasi => qorc_ok d n q
  end.
Theorem random_pts_ok d ps n pcols q pts : wf_domain d = true -> random_contract d ps n pcols q ->
  random_pts d ps n pcols q = Some pts ->
  Forall (Admissible d) pts /\ (length pts <= Z.to_nat n)%nat /\ (is_int_constrained d = false -> length pts = Z.to_nat n).
Proof.
  intros Hwf Hc H. unfold random_pts, random_contract in *. destruct (DS.view_path ps (is_constrained d)) eqn:Ep.
  - apply DP.view_dispatch in Ep as [_ Eu]. destruct Hc as (Hl & Hv & Hcols). injection H as <-. split.
    + unfold DS.rows_of. apply Forall_map, Forall_forall. intros i Hi. apply in_seq in Hi.
      apply unconstrained_adm; [exact Eu|]. eapply prior_rows_in_domain; try eassumption; [unfold ddom; rewrite map_length; exact Hl|lia].
    + rewrite DP.rows_of_length. split; [lia|reflexivity].
  - eapply quasi_points_ok; eassumption.
Qed.
(* what numpy.random.choice(options, size=k[, p=softmax]) returns: k members of the options *)
Definition draws_ok (opts : list Q) (k : nat) (draws : list Q) : Prop := length draws = k /\ Forall (fun c => InA Qeq c opts) draws.
Lemma with_costs_ok opts pts draws : (opts <> [] -> draws_ok opts (length pts) draws) ->
  costs_ok opts (length (r_points (with_costs opts pts draws))) (r_costs (with_costs opts pts draws)).
Proof. intros H. unfold with_costs. destruct opts; simpl; [exact I|]. apply H. discriminate. Qed.

(* the requested count n enters through Z.to_nat only, so nothing is asked of its sign *)
Lemma random_tail_resp_ok d opts ps n pcols q draws r : wf_domain d = true ->
  random_contract d ps n pcols q -> (forall pts, random_pts d ps n pcols q = Some pts -> opts <> [] -> draws_ok opts (length pts) draws) ->
  random_tail d opts ps n pcols q draws = Some r -> resp_ok d opts (Z.to_nat n) r.
Proof.
  intros Hwf Hc Hd H. unfold random_tail in H. apply obind_some in H as (pts & E & H). injection H as <-. destruct (random_pts_ok d ps n pcols q pts Hwf Hc E) as (A & B & C).
  apply resp_from; [exact A|exact B|intros _; exact C|exact (with_costs_ok opts pts draws (Hd pts E))].
Qed.
Theorem tail_random_admissible d opts ps n pcols q draws r : wf_domain d = true -> (0 <= n)%Z ->
  random_contract d ps n pcols q -> (forall pts, random_pts d ps n pcols q = Some pts -> opts <> [] -> draws_ok opts (length pts) draws) ->
  random_tail d opts ps n pcols q draws = Some r -> resp_ok d opts (Z.to_nat n) r.
Proof. intros Hwf _. exact (random_tail_resp_ok d opts ps n pcols q draws r Hwf). Qed.

(* the rows of all the batches SPENextPoints.draw_samples proposes *)
Definition batch_rows (batches : list (list (row * Q * Q))) : list row := flat_map (map (fun t => fst (fst t))) batches.
Lemma spe_loop_Forall (P : row -> Prop) n bsz limit : forall batches samples rej,
  Forall P samples -> Forall P (batch_rows batches) -> Forall P (fst (spe_loop n bsz limit batches samples rej)).
Proof.
  induction batches as [|b r IH]; intros samples rej Hs Hb; cbn [spe_loop].
  - destruct (_ && _); exact Hs.
  - destruct (_ && _); [|exact Hs]. unfold batch_rows in Hb. cbn [flat_map] in Hb. apply Forall_app in Hb as [Hb Hr].
    apply IH; [|exact Hr]. apply Forall_app. split; [exact Hs|]. unfold accept. rewrite Forall_map in *.
    exact (incl_Forall (incl_filter _ b) Hb).
Qed.
Lemma nth_rows_sub rows ix x : In x (nth_rows rows ix) -> In x rows.
Proof. unfold nth_rows. rewrite in_flat_map. intros (j & _ & H). destruct (nth_error rows j) eqn:E; [|destruct H]. destruct H as [<-|[]]. eapply nth_error_In; exact E. Qed.
Lemma nth_rows_len rows : forall ix, Forall (fun j => (j < length rows)%nat) ix -> length (nth_rows rows ix) = length ix.
Proof.
  induction ix as [|j ix IH]; intros H; [reflexivity|]. inversion H; subst. unfold nth_rows in *. simpl.
  destruct (nth_error rows j) eqn:E; [|apply nth_error_None in E; lia]. simpl. f_equal. apply IH. assumption.
Qed.
(* contract: every proposed test point and every padding point is a feasible relaxed point (C08: restriction to the
   domain / uniform sampler); padding has the size asked for; choice(range(m), size=n, replace=False) returns n valid indices *)
Definition spe_contract (d : domain) (n : nat) (o : speorc) : Prop :=
  let s := fst (spe_loop n SPE_BATCH_SIZE SPE_REJECTION_SAMPLES_LIMIT (s_batches o) [] 0%Z) in
  Forall (relaxed_ok d) (batch_rows (s_batches o)) /\ Forall (relaxed_ok d) (s_pad o) /\
  ((length s < n)%nat -> (length s + length (s_pad o) = n)%nat) /\
  ((n < length s)%nat -> length (s_ix o) = n /\ Forall (fun j => (j < length s)%nat) (s_ix o)) /\
  (n <= length (o_cats (s_dec o)))%nat.
Lemma spe_finish_ok (P : row -> Prop) n s pad ix : Forall P s -> Forall P pad ->
  ((length s < n)%nat -> (length s + length pad = n)%nat) ->
  ((n < length s)%nat -> length ix = n /\ Forall (fun j => (j < length s)%nat) ix) ->
  Forall P (spe_finish n s pad ix) /\ length (spe_finish n s pad ix) = n.
Proof.
  intros Hs Hp Hpad Hix. unfold spe_finish. destruct (Nat.ltb_spec (length s) n) as [E1|E1].
  - split; [apply Forall_app; split; assumption|rewrite app_length; apply Hpad, E1].
  - destruct (Nat.ltb_spec n (length s)) as [E2|E2].
    + destruct (Hix E2) as [L V]. split; [|rewrite nth_rows_len; assumption].
      exact (incl_Forall (nth_rows_sub s ix) Hs).
    + split; [exact Hs|apply Nat.le_antisymm; assumption].
Qed.
Theorem draw_decode_ok d n o pts : wf_domain d = true -> spe_contract d n o ->
  decode_b d (s_dec o) (fst (draw_samples n SPE_BATCH_SIZE SPE_REJECTION_SAMPLES_LIMIT (s_batches o) (s_pad o) (s_ix o))) = Some pts ->
  Forall (Admissible d) pts /\ (length pts <= n)%nat /\ (is_int_constrained d = false -> length pts = n).
Proof.
  intros Hwf (Hb & Hp & Hpad & Hix & Hcat) H. unfold draw_samples in H.
  pose proof (spe_loop_Forall _ n SPE_BATCH_SIZE SPE_REJECTION_SAMPLES_LIMIT _ [] 0%Z (Forall_nil _) Hb) as Hs.
  destruct (spe_loop n SPE_BATCH_SIZE SPE_REJECTION_SAMPLES_LIMIT (s_batches o) [] 0%Z) as [s rej]. cbn [fst] in *.
  destruct (spe_finish_ok _ n s (s_pad o) (s_ix o) Hs Hp Hpad Hix) as [Hf1 Hf2].
  rewrite <- Hf2 in Hcat |- *. exact (decode_b_ok d _ _ pts Hwf Hf1 Hcat H).
Qed.

Lemma spe_tail_resp_ok d opts ps path n o r : wf_domain d = true ->
  match path with
  | SPERandom => random_contract d ps n (s_pcols o) (s_q o)
  | SPEDraw => spe_contract d (Z.to_nat n) o
  end ->
  (forall r', spe_tail d opts ps path n o = Some r' -> opts <> [] -> draws_ok opts (length (r_points r')) (s_draws o)) ->
  spe_tail d opts ps path n o = Some r -> resp_ok d opts (Z.to_nat n) r.
Proof.
  intros Hwf Hc Hd H. pose proof (Hd r H) as Hdr. destruct path; cbn [spe_tail] in H.
  - eapply random_tail_resp_ok; try eassumption. intros pts Hp Hne. unfold random_tail, obind in H. rewrite Hp in H. injection H as <-.
    apply Hdr. exact Hne.
  - apply obind_some in H as (pts & E & H). injection H as <-. destruct (draw_decode_ok d (Z.to_nat n) o pts Hwf Hc E) as (A & B & C).
    apply resp_from; [exact A|exact B|intros _; exact C|apply with_costs_ok; exact Hdr].
Qed.
Theorem tail_spe_admissible d opts ps path n o r : wf_domain d = true -> (0 <= n)%Z ->
  match path with
  | SPERandom => random_contract d ps n (s_pcols o) (s_q o)
  | SPEDraw => spe_contract d (Z.to_nat n) o
  end ->
  (forall r', spe_tail d opts ps path n o = Some r' -> opts <> [] -> draws_ok opts (length (r_points r')) (s_draws o)) ->
  spe_tail d opts ps path n o = Some r -> resp_ok d opts (Z.to_nat n) r.
Proof. intros Hwf _. exact (spe_tail_resp_ok d opts ps path n o r Hwf). Qed.

(* the search endpoints run the GP tail, with the parallel flag the phase dictates *)
Theorem tail_search_admissible d ph u parallel af xs hist hist_oh o r :
  wf_domain d = true -> Forall (relaxed_ok d) xs -> (length xs <= length (o_cats (g_dec o)))%nat ->
  (forall par pts u2, convert_from_one_hot d par af (g_dec o) xs = Some pts -> kept_of d pts hist uniq_tol = Some u2 ->
     fill_contract d (DS.zlen pts - DS.zlen u2) hist (g_choice o) (g_q o)) ->
  search_tail d [] ph u parallel af xs hist hist_oh o = Some r -> resp_ok d [] (length xs) r.
Proof.
  intros Hwf Hxs Hl Hf H.
  assert (G : exists par, gp_tail d [] par af xs hist hist_oh o = Some r).
  { unfold search_tail in H. destruct ph; try (exists parallel; exact H). destruct (Qltb u RESOLVE_PHASE_PROB); [exists false|exists parallel]; exact H. }
  destruct G as [par G]. eapply tail_gp_admissible; try eassumption. apply Hf.
Qed.
Lemma spe_search_tail_eq d ps ph path n o :
  spe_search_tail d [] ps ph path n o = spe_tail d [] ps (match ph with SInit => SPERandom | SExploit => path | SResolve => SPEDraw end) n o.
Proof. destruct ph; reflexivity. Qed.
Lemma spe_search_tail_resp_ok d ps ph path n o r : wf_domain d = true ->
  match ph, path with
  | SInit, _ | SExploit, SPERandom => random_contract d ps n (s_pcols o) (s_q o)
  | _, _ => spe_contract d (Z.to_nat n) o
  end ->
  spe_search_tail d [] ps ph path n o = Some r -> resp_ok d [] (Z.to_nat n) r.
Proof.
  intros Hwf Hc H. rewrite spe_search_tail_eq in H. revert H.
  apply spe_tail_resp_ok; [exact Hwf|destruct ph, path; exact Hc|intros r' _ Hne; congruence].
Qed.
Theorem tail_spe_search_admissible d ps ph path n o r : wf_domain d = true -> (0 <= n)%Z ->
  match ph, path with
  | SInit, _ | SExploit, SPERandom => random_contract d ps n (s_pcols o) (s_q o)
  | _, _ => spe_contract d (Z.to_nat n) o
  end ->
  spe_search_tail d [] ps ph path n o = Some r -> resp_ok d [] (Z.to_nat n) r.
Proof. intros Hwf _. exact (spe_search_tail_resp_ok d ps ph path n o r Hwf). Qed.

(* a well-formed mixed domain with a constraint, and oracles on which the GP tail returns a batch *)
Definition ex_dom : domain :=
  {| comps := [Double (-2) 5; Int (-3) 10; Cat [5; 1; 7]%Z; Grid [(1#4); (-3#2); (5#2)]];
     cons := [{| weights := [1; 0; 0; 0]; rhs := (-1); cty := CDouble |}] |}.
Definition ex_dorc : dorc := {| o_rnds := []; o_perms := []; o_cats := [[7%Z]; [7%Z]] |}.
Definition ex_gporc : gporc :=
  {| g_dec := ex_dorc; g_hdec := ex_dorc; g_choice := [];
     g_q := {| q_cols := []; q_rows := [[3; (1#2); 0; 1; 0; 2]]; q_dec := {| o_rnds := []; o_perms := []; o_cats := [[1%Z]] |} |} |}.
Example gp_tail_example :
  wf_domain ex_dom = true /\
  gp_tail ex_dom [] false (fun x => nth 1 x 0) [[(3#2); (13#4); (1#8); (1#4); (1#2); 2]; [(3#2); (13#4); (1#8); (1#4); (1#2); 2]]
    [[0; 0; 5; (1#4)]] [] ex_gporc
  = Some {| r_points := [[(3#2); 4; 7; (5#2)]; [3; 0; 1; (5#2)]]; r_costs := None |}.
Proof. vm_compute. split; reflexivity. Qed.
