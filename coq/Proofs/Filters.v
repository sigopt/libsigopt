(* C14, the data filters of Model/Filters.v.  Every filter is a composition of col, select, set_where and the two
   labellings of Model/Pareto.v, so the file first says what these do to lengths and to the entry at a position
   (eps_failures and its merge with the reported failures included) and then reads the theorems off the definitions:
   the outputs are aligned, come from the metric columns the phase names, and under the epsilon constraint are labelled
   by the threshold eps_threshold.  Then the SPE failure augmentation, and C13's minimum of successes carried through
   both wrappers. *)
From Coq Require Import List QArith Lia Lqa.
From LV Require Import Model.Pareto Proofs.Pareto Model.Phases Model.Filters.
Import ListNotations.
Open Scope Q_scope.

Lemma select_length_eq {A B} : forall (m : list bool) (a : list A) (b : list B),
  length a = length b -> length (select m a) = length (select m b).
Proof.
  induction m as [|x m IH]; intros [|p a] [|q b] H; simpl in *; try reflexivity; try discriminate.
  destruct x; simpl; [f_equal|]; apply IH; congruence.
Qed.

Lemma select_combine {A B} : forall (m : list bool) (a : list A) (b : list B),
  select m (combine a b) = combine (select m a) (select m b).
Proof.
  induction m as [|x m IH]; intros [|p a] [|q b]; simpl; try reflexivity.
  - destruct x; simpl; destruct (select m a); reflexivity.
  - destruct x; simpl; [f_equal|]; apply IH.
Qed.

Lemma select_length_count {A} : forall (m : list bool) (l : list A), length m = length l ->
  length (select m l) = count_true m.
Proof.
  induction m as [|b m IH]; intros [|y l] H; simpl in *; try reflexivity; try discriminate.
  rewrite count_true_cons. destruct b; simpl; rewrite IH by congruence; reflexivity.
Qed.

Lemma select_all {A} (l : list A) : forall n, n = length l -> select (repeat true n) l = l.
Proof. induction l as [|x l IH]; intros n ->; simpl; [reflexivity|]. f_equal. apply IH. reflexivity. Qed.

Lemma map_on_repeat {A B} (f : A -> B) x n : map f (repeat x n) = repeat (f x) n.
Proof. induction n as [|n IH]; [reflexivity|]. cbn. f_equal. exact IH. Qed.

Lemma count_true_repeat b k : count_true (repeat b k) = if b then k else O.
Proof. induction k as [|k IH]; [destruct b; reflexivity|]. cbn [repeat]. rewrite count_true_cons, IH. destruct b; reflexivity. Qed.

Lemma col_length k vals : length (col k vals) = length vals.
Proof. unfold col. apply map_length. Qed.

Lemma set_where_length mask x l : length mask = length l -> length (set_where mask x l) = length l.
Proof. intros H. unfold set_where. rewrite map_length, combine_length. lia. Qed.

Lemma set_where_nth : forall mask x l j d, length mask = length l ->
  nth j (set_where mask x l) d = if nth j mask false then x else nth j l d.
Proof.
  induction mask as [|b m IH]; intros x [|y l] j d H; simpl in *; try discriminate; destruct j as [|j]; try reflexivity.
  apply IH. congruence.
Qed.

Lemma dot2 a b w0 w1 : dot [a; b] [w0; w1] == w0 * a + w1 * b.
Proof. unfold dot. simpl. lra. Qed.

Lemma pf_labelling_length eps om cm vals fails : length (pf_labelling eps om cm vals fails) = length vals.
Proof.
  unfold pf_labelling.
  destruct (min_successes om vals (eps_failures eps cm vals fails)) as [L _]; [now rewrite eps_failures_length|].
  rewrite L. apply eps_failures_length.
Qed.

Lemma eps_labelling_length eps om cm vals fails : length vals = length fails ->
  length (eps_labelling eps om cm vals fails) = length vals.
Proof.
  intros H. unfold eps_labelling.
  destruct (min_successes om vals _ (eq_sym (merged_length eps cm vals fails H))) as [L _].
  rewrite L. apply merged_length. exact H.
Qed.

(* the threshold the epsilon-constraint filters use: the C13 value on the rows reported as successes *)
Definition eps_threshold (eps : Q) (cm : nat) (vals : list row) (fails : list bool) : Q :=
  eps_no_bounds eps cm (select (map negb fails) vals).

(* entrywise: the comparison with the threshold, switched off when no row is reported as a success *)
Lemma eps_failures_nth eps cm vals fails j : (j < length vals)%nat ->
  nth j (eps_failures eps cm vals fails) false =
  negb (no_success vals fails) && Qle_bool (eps_threshold eps cm vals fails) (at_ vals j cm).
Proof.
  intros H. unfold eps_failures, eps_threshold, at_. destruct (no_success vals fails); cbn [negb andb].
  all: rewrite (nth_map_in _ _ _ []) by exact H; reflexivity.
Qed.

Lemma merged_nth eps cm vals fails j : length vals = length fails -> (j < length vals)%nat ->
  nth j (map (fun p : bool * bool => fst p || snd p) (combine (eps_failures eps cm vals fails) fails)) false =
  negb (no_success vals fails) && Qle_bool (eps_threshold eps cm vals fails) (at_ vals j cm) || nth j fails false.
Proof.
  intros HL H.
  rewrite (nth_map_in _ _ _ (false, false)) by (rewrite combine_length, eps_failures_length; lia).
  rewrite combine_nth by (rewrite eps_failures_length; exact HL). cbn [fst snd]. rewrite eps_failures_nth by exact H. reflexivity.
Qed.

Definition aligned (n : nat) (pts vals vars : list row) (fails : list bool) : Prop :=
  length pts = n /\ length vals = n /\ length vars = n /\ length fails = n.

Theorem filter_gp_lengths info n pts vals vars fails lie : aligned n pts vals vars fails ->
  let o := filter_gp info pts vals vars fails lie in
  length (o_pts o) = arr_len (o_vals o) /\ arr_len (o_vals o) = arr_len (o_vars o) /\
  (match info with EpsC _ _ _ => (arr_len (o_vals o) <= n)%nat | _ => arr_len (o_vals o) = n end).
Proof.
  intros (Hp & Hv & Hs & Hf). destruct info as [|om cm|w0 w1|om cm eps]; cbn -[col];
  rewrite ?col_length; try (repeat split; congruence).
  split; [|split].
  - apply select_length_eq. rewrite col_length. congruence.
  - apply select_length_eq. rewrite !col_length. congruence.
  - rewrite select_length_count by (rewrite map_length, pf_labelling_length, col_length; reflexivity).
    assert (H := count_negb (pf_labelling eps om cm vals fails)). rewrite pf_labelling_length in H. lia.
Qed.

Theorem filter_spe_lengths info n pts vals fails lie : aligned n pts vals vals fails ->
  let o := filter_spe info pts vals fails lie in length (fst o) = n /\ length (snd o) = n.
Proof.
  intros (Hp & Hv & _ & Hf). destruct info as [|om cm|w0 w1|om cm eps]; cbn -[col dot eps_labelling]; split; try exact Hp;
  rewrite set_where_length; rewrite ?col_length, ?map_length, ?eps_labelling_length; congruence.
Qed.

Theorem filter_gp_columns_plain info pts vals vars fails lie :
  match info with
  | Convex _ _ => filter_gp info pts vals vars fails lie = {| o_pts := pts; o_vals := A2 vals; o_vars := A2 vars; o_lie := A1 lie |}
  | OptOne om _ => filter_gp info pts vals vars fails lie =
                   {| o_pts := pts; o_vals := A1 (col om vals); o_vars := A1 (col om vars); o_lie := Sc (nth om lie 0) |}
  | NotMM => filter_gp info pts vals vars fails lie =
             {| o_pts := pts; o_vals := A1 (col 0 vals); o_vars := A1 (col 0 vars); o_lie := Sc (nth 0 lie 0) |}
  | EpsC _ _ _ => True
  end.
Proof. destruct info; reflexivity || exact I. Qed.

Theorem filter_gp_columns_eps eps om cm n pts vals vars fails lie : aligned n pts vals vars fails ->
  let o := filter_gp (EpsC om cm eps) pts vals vars fails lie in
  let lab := pf_labelling eps om cm vals fails in
  let thr := eps_threshold eps cm vals fails in
  length lab = n /\
  combine (o_pts o) (combine (arr1 (o_vals o)) (arr1 (o_vars o))) =
    select (map negb lab) (combine pts (combine (col om vals) (col om vars))) /\
  o_lie o = Sc (nth om lie 0) /\
  (forall j, (j < n)%nat -> nth j lab false = true -> thr <= at_ vals j cm) /\
  (forall j, (j < n)%nat -> at_ vals j cm < thr -> nth j lab false = false) /\
  (Nat.min 5 n <= count_true (map negb lab))%nat /\
  (forall a b, (a < n)%nat -> thr <= at_ vals a cm -> nth a lab false = false -> nth b lab false = true ->
     at_ vals a om <= at_ vals b om).
Proof.
  intros (Hp & Hv & Hs & Hf). cbv zeta.
  assert (HL : length vals = length (eps_failures eps cm vals fails)) by (now rewrite eps_failures_length).
  destruct (min_successes om vals _ HL) as (L & Hsub & Hcnt & Hord). fold (pf_labelling eps om cm vals fails) in *.
  rewrite eps_failures_length in L, Hcnt.
  split; [congruence|]. split; [|split; [reflexivity|]].
  - cbn -[col pf_labelling]. rewrite !select_combine. reflexivity.
  - split; [|split; [|split]].
    + intros j Hj Hlab. apply Hsub in Hlab. rewrite eps_failures_nth in Hlab by congruence. apply andb_true_iff in Hlab.
      apply Qle_bool_iff. exact (proj2 Hlab).
    + intros j Hj Hlt. destruct (nth j (pf_labelling eps om cm vals fails) false) eqn:E; [|reflexivity].
      apply Hsub in E. rewrite eps_failures_nth in E by congruence. apply andb_true_iff in E. destruct E as [_ E].
      apply Qle_bool_iff in E. lra.
    + rewrite Hcnt, Hv. unfold min_success. lia.
    + intros a b Ha Hthr Hna Hb. apply Hord; [|exact Hna|exact Hb].
      rewrite eps_failures_nth by congruence.
      assert (Hb' : (b < n)%nat) by (apply nth_true_lt in Hb; lia).
      pose proof (Hsub b Hb) as Eb. rewrite eps_failures_nth in Eb by congruence. apply andb_true_iff in Eb. destruct Eb as [-> _].
      apply Qle_bool_iff. exact Hthr.
Qed.

Theorem filter_spe_columns_plain info n pts vals fails lie j : aligned n pts vals vals fails -> (j < n)%nat ->
  let o := filter_spe info pts vals fails lie in
  fst o = pts /\
  match info with
  | NotMM => nth j (snd o) 0 = if nth j fails false then nth 0 lie 0 else at_ vals j 0
  | OptOne om _ => nth j (snd o) 0 = if nth j fails false then nth om lie 0 else at_ vals j om
  | Convex w0 w1 => nth j (snd o) 0 = if nth j fails false then dot lie [w0; w1] else dot (nth j vals []) [w0; w1]
  | EpsC _ _ _ => True
  end.
Proof.
  intros (Hp & Hv & _ & Hf) Hj. destruct info as [|om cm|w0 w1|om cm eps]; cbn -[col dot]; (split; [reflexivity|]);
  try exact I.
  1-2: rewrite set_where_nth by (rewrite ?col_length; lia); rewrite <- at_col by congruence; reflexivity.
  - rewrite set_where_nth by (rewrite ?map_length; lia).
    destruct (nth j fails false); [reflexivity|].
    rewrite (nth_map_in _ _ _ []) by congruence. reflexivity.
Qed.

Theorem filter_spe_columns_eps eps om cm n pts vals fails lie : aligned n pts vals vals fails ->
  let o := filter_spe (EpsC om cm eps) pts vals fails lie in
  let lab := eps_labelling eps om cm vals fails in
  let thr := eps_threshold eps cm vals fails in
  fst o = pts /\ length lab = n /\
  (forall j, (j < n)%nat -> nth j (snd o) 0 = if nth j lab false then nth om lie 0 else at_ vals j om) /\
  (forall j, (j < n)%nat -> nth j lab false = true -> nth j fails false = true \/ thr <= at_ vals j cm) /\
  (Nat.min 5 n <= count_true (map negb lab))%nat.
Proof.
  intros (Hp & Hv & _ & Hf). cbv zeta.
  assert (HL : length vals = length fails) by congruence.
  assert (LL := eps_labelling_length eps om cm vals fails HL).
  split; [reflexivity|]. split; [congruence|]. split; [|split].
  - intros j Hj. cbn -[col eps_labelling]. rewrite set_where_nth by (rewrite ?col_length; lia).
    rewrite <- at_col by congruence. reflexivity.
  - intros j Hj Hlab. unfold eps_labelling in Hlab.
    destruct (min_successes om vals _ (eq_sym (merged_length eps cm vals fails HL))) as (_ & Hsub & _).
    apply Hsub in Hlab. rewrite merged_nth in Hlab by congruence. apply orb_true_iff in Hlab.
    destruct Hlab as [E|E]; [right; apply andb_true_iff in E; apply Qle_bool_iff; exact (proj2 E)|left; exact E].
  - assert (H := labelling_keeps_minimum eps om cm vals fails HL). rewrite Hf in H. exact H.
Qed.

Lemma forall_ix_spec {A} (f : nat -> A -> bool) : forall l i,
  forall_ix f i l = true <-> forall k x, nth_error l k = Some x -> f (i + k)%nat x = true.
Proof.
  induction l as [|y l IH]; intros i; simpl.
  - split; [intros _ [|k] x H; discriminate|reflexivity].
  - rewrite andb_true_iff, IH. split.
    + intros [H0 H] [|k] x E; simpl in E; [injection E as <-; rewrite Nat.add_0_r; exact H0|].
      replace (i + S k)%nat with (S i + k)%nat by lia. apply H. exact E.
    + intros H. split; [specialize (H O y eq_refl); rewrite Nat.add_0_r in H; exact H|].
      intros k x E. replace (S i + k)%nat with (i + S k)%nat by lia. apply H. exact E.
Qed.

Theorem exceeds_spec vals thr j : (j < length vals)%nat ->
  (nth j (exceeds vals thr) false = true <->
   exists i t, nth_error thr i = Some (Some t) /\ t <= at_ vals j i).
Proof.
  intros Hj. unfold exceeds, at_.
  rewrite (nth_map_in _ _ _ []) by exact Hj.
  generalize (nth j vals []). intros r. rewrite negb_true_iff. unfold within. split.
  - intros H.
    assert (D : forall l i, forall_ix (fun i t => match t with None => true | Some t => Qltb (nth i r 0) t end) i l = false ->
                exists k t, nth_error l k = Some (Some t) /\ t <= nth (i + k) r 0).
    { induction l as [|y l IH]; intros i E; simpl in E; [discriminate|].
      apply andb_false_iff in E. destruct E as [E|E].
      - destruct y as [t|]; [|discriminate]. exists O, t. split; [reflexivity|]. rewrite Nat.add_0_r. apply Qltb_ge. exact E.
      - destruct (IH _ E) as (k & t & E1 & E2). exists (S k), t. split; [exact E1|].
        replace (i + S k)%nat with (S i + k)%nat by lia. exact E2. }
    destruct (D thr O H) as (k & t & E1 & E2). exists k, t. split; assumption.
  - intros (i & t & E1 & E2).
    destruct (forall_ix _ 0 thr) eqn:E; [|reflexivity]. exfalso.
    rewrite forall_ix_spec in E. specialize (E i (Some t) E1). simpl in E. apply Qltb_lt in E. lra.
Qed.

Lemma or3_length : forall a b c, length a = length b -> length a = length c -> length (or3 a b c) = length a.
Proof.
  induction a as [|x a IH]; intros [|y b] [|z c] H1 H2; simpl in *; try reflexivity; try discriminate.
  f_equal. apply IH; congruence.
Qed.
Lemma or3_nth : forall a b c j, length a = length b -> length a = length c ->
  nth j (or3 a b c) false = nth j a false || nth j b false || nth j c false.
Proof.
  induction a as [|x a IH]; intros [|y b] [|z c] j H1 H2; simpl in *; try discriminate.
  - destruct j; reflexivity.
  - destruct j; [reflexivity|]. apply IH; congruence.
Qed.

Lemma exceeds_length vals thr : length (exceeds vals thr) = length vals.
Proof. unfold exceeds. apply map_length. Qed.

Theorem spe_augmentation_spec rp hc obs af_vals opt_thr pf_vals con_thr :
  length af_vals = length obs -> length pf_vals = length obs ->
  let out := augment rp hc obs af_vals opt_thr pf_vals con_thr in
  let bv := if rp then exceeds af_vals opt_thr else repeat false (length obs) in
  let cv := if hc then exceeds pf_vals con_thr else repeat false (length obs) in
  length out = length obs /\
  (forall j, nth j obs false = true -> nth j out false = true) /\
  (forall j, nth j out false = true -> nth j obs false = true \/ nth j bv false = true \/ nth j cv false = true) /\
  (out = obs \/
   (out = or3 obs bv cv /\ (5 <= count_true (map negb out))%nat /\ (1 <= count_true (map negb bv))%nat)).
Proof.
  intros Ha Hp. cbv zeta. unfold augment.
  set (bv := if rp then exceeds af_vals opt_thr else repeat false (length obs)).
  set (cv := if hc then exceeds pf_vals con_thr else repeat false (length obs)).
  assert (Lb : length obs = length bv) by (unfold bv; destruct rp; rewrite ?exceeds_length, ?repeat_length; congruence).
  assert (Lc : length obs = length cv) by (unfold cv; destruct hc; rewrite ?exceeds_length, ?repeat_length; congruence).
  destruct (negb (rp || hc)); [repeat split; auto|].
  destruct ((Z.of_nat (length obs) - 1 <? zcount bv)%Z || (Z.of_nat (length obs) - 5 <? zcount cv)%Z
            || (Z.of_nat (length obs) - 5 <? zcount (or3 obs bv cv))%Z) eqn:E; [repeat split; auto|].
  apply orb_false_iff in E. destruct E as [E E3]. apply orb_false_iff in E. destruct E as [E1 E2].
  apply Z.ltb_ge in E1, E2, E3. unfold zcount in *.
  split; [apply or3_length; assumption|]. split; [|split].
  - intros j H. rewrite or3_nth by assumption. rewrite H. reflexivity.
  - intros j H. rewrite or3_nth in H by assumption. apply orb_true_iff in H. destruct H as [H|H]; [|tauto].
    apply orb_true_iff in H. tauto.
  - right. split; [reflexivity|].
    assert (C1 := count_negb (or3 obs bv cv)). rewrite or3_length in C1 by assumption.
    assert (C2 := count_negb bv). lia.
Qed.

Lemma own_count_set_where : forall (lab : list bool) (x : Q) (l : list Q), length lab = length l ->
  (count_true (map negb lab) <= own_count l (set_where lab x l))%nat.
Proof.
  unfold own_count, set_where.
  induction lab as [|b lab IH]; intros x [|v l] H; simpl in *; try discriminate; [apply Nat.le_refl|].
  rewrite !count_true_cons. specialize (IH x l ltac:(lia)).
  destruct b; simpl.
  - lia.
  - assert (E : Qeq_bool v v = true) by (apply Qeq_bool_iff; reflexivity). rewrite E. lia.
Qed.

Lemma not_lie_count_set_where : forall (lab : list bool) (x : Q) (l : list Q), length lab = length l ->
  (forall v, In v l -> ~ v == x) ->
  not_lie_count x (set_where lab x l) = count_true (map negb lab).
Proof.
  unfold not_lie_count, set_where.
  induction lab as [|b lab IH]; intros x [|v l] H Hd; simpl in *; try discriminate; [reflexivity|].
  rewrite !count_true_cons. rewrite (IH x l) by (try congruence; intros w Hw; apply Hd; right; exact Hw).
  destruct b; simpl.
  - assert (E : Qeq_bool x x = true) by (apply Qeq_bool_iff; reflexivity). rewrite E. reflexivity.
  - destruct (Qeq_bool v x) eqn:E; [|reflexivity]. apply Qeq_bool_iff in E. exfalso. apply (Hd v); [left; reflexivity|exact E].
Qed.

(* C13 at the wrappers: the guaranteed minimum of successes survives the data flow of filter_multimetric_points_sampled
   (GP: rows are dropped) and of filter_multimetric_points_sampled_spe (Parzen estimator: values are overwritten by the lie) *)
Theorem wrapper_gp_keeps_minimum eps om cm n pts vals vars fails lie : aligned n pts vals vars fails ->
  let o := filter_gp (EpsC om cm eps) pts vals vars fails lie in
  (Nat.min 5 n <= length (o_pts o))%nat /\
  length (o_pts o) = arr_len (o_vals o) /\ arr_len (o_vals o) = arr_len (o_vars o) /\
  exists keepm, length keepm = n /\ count_true keepm = length (o_pts o) /\
    o_pts o = select keepm pts /\ o_vals o = A1 (select keepm (col om vals)) /\ o_vars o = A1 (select keepm (col om vars)).
Proof.
  intros Hal. cbv zeta.
  pose proof (filter_gp_lengths (EpsC om cm eps) n pts vals vars fails lie Hal) as HL. cbv zeta in HL.
  destruct HL as (L1 & L2 & _).
  pose proof (filter_gp_columns_eps eps om cm n pts vals vars fails lie Hal) as HC. cbv zeta in HC.
  destruct HC as (Llab & _ & _ & _ & _ & Hmin & _).
  destruct Hal as (Hp & Hv & Hs & Hf).
  assert (Hlen : length (o_pts (filter_gp (EpsC om cm eps) pts vals vars fails lie)) =
                 count_true (map negb (pf_labelling eps om cm vals fails))).
  { cbn -[pf_labelling]. apply select_length_count. rewrite map_length. congruence. }
  split; [rewrite Hlen; exact Hmin|]. split; [exact L1|]. split; [exact L2|].
  exists (map negb (pf_labelling eps om cm vals fails)). rewrite map_length.
  split; [exact Llab|]. split; [symmetry; exact Hlen|]. repeat split; reflexivity.
Qed.

Theorem wrapper_spe_keeps_minimum eps om cm n pts vals fails lie : aligned n pts vals vals fails ->
  let o := filter_spe (EpsC om cm eps) pts vals fails lie in
  fst o = pts /\ length (snd o) = n /\
  (forall j, (j < n)%nat -> nth j (snd o) 0 = at_ vals j om \/ nth j (snd o) 0 = nth om lie 0) /\
  (Nat.min 5 n <= own_count (col om vals) (snd o))%nat /\
  ((forall j, (j < n)%nat -> ~ at_ vals j om == nth om lie 0) ->
   (Nat.min 5 n <= not_lie_count (nth om lie 0%Q) (snd o))%nat).
Proof.
  intros Hal. cbv zeta.
  pose proof (filter_spe_columns_eps eps om cm n pts vals fails lie Hal) as HC. cbv zeta in HC.
  destruct HC as (Hpts & Llab & Hnth & _ & Hmin).
  pose proof (filter_spe_lengths (EpsC om cm eps) n pts vals fails lie Hal) as HL. cbv zeta in HL. destruct HL as (_ & L2).
  destruct Hal as (Hp & Hv & _ & Hf).
  split; [exact Hpts|]. split; [exact L2|]. split; [|split].
  - intros j Hj. rewrite Hnth by exact Hj. destruct (nth j _ false); [right|left]; reflexivity.
  - cbn -[col eps_labelling own_count not_lie_count set_where]. eapply Nat.le_trans; [exact Hmin|].
    apply own_count_set_where. rewrite col_length. congruence.
  - intros Hd. cbn -[col eps_labelling own_count not_lie_count set_where]. rewrite not_lie_count_set_where; [exact Hmin|rewrite col_length; congruence|].
    intros v Hin. apply In_nth with (d := 0) in Hin. destruct Hin as (j & Hj & <-). rewrite col_length in Hj.
    rewrite <- at_col by exact Hj. apply Hd. congruence.
Qed.

Theorem wrapper_all_failed eps om cm n pts vals vars lie : aligned n pts vals vars (repeat true n) ->
  let fails := repeat true n in
  eps_failures eps cm vals fails = repeat false n /\
  o_pts (filter_gp (EpsC om cm eps) pts vals vars fails lie) = pts /\
  ((forall j, (j < n)%nat -> ~ at_ vals j om == nth om lie 0) ->
   not_lie_count (nth om lie 0%Q) (snd (filter_spe (EpsC om cm eps) pts vals fails lie)) = Nat.min 5 n).
Proof.
  intros (Hp & Hv & Hs & Hf). cbv zeta.
  assert (Hsel : forall (l : list row), select (map negb (repeat true (length l))) l = []).
  { induction l as [|x l IH]; [reflexivity|exact IH]. }
  assert (Hno : no_success vals (repeat true n) = true) by (unfold no_success; rewrite <- Hv, Hsel; reflexivity).
  assert (Hef : eps_failures eps cm vals (repeat true n) = repeat false n).
  { unfold eps_failures. rewrite Hno, <- Hv. clear. induction vals as [|x l IH]; [reflexivity|]. cbn. f_equal. exact IH. }
  split; [exact Hef|]. split.
  - cbn -[pf_labelling]. unfold pf_labelling. rewrite Hef.
    assert (HL : length vals = length (repeat false n)) by (rewrite repeat_length; exact Hv).
    destruct (min_successes om vals (repeat false n) HL) as (L & Hsub & _ & _).
    assert (Hall : force_min om vals (repeat false n) = repeat false n).
    { apply nth_ext with (d := false) (d' := false); [rewrite L; reflexivity|]. intros j Hj.
      destruct (nth j (force_min om vals (repeat false n)) false) eqn:E; [apply Hsub in E|]; rewrite ?nth_repeat in *; congruence. }
    rewrite Hall, map_on_repeat. apply select_all. symmetry. exact Hp.
  - intros Hd. cbn -[col eps_labelling not_lie_count set_where Nat.min].
    assert (HLf : length vals = length (repeat true n)) by (rewrite repeat_length; exact Hv).
    rewrite not_lie_count_set_where.
    + unfold eps_labelling. set (merged := map _ (combine _ _)).
      assert (Hm : merged = repeat true n).
      { unfold merged. rewrite Hef. clear. induction n as [|k IH]; [reflexivity|]. cbn. f_equal. exact IH. }
      rewrite Hm. destruct (min_successes om vals (repeat true n) HLf) as (_ & _ & Hc & _). cbv zeta in Hc.
      rewrite Hc, map_on_repeat, count_true_repeat, repeat_length. unfold min_success. cbn [negb]. lia.
    + rewrite col_length, eps_labelling_length by exact HLf. reflexivity.
    + intros v Hin. apply In_nth with (d := 0) in Hin. destruct Hin as (j & Hj & <-). rewrite col_length in Hj.
      rewrite <- at_col by exact Hj. apply Hd. congruence.
Qed.
