(* The vocabulary of the PSD files, over index ranges with Lib.RBase.bigsum: psdR (the quadratic form is non-negative) and factored
   (A = L L', the form in which a PSD matrix is used throughout this development, cf. C17), with the closure of psdR under entrywise
   equality and non-negative scaling.  On top of it the Schur product theorem in the form the multitask kernel needs: the entrywise
   product of a factored matrix and a PSD matrix is PSD. *)
From Coq Require Import Reals.
From LV Require Import Lib.RBase.
Open Scope R_scope.

Definition psdR (n : nat) (K : nat -> nat -> R) : Prop :=
  forall v : nat -> R, 0 <= bigsum n (fun a => bigsum n (fun b => v a * K a b * v b)).
Definition factored (n m : nat) (A L : nat -> nat -> R) : Prop :=
  forall a b, (a < n)%nat -> (b < n)%nat -> A a b = bigsum m (fun k => L a k * L b k).

Lemma bigsum_scal_r n c f : bigsum n (fun k => f k * c) = bigsum n f * c.
Proof. rewrite (bigsum_ext n _ (fun k => c * f k)) by (intros; ring). rewrite bigsum_scal. ring. Qed.

Lemma bigsum_ext2 n m (f g : nat -> nat -> R) :
  (forall a b, (a < n)%nat -> (b < m)%nat -> f a b = g a b) ->
  bigsum n (fun a => bigsum m (fun b => f a b)) = bigsum n (fun a => bigsum m (fun b => g a b)).
Proof. intros H. apply bigsum_ext. intros a Ha. apply bigsum_ext. intros b Hb. apply H; assumption. Qed.

Lemma psd_ext n K K' : (forall a b, (a < n)%nat -> (b < n)%nat -> K a b = K' a b) -> psdR n K -> psdR n K'.
Proof.
  intros HE HK v.
  rewrite (bigsum_ext2 n n _ (fun a b => v a * K a b * v b)); [apply HK|].
  intros a b Ha Hb. rewrite (HE a b Ha Hb). reflexivity.
Qed.

(* the quadratic form of the all-ones matrix is (sum_a v a)^2 *)
Lemma psd_ones n : psdR n (fun _ _ => 1).
Proof.
  intros v. rewrite (bigsum_ext n _ (fun a => v a * bigsum n v)).
  - rewrite bigsum_scal_r. apply Rle_0_sqr.
  - intros a _. rewrite <- bigsum_scal. apply bigsum_ext. intros; ring.
Qed.

Theorem hadamard_psd n m A L B : factored n m A L -> psdR n B -> psdR n (fun a b => A a b * B a b).
Proof.
  intros HF HB v.
  rewrite (bigsum_ext n _ (fun a => bigsum m (fun k => bigsum n (fun b => (v a * L a k) * B a b * (v b * L b k))))).
  - rewrite bigsum_swap. apply bigsum_nonneg. intros k _. apply (HB (fun a => v a * L a k)).
  - intros a Ha.
    rewrite (bigsum_ext n _ (fun b => bigsum m (fun k => (v a * L a k) * B a b * (v b * L b k)))).
    + apply bigsum_swap.
    + intros b Hb. rewrite (HF a b Ha Hb).
      rewrite (bigsum_ext m (fun k => v a * L a k * B a b * (v b * L b k)) (fun k => (v a * B a b * v b) * (L a k * L b k))) by (intros; ring).
      rewrite bigsum_scal. ring.
Qed.

Lemma factored_psd n m A L : factored n m A L -> psdR n A.
Proof.
  intros HF. apply (psd_ext n (fun a b => A a b * 1)); [intros; ring|].
  exact (hadamard_psd n m A L _ HF (psd_ones n)).
Qed.

Lemma psd_scale n c K : 0 <= c -> psdR n K -> psdR n (fun a b => c * K a b).
Proof.
  intros Hc HK v.
  rewrite (bigsum_ext n _ (fun a => c * bigsum n (fun b => v a * K a b * v b))).
  - rewrite bigsum_scal. apply Rmult_le_pos; [exact Hc|apply HK].
  - intros a _. rewrite <- bigsum_scal. apply bigsum_ext. intros; ring.
Qed.
