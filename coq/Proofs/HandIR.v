(* The two units of Gen.GenAcq whose IR is written by hand (tools/py2v/units_acq.py: _prod_grad_ir, _llgrad_ir) are EQUAL to the
   definitions the translator produces from the same source loops (range loops, boolean masks, per-element stores):
   Product.grad = Product.grad_loop and LogLikGrad.grad = LogLikGrad.grad_linear / grad_logdom.  Every theorem stated about the
   hand-written forms is thereby a theorem about regenerated code. *)
From Coq Require Import Reals.
From LV Require Import Lib.RBase Gen.GenAcq.
Open Scope R_scope.

Lemma product_grad_hand_is_translated dim nq poss gposs i k :
  Product.grad dim nq poss gposs i k = Product.grad_loop dim nq poss gposs i k.
Proof. unfold Product.grad, Product.grad_loop. ring. Qed.

Lemma quad_form_assoc n (a : nat -> R) (dK : nat -> nat -> nat -> R) h :
  bigsum n (fun j => bigsum n (fun l => a j * dK j l h * a l)) = bigsum n (fun j => a j * bigsum n (fun l => dK j l h * a l)).
Proof.
  apply bigsum_ext. intros j _. rewrite <- bigsum_scal. apply bigsum_ext. intros l _. ring.
Qed.

Lemma loglik_grad_hand_is_translated_linear n nh a dK Kinv s hyp h :
  LogLikGrad.grad n nh a dK Kinv s (fun _ => 1) h = LogLikGrad.grad_linear n nh a dK s hyp Kinv h.
Proof. unfold LogLikGrad.grad, LogLikGrad.grad_linear. rewrite quad_form_assoc. reflexivity. Qed.

Lemma loglik_grad_hand_is_translated_logdom n nh a dK Kinv s hyp h :
  LogLikGrad.grad n nh a dK Kinv s (fun h => exp (hyp h)) h = LogLikGrad.grad_logdom n nh a dK s hyp Kinv h.
Proof. unfold LogLikGrad.grad, LogLikGrad.grad_logdom. rewrite quad_form_assoc. reflexivity. Qed.
