(* C03, hyperparameters (Model.Hyper): which vectors a kernel rejects, and that a kernel object, whatever is assigned to it
   in whatever order, reads back and computes with the last vector it accepted.  Section Live proves this once for an
   abstract object; the radial kernels and the tensor kernel are its two instances. *)
From Coq Require Import List QArith Lia.
From LV Require Import Model.Hyper.
Import ListNotations.
Open Scope Q_scope.

Definition Bad (h : xreal) : Prop := match h with Fin q => q <= 0 | _ => True end.

Lemma entry_ok_spec h : entry_ok h = false <-> Bad h.
Proof.
  destruct h as [q| | |]; simpl; try tauto.
  rewrite negb_false_iff. apply Qle_bool_iff.
Qed.

(* a vector is inadmissible exactly when some entry is <= 0, NaN or +-inf *)
Theorem valid_false_iff_bad hp : valid hp = false <-> exists h, In h hp /\ Bad h.
Proof.
  unfold valid. induction hp as [|x l IH]; cbn [forallb].
  - split; [discriminate | intros (h & [] & _)].
  - rewrite andb_false_iff, IH, entry_ok_spec. split.
    + intros [H | (h & Hin & Hb)]; [exists x | exists h]; simpl; auto.
    + intros (h & [<- | Hin] & Hb); [left | right; exists h]; auto.
Qed.

Lemma valid_app a b : valid (a ++ b) = valid a && valid b.
Proof. apply forallb_app. Qed.

(* the invariant of a live radial kernel: it reads back exactly what it computes with, and that is admissible *)
Definition RCoh (k : radial) : Prop := r_hp k = r_alpha k :: r_ls k /\ valid (r_hp k) = true.

(* the constructor: built exactly when the vector is admissible; the object reads the vector back and computes with it
   (process variance = first entry, length scales = the rest) *)
Lemma radial_set_spec hp :
  if valid hp then exists k, radial_set hp = Some k /\ radial_get k = hp /\ (hp <> [] -> RCoh k) else radial_set hp = None.
Proof.
  unfold radial_set. destruct hp as [|a ls]; [eexists; repeat split; congruence|].
  destruct (valid (a :: ls)) eqn:V; [|reflexivity]. eexists. repeat split. exact V.
Qed.

Definition MCoh (k : multitask) : Prop :=
  entry_ok (m_alpha k) = true /\ RCoh (m_phys k) /\ RCoh (m_task k) /\ r_alpha (m_phys k) = one /\ r_alpha (m_task k) = one
  /\ length (r_ls (m_task k)) = 1%nat.

(* a vector of at least two entries is a process variance, physical length scales and a task length scale *)
Lemma long_snoc (hp : list xreal) : (2 <= length hp)%nat -> exists a ls lt, hp = a :: ls ++ [lt].
Proof.
  destruct hp as [|a [|b r]]; simpl; try lia. intros _. exists a, (removelast (b :: r)), (last (b :: r) NaN).
  f_equal. apply app_removelast_last. discriminate.
Qed.

(* what the tensor kernel's constructor builds from such a vector: the radial constructor on [1, l_1..l_d] and on [1, l_task] *)
Definition tensor (a : xreal) (ls : list xreal) (lt : xreal) : multitask :=
  {| m_alpha := a; m_phys := {| r_hp := one :: ls; r_alpha := one; r_ls := ls |};
     m_task := {| r_hp := [one; lt]; r_alpha := one; r_ls := [lt] |} |}.

Lemma multitask_set_snoc a ls lt :
  multitask_set (a :: ls ++ [lt]) = if valid (a :: ls ++ [lt]) then Some (tensor a ls lt) else None.
Proof.
  unfold multitask_set, radial_set. rewrite removelast_last, last_last.
  change (valid (a :: ls ++ [lt])) with (entry_ok a && valid (ls ++ [lt])). rewrite valid_app.
  change (valid (one :: ls)) with (valid ls). change (valid [one; lt]) with (valid [lt]). unfold valid at 2 4. cbn [forallb].
  destruct (entry_ok a), (valid ls), (entry_ok lt); reflexivity.
Qed.

Lemma tensor_MCoh a ls lt : valid (a :: ls ++ [lt]) = true -> MCoh (tensor a ls lt).
Proof.
  change (valid (a :: ls ++ [lt])) with (entry_ok a && valid (ls ++ [lt])). rewrite valid_app. unfold valid at 2. cbn [forallb].
  rewrite andb_true_r, !andb_true_iff. intros (A & L & T). repeat split; cbn; [exact A | exact L | rewrite T; reflexivity].
Qed.

(* in the shape Section Live below asks for: coherent from any such vector *)
Lemma multitask_set_spec hp : (2 <= length hp)%nat ->
  if valid hp then exists k, multitask_set hp = Some k /\ multitask_get k = hp /\ (True -> MCoh k) else multitask_set hp = None.
Proof.
  intro Hl. destruct (long_snoc hp Hl) as (a & ls & lt & ->). rewrite multitask_set_snoc.
  destruct (valid (a :: ls ++ [lt])) eqn:V; [|reflexivity]. eexists. split; [reflexivity|]. split; [reflexivity|].
  intros _. apply tensor_MCoh. exact V.
Qed.

Lemma xeqb_refl x : xeqb x x = true.
Proof. destruct x as [q| | |]; cbn; try reflexivity. apply Qeq_bool_iff. reflexivity. Qed.
Lemma xlist_eqb_refl l : xlist_eqb l l = true.
Proof. induction l as [|x l IH]; cbn; [reflexivity|]. rewrite xeqb_refl, IH. reflexivity. Qed.

Lemma RCoh_b k : RCoh k -> radial_coherent k = true.
Proof. intros [H V]. unfold radial_coherent, radial_get. rewrite V, H. rewrite xlist_eqb_refl. reflexivity. Qed.

Lemma MCoh_b k : MCoh k -> multitask_coherent k = true.
Proof.
  intros (Ha & Hp & Ht & Hp1 & Ht1 & Hl). unfold multitask_coherent. rewrite Ha, (RCoh_b _ Hp), (RCoh_b _ Ht), Hp1, Ht1, Hl. reflexivity.
Qed.

Lemma RCoh_get_valid k : RCoh k -> valid (radial_get k) = true /\ exists r, radial_get k = r_alpha k :: r.
Proof. intros [H V]. split; [exact V | exists (r_ls k); exact H]. Qed.

Lemma MCoh_get_valid k : MCoh k -> valid (multitask_get k) = true /\ exists r, multitask_get k = m_alpha k :: r.
Proof.
  intros (Ha & (Hp & Vp) & (Ht & Vt) & Hp1 & Ht1 & Hl). unfold multitask_get, radial_get. split; [|eexists; reflexivity].
  rewrite Hp, Ht in *. cbn [tl]. destruct (r_ls (m_task k)) as [|lt [|? ?]]; try discriminate Hl. cbn [last].
  change (m_alpha k :: r_ls (m_phys k) ++ [lt]) with ([m_alpha k] ++ r_ls (m_phys k) ++ [lt]). rewrite !valid_app.
  unfold valid in *. cbn [forallb] in *. rewrite Ha. apply andb_true_iff in Vp. destruct Vp as [_ Vp]. rewrite Vp.
  apply andb_true_iff in Vt. destruct Vt as [_ Vt]. rewrite Vt. reflexivity.
Qed.

(* Live objects: sequences of assignments (accepted and rejected), read-backs and uses on one kernel object.
   Both kernels are objects with a constructor `set` (Pg: the vectors on which it is specified; Pc: those from which it builds a
   coherent object), a getter, a process variance and a coherence test; an assignment is the constructor, keeping the old object
   when it raises.  Model.Hyper's radial_step / multitask_step unfold to `step` at the respective operations, so the
   instances below close by `exact`. *)
Definition sets_ok (P : list xreal -> Prop) (ops : list hop) : Prop :=
  Forall (fun o => match o with HSet hp => P hp | _ => True end) ops.
Definition nonempty_sets (ops : list hop) : Prop := Forall (fun o => match o with HSet hp => hp <> [] | _ => True end) ops.
Definition long_sets (ops : list hop) : Prop := Forall (fun o => match o with HSet hp => (2 <= length hp)%nat | _ => True end) ops.

Lemma run_cons {S} (step : S -> hop -> S * hout) k o r :
  run step k (o :: r) = (fst (run step (fst (step k o)) r), snd (step k o) :: snd (run step (fst (step k o)) r)).
Proof. cbn. destruct (step k o) as [k1 out]. cbn. destruct (run step k1 r). reflexivity. Qed.

Lemma run_app {S} (step : S -> hop -> S * hout) ops1 : forall k ops2,
  run step k (ops1 ++ ops2) = (fst (run step (fst (run step k ops1)) ops2), snd (run step k ops1) ++ snd (run step (fst (run step k ops1)) ops2)).
Proof.
  induction ops1 as [|o r IH]; intros k ops2; [cbn; destruct (run step k ops2); reflexivity|].
  change ((o :: r) ++ ops2) with (o :: (r ++ ops2)). rewrite !run_cons. rewrite IH. cbn [fst snd]. reflexivity.
Qed.

Lemma run_length {S} (step : S -> hop -> S * hout) ops : forall k, length (snd (run step k ops)) = length ops.
Proof. induction ops as [|o r IH]; intros k; [reflexivity|]. rewrite run_cons. cbn. rewrite IH. reflexivity. Qed.

(* the output at position |ops1| of a history ops1 ++ o :: ops2 is that of o on the object ops1 leaves *)
Lemma run_nth {S} (step : S -> hop -> S * hout) k ops1 o ops2 d :
  nth (length ops1) (snd (run step k (ops1 ++ o :: ops2))) d = snd (step (fst (run step k ops1)) o).
Proof.
  rewrite run_app. cbn [snd]. rewrite app_nth2; rewrite run_length; [|lia]. rewrite Nat.sub_diag, run_cons. reflexivity.
Qed.

Section Live.
  Variables (S : Type) (set : list xreal -> option S) (get : S -> list xreal) (alpha : S -> xreal) (cohb : S -> bool).
  Variables (Pg Pc : list xreal -> Prop) (Coh : S -> Prop).
  Hypothesis set_spec : forall hp, Pg hp ->
    if valid hp then exists k, set hp = Some k /\ get k = hp /\ (Pc hp -> Coh k) else set hp = None.
  Hypothesis Coh_b : forall k, Coh k -> cohb k = true.
  Hypothesis Coh_get : forall k, Coh k -> valid (get k) = true /\ exists r, get k = alpha k :: r.

  Theorem set_rejects hp : Pg hp -> (set hp = None <-> exists h, In h hp /\ Bad h).
  Proof.
    intro P. rewrite <- valid_false_iff_bad. pose proof (set_spec hp P) as H.
    destruct (valid hp); [destruct H as (k & -> & _); split; discriminate | tauto].
  Qed.

  Theorem set_roundtrip hp k : Pg hp -> set hp = Some k -> get k = hp.
  Proof.
    intros P E. pose proof (set_spec hp P) as H. destruct (valid hp); [|congruence].
    destruct H as (k' & E' & G & _). congruence.
  Qed.

  Definition assign (k : S) (hp : list xreal) : S * bool :=
    match set hp with Some k' => (k', true) | None => (k, false) end.
  Definition step (k : S) (o : hop) : S * hout :=
    match o with
    | HSet hp => let '(k', ok) := assign k hp in (k', OSet ok)
    | HGet => (k, OGet (get k))
    | HProbe => (k, OProbe (alpha k) (cohb k))
    end.

  (* accepted iff every entry is admissible; accepted -> the vector reads back; rejected -> NOTHING changed *)
  Theorem assign_spec k hp : Pg hp ->
    snd (assign k hp) = valid hp /\ (valid hp = true -> get (fst (assign k hp)) = hp) /\ (valid hp = false -> fst (assign k hp) = k).
  Proof.
    intro P. pose proof (set_spec hp P) as H. unfold assign. destruct (valid hp).
    - destruct H as (k' & -> & G & _). cbn. split; [reflexivity|]. split; [intros _; exact G | discriminate].
    - rewrite H. cbn. split; [reflexivity|]. split; [discriminate | reflexivity].
  Qed.

  Theorem rejected_unchanged k hp k' : assign k hp = (k', false) -> k' = k.
  Proof. unfold assign. destruct (set hp); intro H; inversion H. reflexivity. Qed.

  Lemma step_Coh k o : Coh k -> match o with HSet hp => Pg hp /\ Pc hp | _ => True end -> Coh (fst (step k o)).
  Proof.
    intros Hk Ho. destruct o as [hp| |]; [|exact Hk|exact Hk]. destruct Ho as [G C]. pose proof (set_spec hp G) as H.
    cbn [step]. unfold assign. destruct (valid hp); [destruct H as (k' & -> & _ & H); exact (H C) | rewrite H; exact Hk].
  Qed.

  Theorem run_coherent ops : forall k, Coh k -> sets_ok Pg ops -> sets_ok Pc ops -> Coh (fst (run step k ops)).
  Proof.
    induction ops as [|o r IH]; intros k Hk Hg Hc; [exact Hk|]. rewrite run_cons. cbn [fst].
    inversion Hg as [|? ? Go Gr]; inversion Hc as [|? ? Co Cr]; subst.
    apply IH; [apply step_Coh; [exact Hk | destruct o; auto] | exact Gr | exact Cr].
  Qed.

  (* the getter after ANY sequence of operations: the last vector that was accepted (the constructor's if none was) *)
  Theorem run_get ops : forall k, sets_ok Pg ops -> get (fst (run step k ops)) = last_accepted (get k) ops.
  Proof.
    induction ops as [|o r IH]; intros k Hg; [reflexivity|]. inversion Hg as [|? ? Go Gr]; subst.
    rewrite run_cons. cbn [fst]. rewrite (IH _ Gr). destruct o as [hp| |]; cbn [last_accepted]; try reflexivity.
    destruct (assign_spec k hp Go) as (_ & Ha & Hu). cbn [step]. destruct (assign k hp) as [k' ok]. cbn [fst] in *.
    destruct (valid hp); [rewrite (Ha eq_refl)|rewrite (Hu eq_refl)]; reflexivity.
  Qed.

  Theorem life_coherent hp0 k ops : Pg hp0 -> Pc hp0 -> set hp0 = Some k -> sets_ok Pg ops -> sets_ok Pc ops ->
    Coh (fst (run step k ops)) /\ get (fst (run step k ops)) = last_accepted hp0 ops.
  Proof.
    intros G0 C0 E Hg Hc. pose proof (set_spec hp0 G0) as H. destruct (valid hp0); [|congruence].
    destruct H as (k' & E' & G & C). rewrite E in E'. injection E' as <-.
    split; [exact (run_coherent ops k (C C0) Hg Hc) | rewrite <- G; exact (run_get ops k Hg)].
  Qed.

  (* every read-back in a history shows the last vector accepted before it *)
  Theorem history_readback k ops1 ops2 : sets_ok Pg ops1 ->
    nth (length ops1) (snd (run step k (ops1 ++ HGet :: ops2))) (OSet false) = OGet (last_accepted (get k) ops1).
  Proof. intro Hg. rewrite run_nth. cbn [step snd]. rewrite run_get by exact Hg. reflexivity. Qed.

  (* every use in a history is the use of a coherent kernel whose process variance heads that vector *)
  Theorem history_probe k ops1 ops2 : Coh k -> sets_ok Pg ops1 -> sets_ok Pc ops1 ->
    exists a ls, last_accepted (get k) ops1 = a :: ls /\
    nth (length ops1) (snd (run step k (ops1 ++ HProbe :: ops2))) (OSet false) = OProbe a true.
  Proof.
    intros Hk Hg Hc. pose proof (run_coherent ops1 k Hk Hg Hc) as H1. destruct (Coh_get _ H1) as (_ & ls & E).
    rewrite run_get in E by exact Hg. exists (alpha (fst (run step k ops1))), ls. split; [exact E|].
    rewrite run_nth. cbn [step snd]. rewrite (Coh_b _ H1). reflexivity.
  Qed.

  (* the model satisfies the specification that the correspondence evaluates on the implementation's own outputs *)
  Theorem model_meets_spec ops : forall k, Coh k -> sets_ok Pg ops -> sets_ok Pc ops ->
    spec_outs true (get k) ops (snd (run step k ops)) = true.
  Proof.
    induction ops as [|o r IH]; intros k Hk Hg Hc; [reflexivity|].
    pose proof (Forall_inv Hg) as Go. pose proof (Forall_inv Hc) as Co. rewrite run_cons. cbn [snd].
    assert (Hk1 : Coh (fst (step k o))) by (apply step_Coh; [exact Hk | destruct o; auto]).
    specialize (IH _ Hk1 (Forall_inv_tail Hg) (Forall_inv_tail Hc)).
    destruct (Coh_get k Hk) as (Vg & rg & Eg). destruct o as [hp| |]; cbn [step fst snd spec_outs] in IH |- *.
    - destruct (assign_spec k hp Go) as (Hs & Ha & Hu). destruct (assign k hp) as [k' ok]. cbn [fst snd] in Hs, Ha, Hu, IH |- *.
      rewrite Hs, eqb_reflx. destruct (valid hp); [rewrite <- (Ha eq_refl) | rewrite <- (Hu eq_refl)]; exact IH.
    - rewrite Vg.
      assert (M : match get k with [] => true | _ :: _ => xlist_eqb (get k) (get k) end = true)
        by (destruct (get k); [reflexivity | apply xlist_eqb_refl]).
      rewrite M. exact IH.
    - rewrite (Coh_b _ Hk). rewrite Eg at 1. rewrite xeqb_refl. exact IH.
  Qed.

End Live.

Lemma sets_ok_True ops : sets_ok (fun _ => True) ops.
Proof. apply Forall_forall. intros [hp| |] _; exact I. Qed.

(* the radial kernels as live objects: the constructor is specified on every vector, coherent from a non-empty one *)
Definition radial_live := fun hp (_ : True) => radial_set_spec hp.

Theorem hyper_rejects hp : hp <> [] -> (radial_set hp = None <-> exists h, In h hp /\ Bad h).
Proof. intros _. exact (set_rejects _ _ _ _ _ _ radial_live hp I). Qed.

Theorem hyper_roundtrip_radial hp k : radial_set hp = Some k -> radial_get k = hp.
Proof. exact (set_roundtrip _ _ _ _ _ _ radial_live hp k I). Qed.

Theorem radial_assign_spec k hp :
  snd (radial_assign k hp) = valid hp /\
  (valid hp = true -> radial_get (fst (radial_assign k hp)) = hp) /\
  (valid hp = false -> fst (radial_assign k hp) = k).
Proof. exact (assign_spec _ _ _ _ _ _ radial_live k hp I). Qed.

Theorem radial_rejected_unchanged k hp k' : radial_assign k hp = (k', false) -> k' = k.
Proof. exact (rejected_unchanged _ radial_set k hp k'). Qed.

Theorem radial_history_readback k ops1 ops2 :
  nth (length ops1) (snd (run radial_step k (ops1 ++ HGet :: ops2))) (OSet false) = OGet (last_accepted (radial_get k) ops1).
Proof. exact (history_readback _ _ _ r_alpha radial_coherent _ _ _ radial_live k ops1 ops2 (sets_ok_True ops1)). Qed.

Theorem radial_history_probe k ops1 ops2 : RCoh k -> nonempty_sets ops1 ->
  exists a ls, last_accepted (radial_get k) ops1 = a :: ls /\
  nth (length ops1) (snd (run radial_step k (ops1 ++ HProbe :: ops2))) (OSet false) = OProbe a true.
Proof. intros Hk Hn. exact (history_probe _ _ _ _ _ _ _ _ radial_live RCoh_b RCoh_get_valid k ops1 ops2 Hk (sets_ok_True ops1) Hn). Qed.

Theorem radial_model_meets_spec ops : forall k, RCoh k -> nonempty_sets ops ->
  spec_outs true (radial_get k) ops (snd (run radial_step k ops)) = true.
Proof. intros k Hk Hn. exact (model_meets_spec _ _ _ _ _ _ _ _ radial_live RCoh_b RCoh_get_valid ops k Hk (sets_ok_True ops) Hn). Qed.

Theorem radial_life_coherent hp0 k ops : radial_set hp0 = Some k -> hp0 <> [] -> nonempty_sets ops ->
  RCoh (fst (run radial_step k ops)) /\ radial_get (fst (run radial_step k ops)) = last_accepted hp0 ops.
Proof.
  intros H Hne Hn. exact (life_coherent _ _ _ r_alpha radial_coherent _ _ _ radial_live hp0 k ops I Hne H (sets_ok_True ops) Hn).
Qed.

(* the tensor kernel as a live object: specified, and coherent, from any vector of at least two entries *)
Theorem hyper_rejects_multitask hp : (2 <= length hp)%nat ->
  (multitask_set hp = None <-> exists h, In h hp /\ Bad h).
Proof. exact (set_rejects _ _ _ _ _ _ multitask_set_spec hp). Qed.

Theorem hyper_roundtrip_multitask hp k : multitask_set hp = Some k -> (2 <= length hp)%nat -> multitask_get k = hp.
Proof. intros E Hl. exact (set_roundtrip _ _ _ _ _ _ multitask_set_spec hp k Hl E). Qed.

(* rejected - for the process variance, a physical length scale or the task length scale - NOTHING changed *)
Theorem multitask_assign_spec k hp : (2 <= length hp)%nat ->
  snd (multitask_assign k hp) = valid hp /\ (valid hp = true -> multitask_get (fst (multitask_assign k hp)) = hp) /\
  (valid hp = false -> fst (multitask_assign k hp) = k).
Proof. exact (assign_spec _ _ _ _ _ _ multitask_set_spec k hp). Qed.

Theorem multitask_rejected_unchanged k hp k' : multitask_assign k hp = (k', false) -> k' = k.
Proof. exact (rejected_unchanged _ multitask_set k hp k'). Qed.

Theorem multitask_model_meets_spec ops : forall k, MCoh k -> long_sets ops ->
  spec_outs true (multitask_get k) ops (snd (run multitask_step k ops)) = true.
Proof. intros k Hk Hn. exact (model_meets_spec _ _ _ _ _ _ _ _ multitask_set_spec MCoh_b MCoh_get_valid ops k Hk Hn (sets_ok_True ops)). Qed.

(* whatever is assigned, accepted or rejected, in whatever order: the tensor kernel stays a kernel that computes with the admissible
   hyperparameters it reads back *)
Theorem multitask_life_coherent hp0 k ops : multitask_set hp0 = Some k -> (2 <= length hp0)%nat -> long_sets ops ->
  let k' := fst (run multitask_step k ops) in
  MCoh k' /\ valid (multitask_get k') = true /\ multitask_get k' = last_accepted hp0 ops.
Proof.
  intros H Hl Hn k'.
  destruct (life_coherent _ _ _ m_alpha multitask_coherent _ _ _ multitask_set_spec hp0 k ops Hl I H Hn (sets_ok_True ops)) as [C G].
  split; [exact C|]. split; [exact (proj1 (MCoh_get_valid _ C)) | exact G].
Qed.
