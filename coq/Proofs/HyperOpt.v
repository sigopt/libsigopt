(* Proofs for C11 about Model.HyperOpt, which composes Model.Multistart (C07), Model.Midpoint (C12) and Model.Decode (C09).
   In the order of one fit: the get / set round trip of the likelihood object, the layout of the packed vector (`unpack`),
   the search box (`BoxOk`), the multistart result (in the box, or the start vector), then the run over the view's
   jobs: one fit per metric whose values are not constant (`fit_ok`, `view_pre`, `view_jobs` are the words Props/C11.v uses),
   and that a job reads only its own column of the raw values. *)
From Coq Require Import List QArith Lia Lqa.
From LV Require Import Model.Domain Model.HyperOpt.
From LV Require Model.Decode Model.Midpoint Model.Optim Model.Multistart Proofs.Multistart Proofs.Midpoint.
Import ListNotations.
Open Scope Q_scope.

(* Model.Domain's Qltb and this model's Qmaxb / Qminb are defined word for word as Model.Midpoint's: its lemmas apply by conversion *)
Lemma Qltb_true a b : Qltb a b = true <-> a < b.
Proof. exact (Proofs.Midpoint.Qltb_true a b). Qed.
Lemma pos_b_true x : pos_b x = true <-> 0 < x.
Proof. apply Qltb_true. Qed.
Lemma Qmaxb_spec a b : (a <= b /\ Qmaxb a b = b) \/ (b < a /\ Qmaxb a b = a).
Proof. exact (Proofs.Midpoint.Qmaxb_spec a b). Qed.
Lemma Qminb_spec a b : (a <= b /\ Qminb a b = a) \/ (b < a /\ Qminb a b = b).
Proof. exact (Proofs.Midpoint.Qminb_spec a b). Qed.

Lemma firstn_last_id {A} (d : A) : forall n l, length l = S n -> firstn n l ++ [last l d] = l.
Proof.
  induction n as [|n IH]; intros [|x [|y r]] H; simpl in H; try discriminate; try lia.
  - reflexivity.
  - change (x :: (firstn n (y :: r) ++ [last (y :: r) d]) = x :: y :: r). f_equal. apply IH. simpl. congruence.
Qed.

Lemma firstn_plus {A} : forall a b (v : list A), firstn (a + b) v = firstn a v ++ firstn b (skipn a v).
Proof.
  induction a as [|a IH]; intros b v; [reflexivity|]. destruct v as [|x v]; simpl.
  - now rewrite firstn_nil.
  - f_equal. apply IH.
Qed.

Section LLProofs.
  Variable E L : Q -> Q.
  Variable D : Type.
  Implicit Types s : @ll D.

  Lemma ll_set_ok s hp s' : ll_set E s hp = Ok s' ->
    length hp = problem_size s /\
    forallb pos_b (firstn (S (ll_dim s)) (if ll_log s then map E hp else hp)) = true /\
    s' = mkll (ll_dim s) (ll_auto s) (ll_log s) (firstn (S (ll_dim s)) (if ll_log s then map E hp else hp))
              (if ll_auto s then Some (last (if ll_log s then map E hp else hp) 0) else None) (ll_data s).
  Proof.
    unfold ll_set. destruct (Nat.eqb (length hp) (problem_size s)) eqn:El; cbn [negb]; [|discriminate].
    destruct (forallb pos_b (firstn (S (ll_dim s)) (if ll_log s then map E hp else hp))) eqn:Ev; cbn [negb]; [|discriminate].
    intro H. injection H as <-. apply Nat.eqb_eq in El. auto.
  Qed.

  (* reading after a successful set returns exactly what was set, mapped through log . exp in the log parameterisation *)
  Lemma get_after_set s hp s' : ll_set E s hp = Ok s' ->
    ll_get L s' = Some (if ll_log s then map L (map E hp) else hp).
  Proof.
    intro H. apply ll_set_ok in H. destruct H as (Hl & _ & ->). unfold ll_get, problem_size in *.
    cbn [ll_auto ll_tik ll_cov ll_log].
    set (lin := if ll_log s then map E hp else hp) in *.
    assert (Hlin : length lin = length hp) by (unfold lin; destruct (ll_log s); [apply map_length|reflexivity]).
    destruct (ll_auto s).
    - rewrite firstn_last_id by lia. unfold lin. destruct (ll_log s); reflexivity.
    - rewrite firstn_all2 by lia. unfold lin. destruct (ll_log s); reflexivity.
  Qed.

  Theorem set_get_id_linear s hp s' : ll_log s = false -> ll_set E s hp = Ok s' -> ll_get L s' = Some hp.
  Proof. intros Hlog H. rewrite (get_after_set _ _ _ H), Hlog. reflexivity. Qed.

  Theorem set_get_id s hp s' : (forall a, L (E a) == a) -> ll_set E s hp = Ok s' ->
    exists hp', ll_get L s' = Some hp' /\ Forall2 Qeq hp' hp.
  Proof.
    intros HLE H. rewrite (get_after_set _ _ _ H). eexists. split; [reflexivity|].
    destruct (ll_log s).
    - clear H. induction hp as [|a r IH]; simpl; constructor; [apply HLE | exact IH].
    - clear H. induction hp as [|a r IH]; constructor; [reflexivity | exact IH].
  Qed.

  (* the freshly constructed object reads back the covariance hyperparameters, followed by 1e-10 when a nugget is fitted *)
  Lemma init_get dim auto cov (d : D) :
    ll_get L (ll_init dim auto false cov d) = Some (if auto then cov ++ [DEFAULT_TIK] else cov).
  Proof. unfold ll_get, ll_init. cbn [ll_auto ll_tik ll_cov ll_log]. destruct auto; reflexivity. Qed.

  (* setting what was read leaves the object as it is (linear parameterisation) *)
  Theorem get_set_id_linear s hp : ll_log s = false -> length (ll_cov s) = S (ll_dim s) ->
    forallb pos_b (ll_cov s) = true -> (ll_auto s = false -> ll_tik s = None) ->
    ll_get L s = Some hp -> ll_set E s hp = Ok s.
  Proof.
    intros Hlog Hlen Hpos Htik. unfold ll_get, ll_set, problem_size. rewrite Hlog.
    destruct s as [dim auto lg cov tik d]. cbn [ll_auto ll_tik ll_cov ll_log ll_dim ll_data] in *. subst lg.
    destruct auto.
    - destruct tik as [t|]; [|discriminate]. intro H. injection H as <-.
      assert (F : firstn (S dim) (cov ++ [t]) = cov).
      { rewrite <- Hlen. rewrite firstn_app, Nat.sub_diag, firstn_all. cbn [firstn]. apply app_nil_r. }
      rewrite app_length, Hlen. cbn [length]. rewrite Nat.eqb_refl. cbn [negb].
      rewrite F, Hpos. cbn [negb]. rewrite last_last. reflexivity.
    - intro H. injection H as <-. rewrite Hlen, Nat.add_0_r, Nat.eqb_refl. cbn [negb].
      assert (F : firstn (S dim) cov = cov) by (rewrite <- Hlen; apply firstn_all).
      rewrite F, Hpos. cbn [negb]. rewrite (Htik eq_refl). reflexivity.
  Qed.

  (* the value in the log parameterisation at a is the value in the linear parameterisation at exp a: both build the same
     GaussianProcess (same covariance hyperparameters, same nugget, same data); and one call fails iff the other does *)
  Theorem param_invariant (V : list Q -> option Q -> D -> Q) (scale : Q) s a :
    match ll_set E (with_log true s) a, ll_set E (with_log false s) (map E a) with
    | Ok s1, Ok s2 => ll_cov s1 = ll_cov s2 /\ ll_tik s1 = ll_tik s2 /\ ll_data s1 = ll_data s2 /\
                      ll_value V scale s1 = ll_value V scale s2
    | Err e1, Err e2 => e1 = e2
    | _, _ => False
    end.
  Proof.
    unfold ll_set, with_log, problem_size. cbn [ll_auto ll_tik ll_cov ll_log ll_dim ll_data]. rewrite map_length.
    destruct (Nat.eqb (length a) (S (ll_dim s) + (if ll_auto s then 1 else 0))); cbn [negb]; [|reflexivity].
    destruct (forallb pos_b (firstn (S (ll_dim s)) (map E a))); cbn [negb]; [|reflexivity].
    unfold ll_value. cbn [ll_auto ll_tik ll_cov ll_log ll_dim ll_data]. repeat split; reflexivity.
  Qed.
End LLProofs.

Lemma take_spec {A} : forall n (v : list A), (n <= length v)%nat -> take n v = Some (firstn n v, skipn n v).
Proof.
  induction n as [|n IH]; intros v H; [reflexivity|]. destruct v as [|x v]; simpl in *; [lia|].
  rewrite IH by lia. reflexivity.
Qed.

Lemma regroup_spec : forall cs v, (Decode.one_hot_dim cs <= length v)%nat ->
  exists g, regroup cs v = Some g /\ Forall2 (fun c l => length l = Decode.width c) cs g /\
            concat g = firstn (Decode.one_hot_dim cs) v.
Proof.
  induction cs as [|c r IH]; intros v H.
  - exists []. repeat split. constructor.
  - change (Decode.one_hot_dim (c :: r)) with (Decode.width c + Decode.one_hot_dim r)%nat in *.
    cbn [regroup]. rewrite take_spec by lia.
    destruct (IH (skipn (Decode.width c) v)) as (g & Eg & Fg & Cg); [rewrite skipn_length; lia|].
    rewrite Eg. exists (firstn (Decode.width c) v :: g). split; [reflexivity|]. split.
    + constructor; [|exact Fg]. rewrite firstn_length. lia.
    + simpl. rewrite Cg. symmetry. apply firstn_plus.
Qed.

Lemma oget_concat_some g : map oget (concat (map (map (@Some Q)) g)) = concat g.
Proof.
  induction g as [|l g IH]; [reflexivity|]. simpl. rewrite map_app, IH. f_equal.
  rewrite map_map. simpl. apply map_id.
Qed.

Lemma structure_of_lengths cs g : Forall2 (fun c l => length l = Decode.width c) cs g ->
  forall2b (fun c l => Nat.eqb (length l) (Decode.width c) && forallb (fun o => negb (is_none o)) l) cs (map (map (@Some Q)) g) = true.
Proof.
  induction 1 as [|c l cs g Hl _ IH]; [reflexivity|]. simpl. rewrite map_length, Hl, Nat.eqb_refl, IH. simpl.
  rewrite andb_true_r. clear. induction l; simpl; auto.
Qed.

Definition b2n (b : bool) : nat := if b then 1%nat else 0%nat.

Definition olist (o : option Q) : list Q := match o with Some t => [t] | None => [] end.

(* a vector of the right length is the one-hot length scales followed by the optional task length and the optional nugget *)
Lemma split_slots n (mt auto : bool) (rest : list Q) : length rest = (n + b2n mt + b2n auto)%nat ->
  exists body task tik, rest = body ++ olist task ++ olist tik /\ length body = n /\
                        mt = negb (is_none task) /\ auto = negb (is_none tik).
Proof.
  intro H. assert (L : length (skipn n rest) = (b2n mt + b2n auto)%nat) by (rewrite skipn_length; lia).
  assert (Lb : length (firstn n rest) = n) by (rewrite firstn_length; lia).
  rewrite <- (firstn_skipn n rest). exists (firstn n rest).
  destruct mt, auto; destruct (skipn n rest) as [|a [|b [|c r]]]; try discriminate L;
    [exists (Some a), (Some b) | exists (Some a), None | exists None, (Some a) | exists None, None]; repeat split; exact Lb.
Qed.

Lemma match_snoc {A B} (l : list A) x (b c : B) : match l ++ [x] with [] => b | _ :: _ => c end = c.
Proof. destruct l; reflexivity. Qed.

(* unpack on such a vector: the nugget is popped first, the task length is the last entry of what is left *)
Lemma unpack_slots cs alpha body task tik g : regroup cs (body ++ olist task) = Some g ->
  unpack cs (negb (is_none task)) (negb (is_none tik)) (alpha :: body ++ olist task ++ olist tik)
  = Some (mkhp alpha (map (map (@Some Q)) g) task tik).
Proof.
  intro Eg. unfold unpack.
  assert (T : (if negb (is_none task) then match body ++ olist task with [] => None | _ => Some (Some (last (body ++ olist task) 0)) end
               else Some None) = Some task).
  { destruct task as [t|]; cbn [olist is_none negb]; [|reflexivity]. now rewrite match_snoc, last_last. }
  destruct tik as [k|]; cbn [olist is_none negb].
  - rewrite app_assoc, match_snoc, removelast_last, last_last, Eg, T. reflexivity.
  - rewrite app_nil_r, Eg, T. reflexivity.
Qed.

(* the returned dictionary: one length scale per numeric parameter and one per category, nugget iff one is fitted, task
   length iff multitask; and no value of the optimiser's vector is lost or moved: packing the dictionary gives the vector *)
Theorem unpack_structure cs mt auto v :
  length v = S (Decode.one_hot_dim cs + b2n mt + b2n auto) ->
  exists d, unpack cs mt auto v = Some d /\ structure_b cs mt auto d = true /\ pack d = v /\
            length (h_ls d) = length cs.
Proof.
  intro Hlen. destruct v as [|alpha rest]; [discriminate|]. injection Hlen as Hlen.
  destruct (split_slots _ mt auto rest Hlen) as (body & task & tik & -> & Lb & -> & ->).
  destruct (regroup_spec cs (body ++ olist task)) as (g & Eg & Fg & Cg); [rewrite app_length; lia|].
  rewrite firstn_app, <- Lb, Nat.sub_diag, firstn_all, app_nil_r in Cg.
  exists (mkhp alpha (map (map (@Some Q)) g) task tik). split; [exact (unpack_slots cs alpha body task tik g Eg)|]. split; [|split].
  - unfold structure_b. cbn [h_ls h_task h_tik]. rewrite (structure_of_lengths _ _ Fg), !eqb_reflx. reflexivity.
  - unfold pack. cbn [h_alpha h_ls h_task h_tik]. rewrite oget_concat_some, Cg. reflexivity.
  - cbn [h_ls]. rewrite map_length. symmetry. clear -Fg. induction Fg; simpl; auto.
Qed.

Fixpoint increasing (l : list Q) : Prop :=
  match l with a :: ((b :: _) as r) => a < b /\ increasing r | _ => True end.
Definition grid_increasing (c : component) : Prop := match c with Grid es => increasing es | _ => True end.

Definition BoxOk (b : list (Q * Q)) : Prop := Forall (fun lh => 0 < fst lh /\ fst lh < snd lh) b.
Lemma box_ok_b_spec b : box_ok_b b = true <-> BoxOk b.
Proof.
  unfold box_ok_b, BoxOk. rewrite forallb_forall, Forall_forall. split; intros H x Hx; specialize (H x Hx).
  - apply andb_prop in H. destruct H as [H1 H2]. split; [apply pos_b_true|apply Qltb_true]; assumption.
  - destruct H as [H1 H2]. apply andb_true_intro. split; [apply pos_b_true|apply Qltb_true]; assumption.
Qed.

Lemma sample_var_pos l : MINVAR <= sample_var l.
Proof.
  unfold sample_var. destruct (variance l) as [v|]; [|apply Qle_refl].
  destruct (Qmaxb_spec v MINVAR) as [[H ->]|[H ->]]; [apply Qle_refl | apply Qlt_le_weak, H].
Qed.

Lemma fold_minb_le l : forall x, fold_left Qminb l x <= x.
Proof.
  intro x. apply (Proofs.Midpoint.list_min_spec x l). left. reflexivity.
Qed.
Lemma increasing_hd_le_last : forall l a, increasing (a :: l) -> a <= last (a :: l) 0.
Proof.
  induction l as [|b r IH]; intros a H; [simpl; apply Qle_refl|].
  destruct H as [H1 H2]. change (last (a :: b :: r) 0) with (last (b :: r) 0).
  specialize (IH b H2). lra.
Qed.

(* the lower bound max(a, b) of an entry is positive as soon as b is, and below c when both are *)
Lemma Qmaxb_between a b c : 0 < b -> a < c -> b < c -> 0 < Qmaxb a b /\ Qmaxb a b < c.
Proof. intros Hb Ha Hc. destruct (Qmaxb_spec a b) as [[H ->]|[H ->]]; split; lra. Qed.

(* the length-scale interval of a grid axis is proper and positive: the smallest gap of an increasing grid is at most its
   first gap, which is at most its width *)
Lemma grid_box_ok es : (1 < length es)%nat -> increasing es ->
  let w := last es 0 - hd 0 es in
  0 < Qmaxb (GRID_LO * min_list (diffs es)) (LS_LO * w) /\ Qmaxb (GRID_LO * min_list (diffs es)) (LS_LO * w) < LS_HI * w.
Proof.
  intros Hlen Hinc. destruct es as [|a [|b r]]; simpl in Hlen; try lia. destruct Hinc as [Hab Hinc].
  pose proof (increasing_hd_le_last _ _ Hinc) as Hl. pose proof (fold_minb_le (diffs (b :: r)) (b - a)) as Hm.
  cbv zeta. change (last (a :: b :: r) 0) with (last (b :: r) 0).
  change (min_list (diffs (a :: b :: r))) with (fold_left Qminb (diffs (b :: r)) (b - a)). cbn [hd].
  unfold GRID_LO, LS_LO, LS_HI. apply Qmaxb_between; lra.
Qed.

Lemma comp_box_ok dll c : 0 < dll -> dll < 1 -> wf_component c = true -> grid_increasing c -> BoxOk (comp_box dll c).
Proof.
  intros H0 H1 Hwf Hg. destruct c as [lo hi|lo hi|es|es]; cbn [comp_box wf_component grid_increasing] in *.
  - apply Qltb_true in Hwf. repeat constructor; cbn [fst snd]; unfold LS_LO, LS_HI; lra.
  - apply Z.ltb_lt in Hwf. assert (Hw : 1 <= inject_Z hi - inject_Z lo).
    { assert (H : (lo + 1 <= hi)%Z) by lia. rewrite Zle_Qle in H. rewrite inject_Z_plus in H. change (inject_Z 1) with 1 in H. lra. }
    constructor; [|constructor]. cbn [fst snd]. unfold LS_LO, LS_HI. apply Qmaxb_between; lra.
  - apply Forall_forall. intros x Hx. apply repeat_spec in Hx. subst x. cbn [fst snd]. unfold CAT_HI. split; lra.
  - apply andb_prop in Hwf. destruct Hwf as [Hlen _]. apply Nat.ltb_lt in Hlen. repeat constructor; apply (grid_box_ok es Hlen Hg).
Qed.

Lemma comp_box_length dll c : length (comp_box dll c) = Decode.width c.
Proof. destruct c; simpl; auto. apply repeat_length. Qed.

(* bounds from the sample variance and the parameter widths, per parameter type, task length, nugget: all positive, lo < hi,
   one entry per coordinate of the hyperparameter vector *)
Theorem search_box_spec cs vals auto mt dll : 0 < dll -> dll < 1 ->
  Forall (fun c => wf_component c = true) cs -> Forall grid_increasing cs ->
  BoxOk (hp_box cs vals auto mt dll) /\
  length (hp_box cs vals auto mt dll) = S (Decode.one_hot_dim cs + b2n mt + b2n auto).
Proof.
  intros H0 H1 Hwf Hg. pose proof (sample_var_pos vals) as Hsv. unfold MINVAR in Hsv. split.
  - unfold hp_box. constructor; [cbn [fst snd]; unfold ALPHA_LO, ALPHA_HI; split; lra|].
    apply Forall_app. split; [|apply Forall_app; split].
    + apply Forall_flat_map. rewrite Forall_forall in *. intros c Hc. apply comp_box_ok; auto.
    + destruct mt; repeat constructor.
    + destruct auto; repeat constructor; cbn [fst snd]; unfold TIK_LO, TIK_HI; lra.
  - unfold hp_box. cbn [length]. rewrite !app_length. f_equal.
    assert (Hf : length (flat_map (comp_box dll) cs) = Decode.one_hot_dim cs).
    { clear. induction cs as [|c r IH]; [reflexivity|]. simpl. rewrite app_length, comp_box_length, IH. reflexivity. }
    rewrite Hf. destruct mt, auto; simpl; lia.
Qed.

(* documentation of the hypothesis "grid elements listed in increasing order": a grid whose last element is below its first
   gives an inverted entry (the CategoricalDomain built from the box then fails its assertion) *)
Lemma search_box_unsorted_grid_refuted :
  exists cs vals, Forall (fun c => wf_component c = true) cs /\ box_ok_b (hp_box cs vals false false DLL) = false.
Proof. exists [Grid [3; 1]], [0; 1]. split; [repeat constructor|vm_compute; reflexivity]. Qed.

(* a point of a well-formed box is positive, coordinate by coordinate *)
Lemma in_box_positive : forall b p, BoxOk b -> in_boxb b p = true -> forallb pos_b p = true /\ length p = length b.
Proof.
  induction b as [|[lo hi] b IH]; intros [|x p] Hb Hin; simpl in Hin; try discriminate; [split; reflexivity|].
  inversion Hb as [|? ? [Hlo _] Hb']; subst. apply andb_prop in Hin. destruct Hin as [Hx Hin].
  apply andb_prop in Hx. destruct Hx as [Hx _]. apply Qle_bool_iff in Hx. cbn [fst snd] in *.
  destruct (IH p Hb' Hin) as [Hp Hl]. split; [|simpl; now rewrite Hl]. simpl. rewrite Hp, andb_true_r.
  apply pos_b_true. lra.
Qed.

(* with the supplied start first: the result is acceptable or is that very start -- never one of the random starts *)
Theorem ms_first_or_acceptable acc run gen nm x0 rest st :
  Multistart.ms_optimize acc run gen nm (Some (x0 :: rest)) = Optim.Ok st ->
  exists p, Multistart.ms_best st = Some p /\ (acc p = true \/ p = x0).
Proof.
  intro H. destruct (Proofs.Multistart.ms_optimize_best_successful acc run gen nm _ st H)
    as (p1 & ran' & rest' & Eall & _ & _ & _ & _ & _ & Hgood & Hnone).
  assert (E1 : p1 = x0).
  { unfold Proofs.Multistart.ms_all_starts in Eall. destruct (nm <=? length (x0 :: rest))%nat; injection Eall as <- _; reflexivity. }
  destruct (Proofs.Multistart.good_row_dec (Proofs.Multistart.ms_rows acc run 0 (p1 :: ran'))) as [G|N].
  - destruct (Hgood G) as (e & v & Eb & _ & _ & Ha). exists e. auto.
  - destruct (Hnone N) as (_ & Eb & Ha & _). eexists. split; [exact Eb|].
    destruct (Proofs.Multistart.r_succ (Proofs.Multistart.ms_row_of acc run 0 p1)); [left; apply Ha; reflexivity | right; exact E1].
Qed.

Theorem multistart_opt_in_box_or_start run gen k f p : multistart_opt run gen k f = Ok p ->
  in_boxb (f_box f) p = true \/ p = f_x0 f.
Proof.
  unfold multistart_opt.
  destruct (Multistart.ms_optimize (in_boxb (f_box f)) (run k) (gen k) NUM_MULTISTARTS (Some [f_x0 f])) as [st|e] eqn:Eo; [|discriminate].
  apply ms_first_or_acceptable in Eo. destruct Eo as (q & Eq & Hq). rewrite Eq. intro H. injection H as <-. exact Hq.
Qed.

(* the nugget slot of the start vector is the likelihood object's initial 1e-10, whatever nugget was supplied *)
Lemma start_vector_nugget_slot cs h t : h_tik h = Some t -> start_vector cs h = cov_vector cs h ++ [DEFAULT_TIK].
Proof. intro H. unfold start_vector. rewrite H. reflexivity. Qed.
Lemma start_vector_no_nugget cs h : h_tik h = None -> start_vector cs h = cov_vector cs h.
Proof. intro H. unfold start_vector. rewrite H. apply app_nil_r. Qed.

Lemma set_nth_length {A} (x : A) : forall k l, length (set_nth k x l) = length l.
Proof. induction k as [|k IH]; intros [|y l]; simpl; auto. Qed.
Lemma set_nth_same {A} (x : A) : forall k l, (k < length l)%nat -> nth_error (set_nth k x l) k = Some x.
Proof. induction k as [|k IH]; intros [|y l] H; simpl in *; try lia; auto. apply IH. lia. Qed.
Lemma set_nth_other {A} (x : A) : forall k l j, j <> k -> nth_error (set_nth k x l) j = nth_error l j.
Proof.
  induction k as [|k IH]; intros [|y l] [|j] H; simpl; auto; try congruence.
Qed.

Lemma NoDup_map_inj_in {A B} (f : A -> B) : forall l a b, NoDup (map f l) -> In a l -> In b l -> f a = f b -> a = b.
Proof.
  induction l as [|x l IH]; intros a b Hnd Ha Hb Hf; [destruct Ha|]. simpl in Hnd. inversion Hnd as [|? ? Hx Hl]; subst.
  destruct Ha as [->|Ha], Hb as [->|Hb]; auto.
  - exfalso. apply Hx. rewrite Hf. apply in_map. exact Hb.
  - exfalso. apply Hx. rewrite <- Hf. apply in_map. exact Ha.
Qed.

Definition idx (j : nat * list Q * list Q) : nat := fst (fst j).

Section ViewProofs.
  Variable cs : list component.
  Variable mt : bool.
  Variable rows : list (list Q).
  Variable hps0 : list hp_dict.
  Variable opt : nat -> fit -> result (list Q).
  Notation RJ := (run_jobs cs mt rows hps0 opt).

  Lemma run_jobs_cons index v w r cur trace res :
    RJ ((index, v, w) :: r) cur trace = Ok res ->
    exists d, ptp v = Some d /\
     ((d <= MINVAR /\ RJ r cur trace = Ok res) \/
      (~ d <= MINVAR /\ exists h x dd, let f := make_fit cs mt rows index v w h in
          nth_error hps0 index = Some h /\ forallb pos_b (cov_vector cs h) = true /\
          opt (length trace) f = Ok x /\ unpack cs mt (f_auto f) x = Some dd /\
          RJ r (set_nth index dd cur) (trace ++ [f]) = Ok res)).
  Proof.
    cbn [run_jobs]. destruct (ptp v) as [d|]; [|discriminate]. intro H. exists d. split; [reflexivity|].
    destruct (Qle_bool d MINVAR) eqn:Ed.
    - left. split; [apply Qle_bool_iff; exact Ed | exact H].
    - right. split; [intro C; apply Qle_bool_iff in C; congruence|].
      destruct (nth_error hps0 index) as [h|]; [|discriminate].
      destruct (forallb pos_b (cov_vector cs h)) eqn:Ep; cbn [negb] in H; [|discriminate].
      destruct (opt (length trace) (make_fit cs mt rows index v w h)) as [x|e] eqn:Eo; [|discriminate].
      destruct (unpack cs mt (f_auto (make_fit cs mt rows index v w h)) x) as [dd|] eqn:Eu; [|discriminate].
      exists h, x, dd. cbv zeta. auto.
  Qed.

  (* a constructed fit belongs to one job: that job's metric index, values and variances, the supplied dictionary of that
     metric, the box derived from those values, the start vector from that dictionary; its values are not constant and the
     covariance entries of that dictionary are positive *)
  Definition fit_ok (jobs : list (nat * list Q * list Q)) (f : fit) : Prop :=
    exists v w h d, In (f_metric f, v, w) jobs /\ nth_error hps0 (f_metric f) = Some h /\
      f = make_fit cs mt rows (f_metric f) v w h /\ ptp v = Some d /\ ~ d <= MINVAR /\
      forallb pos_b (cov_vector cs h) = true.

  Lemma fit_ok_weaken j jobs f : fit_ok jobs f -> fit_ok (j :: jobs) f.
  Proof. intros (v & w & h & d & H & R). exists v, w, h, d. split; [right; exact H|exact R]. Qed.

  (* what a run over `jobs` from (cur, trace) leaves behind *)
  Definition jobs_post (jobs : list (nat * list Q * list Q)) (cur : list hp_dict) (trace : list fit)
      (out : list hp_dict) (tr : list fit) : Prop :=
    length out = length cur /\
    exists new, tr = trace ++ new /\
      Forall (fit_ok jobs) new /\
      (forall k, ~ In k (map f_metric new) -> nth_error out k = nth_error cur k) /\
      (NoDup (map idx jobs) -> forall i f, nth_error new i = Some f -> (f_metric f < length cur)%nat ->
         exists x dd, opt (length trace + i) f = Ok x /\ unpack cs mt (f_auto f) x = Some dd /\
                      nth_error out (f_metric f) = Some dd).

  (* a skipped job: the rest of the jobs did everything *)
  Lemma post_skip j r cur trace out tr : jobs_post r cur trace out tr -> jobs_post (j :: r) cur trace out tr.
  Proof.
    intros (Hlen & new & -> & Hf & Hun & Hres). split; [exact Hlen|]. exists new. repeat split; auto.
    - exact (Forall_impl _ (fit_ok_weaken j r) Hf).
    - intro Hnd. apply NoDup_cons_iff in Hnd. apply Hres, Hnd.
  Qed.

  (* a fitted job: its fit comes first in the trace; no later fit has its metric, so its dictionary stays *)
  Lemma post_fit index v w r cur trace out tr h d x dd :
    let f := make_fit cs mt rows index v w h in
    nth_error hps0 index = Some h -> ptp v = Some d -> ~ d <= MINVAR -> forallb pos_b (cov_vector cs h) = true ->
    opt (length trace) f = Ok x -> unpack cs mt (f_auto f) x = Some dd ->
    jobs_post r (set_nth index dd cur) (trace ++ [f]) out tr ->
    jobs_post ((index, v, w) :: r) cur trace out tr.
  Proof.
    intros f Hh Hd Hnle Hp Ho Hu (Hlen & new & -> & Hf & Hun & Hres).
    rewrite set_nth_length in Hlen. split; [exact Hlen|]. exists (f :: new).
    split; [rewrite <- app_assoc; reflexivity|]. split; [|split].
    - constructor; [|exact (Forall_impl _ (fit_ok_weaken (index, v, w) r) Hf)].
      exists v, w, h, d. repeat split; auto. left. reflexivity.
    - intros k Hk. rewrite Hun by (intro C; apply Hk; right; exact C).
      apply set_nth_other. intro C. apply Hk. left. symmetry. exact C.
    - intros Hnd [|i] f' Hi Hlt; apply NoDup_cons_iff in Hnd; destruct Hnd as [Hx Hnd'].
      + injection Hi as <-. rewrite Nat.add_0_r. exists x, dd. split; [exact Ho|]. split; [exact Hu|].
        rewrite Hun; [apply set_nth_same; exact Hlt|].
        intro C. apply in_map_iff in C. destruct C as (f' & Ef & Hin). rewrite Forall_forall in Hf.
        destruct (Hf f' Hin) as (v' & w' & _ & _ & Hj & _). apply Hx.
        apply in_map_iff. exists (f_metric f', v', w'). split; [exact Ef|exact Hj].
      + destruct (Hres Hnd' i f' Hi) as (x' & dd' & Ho' & Hu' & Hn'); [rewrite set_nth_length; exact Hlt|].
        exists x', dd'. split; [|split; assumption]. rewrite <- Ho'. f_equal. rewrite app_length. simpl. lia.
  Qed.

  Lemma run_jobs_inv : forall jobs cur trace out tr, RJ jobs cur trace = Ok (out, tr) -> jobs_post jobs cur trace out tr.
  Proof.
    induction jobs as [|[[index v] w] r IH]; intros cur trace out tr H.
    - injection H as <- <-. split; [reflexivity|]. exists []. rewrite app_nil_r.
      repeat split; auto. intros _ [|i] f Hf; discriminate.
    - apply run_jobs_cons in H. destruct H as (d & Hd & [[Hle H]|[Hnle (h & x & dd & Hh & Hp & Ho & Hu & H)]]).
      + apply post_skip, IH, H.
      + exact (post_fit _ _ _ _ _ _ _ _ h d x dd Hh Hd Hnle Hp Ho Hu (IH _ _ _ _ H)).
  Qed.

  (* the skip rule: a job whose values span at most 1e-10 constructs nothing *)
  Lemma skipped_not_fitted jobs new index v w d : NoDup (map idx jobs) -> Forall (fit_ok jobs) new ->
    In (index, v, w) jobs -> ptp v = Some d -> d <= MINVAR -> ~ In index (map f_metric new).
  Proof.
    intros Hnd Hf Hin Hd Hle C. apply in_map_iff in C. destruct C as (f & Ef & Hfin). rewrite Forall_forall in Hf.
    destruct (Hf f Hfin) as (v' & w' & h & d' & Hj & _ & _ & Hd' & Hn & _). rewrite Ef in Hj.
    assert (E : (index, v', w') = (index, v, w)) by (apply (NoDup_map_inj_in idx jobs); auto).
    injection E as -> _. rewrite Hd in Hd'. injection Hd' as <-. exact (Hn Hle).
  Qed.
End ViewProofs.

Lemma map_snd_enumerate {A} : forall (l : list A) i, map snd (enumerate_from i l) = l.
Proof. induction l as [|x l IH]; intro i; simpl; [reflexivity|]. now rewrite IH. Qed.
Lemma map_idx_jobs_of succ ix o : map idx (jobs_of succ ix o) = ix.
Proof. unfold jobs_of. rewrite map_map. unfold idx. cbn [fst]. apply map_snd_enumerate. Qed.

Lemma in_enumerate {A} : forall (l : list A) s i x,
  In (i, x) (enumerate_from s l) <-> exists k, i = (s + k)%nat /\ nth_error l k = Some x.
Proof.
  induction l as [|y l IH]; intros s i x; simpl.
  - split; [tauto | intros (k & _ & H); destruct k; discriminate].
  - rewrite IH. split.
    + intros [H | (k & -> & H)].
      * injection H as <- <-. exists 0%nat. split; [lia | reflexivity].
      * exists (S k). split; [lia | exact H].
    + intros ([|k] & -> & H).
      * left. injection H as ->. f_equal. lia.
      * right. exists k. split; [lia | exact H].
Qed.

(* the jobs of a metric family: position i of the index list is fitted on column i of that family's scaled values and
   variances, at the successful observations only *)
Lemma in_jobs_of succ ix o index v w : In (index, v, w) (jobs_of succ ix o) <->
  exists i, nth_error ix i = Some index /\
            v = Midpoint.select succ (Midpoint.column i (Midpoint.v_values o)) /\
            w = Midpoint.select succ (Midpoint.column i (Midpoint.v_vars o)).
Proof.
  unfold jobs_of. rewrite in_map_iff. split.
  - intros ([i k] & E & Hin). apply in_enumerate in Hin. destruct Hin as (i' & -> & Hin).
    cbn [fst snd] in E. injection E as <- <- <-. exists i'. auto.
  - intros (i & Hi & -> & ->). exists (i, index). split; [reflexivity|]. apply in_enumerate. exists i. auto.
Qed.

Definition view_pre (vals vars : list (list Q)) (fails : list bool) (objs : list Midpoint.objective) (ix : list nat)
  : option (list (nat * list Q * list Q)) :=
  match ix with
  | [] => Some []
  | _ => match Midpoint.preprocess ix vals vars fails objs (repeat (@None Q) (length objs)) with
         | Some o => Some (jobs_of (map negb fails) ix o) | None => None end
  end.
Definition view_jobs (vals vars : list (list Q)) (fails : list bool) (objs : list Midpoint.objective) (opt_ix con_ix : list nat)
  : option (list (nat * list Q * list Q)) :=
  match view_pre vals vars fails objs opt_ix, view_pre vals vars fails objs con_ix with
  | Some jo, Some jc => Some (jo ++ jc) | _, _ => None end.

(* the jobs of one metric family carry the family's index list; each is a column of the family's scaled values and variances *)
Lemma view_pre_spec vals vars fails objs ix j : view_pre vals vars fails objs ix = Some j ->
  map idx j = ix /\
  forall index v w, In (index, v, w) j ->
    exists o i, Midpoint.preprocess ix vals vars fails objs (repeat None (length objs)) = Some o /\ nth_error ix i = Some index /\
      v = Midpoint.select (map negb fails) (Midpoint.column i (Midpoint.v_values o)) /\
      w = Midpoint.select (map negb fails) (Midpoint.column i (Midpoint.v_vars o)).
Proof.
  unfold view_pre. destruct ix as [|a ix]; [intro H; injection H as <-; split; [reflexivity | intros ? ? ? []]|].
  destruct (Midpoint.preprocess (a :: ix) vals vars fails objs (repeat None (length objs))) as [o|]; [|discriminate].
  intro H. injection H as <-. split; [apply map_idx_jobs_of|].
  intros index v w Hin. apply in_jobs_of in Hin. destruct Hin as (i & Hi & Hv & Hw). exists o, i. auto.
Qed.

(* the jobs of the view: the optimised family, then the constraint family *)
Lemma view_jobs_spec vals vars fails objs opt_ix con_ix jobs : view_jobs vals vars fails objs opt_ix con_ix = Some jobs ->
  map idx jobs = opt_ix ++ con_ix /\
  forall index v w, In (index, v, w) jobs ->
    exists ix o i, (ix = opt_ix \/ ix = con_ix) /\
      Midpoint.preprocess ix vals vars fails objs (repeat None (length objs)) = Some o /\
      nth_error ix i = Some index /\
      v = Midpoint.select (map negb fails) (Midpoint.column i (Midpoint.v_values o)) /\
      w = Midpoint.select (map negb fails) (Midpoint.column i (Midpoint.v_vars o)).
Proof.
  unfold view_jobs.
  destruct (view_pre vals vars fails objs opt_ix) as [jo|] eqn:E1; [|discriminate].
  destruct (view_pre vals vars fails objs con_ix) as [jc|] eqn:E2; [|discriminate].
  intro H. injection H as <-.
  destruct (view_pre_spec _ _ _ _ _ _ E1) as [I1 P1]. destruct (view_pre_spec _ _ _ _ _ _ E2) as [I2 P2].
  split; [rewrite map_app, I1, I2; reflexivity|].
  intros index v w Hin. apply in_app_or in Hin. destruct Hin as [Hin|Hin].
  - destruct (P1 _ _ _ Hin) as (o & i & R). exists opt_ix, o, i. split; [left; reflexivity|exact R].
  - destruct (P2 _ _ _ Hin) as (o & i & R). exists con_ix, o, i. split; [right; reflexivity|exact R].
Qed.

Lemma hyperopt_view_unfold cs points tasks vals vars fails objs opt_ix con_ix hps opt :
  hyperopt_view cs points tasks vals vars fails objs opt_ix con_ix hps opt =
  match view_jobs vals vars fails objs opt_ix con_ix with
  | Some jobs => run_jobs cs (negb (is_none tasks)) (Midpoint.select (map negb fails) (one_hot_rows cs points tasks)) hps opt jobs hps []
  | None => Err ScalingError
  end.
Proof.
  unfold hyperopt_view, view_jobs. cbv zeta beta.
  fold (view_pre vals vars fails objs opt_ix) (view_pre vals vars fails objs con_ix).
  destruct (view_pre vals vars fails objs opt_ix); [destruct (view_pre vals vars fails objs con_ix)|]; reflexivity.
Qed.

(* The endpoint, for ANY optimiser behaviour `opt` (C11's "all optimizer randomness"). *)
Theorem hyperopt_view_spec cs points tasks vals vars fails objs opt_ix con_ix hps opt out tr :
  hyperopt_view cs points tasks vals vars fails objs opt_ix con_ix hps opt = Ok (out, tr) ->
  let mt := negb (is_none tasks) in
  let rows := Midpoint.select (map negb fails) (one_hot_rows cs points tasks) in
  exists jobs, view_jobs vals vars fails objs opt_ix con_ix = Some jobs /\ map idx jobs = opt_ix ++ con_ix /\
    length out = length hps /\
    Forall (fit_ok cs mt rows hps jobs) tr /\
    (forall k, ~ In k (map f_metric tr) -> nth_error out k = nth_error hps k) /\
    (forall k, ~ In k (opt_ix ++ con_ix) -> nth_error out k = nth_error hps k) /\
    (NoDup (opt_ix ++ con_ix) -> forall index v w d, In (index, v, w) jobs -> ptp v = Some d -> d <= MINVAR ->
        nth_error out index = nth_error hps index) /\
    (NoDup (opt_ix ++ con_ix) -> forall i f, nth_error tr i = Some f -> (f_metric f < length hps)%nat ->
        exists x dd, opt i f = Ok x /\ unpack cs mt (f_auto f) x = Some dd /\ nth_error out (f_metric f) = Some dd).
Proof.
  rewrite hyperopt_view_unfold. destruct (view_jobs vals vars fails objs opt_ix con_ix) as [jobs|] eqn:Ej; [|discriminate].
  intro H. cbv zeta. exists jobs. split; [reflexivity|]. pose proof (proj1 (view_jobs_spec _ _ _ _ _ _ _ Ej)) as Hidx.
  split; [exact Hidx|]. apply run_jobs_inv in H. destruct H as (Hlen & new & Etr & Hf & Hun & Hres). simpl in Etr. subst tr.
  split; [exact Hlen|]. split; [exact Hf|]. split; [exact Hun|]. split; [|split].
  - intros k Hk. apply Hun. intro C. apply Hk. rewrite <- Hidx. apply in_map_iff in C. destruct C as (f & <- & Hin).
    rewrite Forall_forall in Hf. destruct (Hf f Hin) as (v & w & _ & _ & Hj & _).
    change (f_metric f) with (idx (f_metric f, v, w)). apply in_map. exact Hj.
  - intros Hnd index v w d Hin Hd Hle. apply Hun. rewrite <- Hidx in Hnd.
    eapply skipped_not_fitted; eauto.
  - intros Hnd i f Hi Hlt. rewrite <- Hidx in Hnd. exact (Hres Hnd i f Hi Hlt).
Qed.

(* with the optimiser that is actually used (multistart over the fit's box from the fit's start vector): every fitted
   dictionary packs to a vector inside the box or to the start vector; its structure is the supplied one; all positive *)
Theorem fitted_dict_spec cs mt rows hps jobs f x dd :
  Forall (fun c => wf_component c = true) cs -> Forall grid_increasing cs ->
  fit_ok cs mt rows hps jobs f ->
  (in_boxb (f_box f) x = true \/ x = f_x0 f) ->
  unpack cs mt (f_auto f) x = Some dd ->
  (forall h, nth_error hps (f_metric f) = Some h ->
     length (start_vector cs h) = S (Decode.one_hot_dim cs + b2n mt + b2n (f_auto f))) ->
  structure_b cs mt (f_auto f) dd = true /\ pack dd = x /\ all_pos_b dd = true /\
  (in_boxb (f_box f) (pack dd) = true \/
   exists h, nth_error hps (f_metric f) = Some h /\ pack dd = start_vector cs h).
Proof.
  intros Hwf Hg (v & w & h & d & _ & Hh & Ef & _ & _ & Hpos) Hx Hu Hsv.
  assert (Hbox : BoxOk (f_box f) /\ length (f_box f) = S (Decode.one_hot_dim cs + b2n mt + b2n (f_auto f))).
  { rewrite Ef. cbn [f_box f_auto make_fit]. apply search_box_spec; auto; unfold DLL; lra. }
  destruct Hbox as [Hbox Hbl].
  assert (Hlen : length x = S (Decode.one_hot_dim cs + b2n mt + b2n (f_auto f)) /\ forallb pos_b x = true).
  { destruct Hx as [Hx| ->].
    - destruct (in_box_positive _ _ Hbox Hx) as [Hp Hl]. split; [congruence|exact Hp].
    - assert (E0 : f_x0 f = start_vector cs h) by (rewrite Ef; reflexivity). rewrite E0. split; [apply Hsv; exact Hh|].
      unfold start_vector. rewrite forallb_app, Hpos. destruct (is_none (h_tik h)); reflexivity. }
  destruct Hlen as [Hlen Hp].
  destruct (unpack_structure cs mt (f_auto f) x Hlen) as (d' & Hu' & Hs & Hpk & _). rewrite Hu in Hu'. injection Hu' as <-.
  split; [exact Hs|]. split; [exact Hpk|]. split; [unfold all_pos_b; rewrite Hpk; exact Hp|].
  rewrite Hpk. destruct Hx as [Hx| ->]; [left; exact Hx|]. right. exists h. split; [exact Hh|]. rewrite Ef. reflexivity.
Qed.

(* the strict reading "in the box or equal to the SUPPLIED values" fails in the nugget slot: with a supplied nugget and an
   optimiser all of whose runs fail, the endpoint returns the start vector, whose nugget is 1e-10 -- outside the box and
   different from the supplied 1/100 (known finding C11:endpoint:fallback-nugget-is-default-1e-10) *)
Definition all_fail_run (_ _ : nat) (p : list Q) : Multistart.outcome := Multistart.mkoc false false p None.
Definition no_gen (_ k : nat) : list (list Q) := repeat [1; 1; 1] k.
Lemma fallback_nugget_refuted :
  exists cs points vals vars fails objs hps out tr d f,
    hyperopt_view cs points None vals vars fails objs [0%nat] [] hps (multistart_opt all_fail_run no_gen) = Ok (out, tr) /\
    nth_error hps 0 = Some (mkhp 1 [[Some 1]] None (Some (1 # 100))) /\
    nth_error out 0 = Some d /\ tr = [f] /\
    h_tik d = Some DEFAULT_TIK /\ ~ DEFAULT_TIK == 1 # 100 /\ in_boxb (f_box f) (pack d) = false.
Proof.
  pose (h := mkhp 1 [[Some 1]] None (Some (1 # 100))). pose (d := mkhp 1 [[Some 1]] None (Some DEFAULT_TIK)).
  pose (f := make_fit [Double 0 1] false [[0]; [1]] 0 [-2 # 20; 2 # 20] [MINVAR; MINVAR] h).
  exists [Double 0 1], [[0]; [1]], [[0]; [1]], [[0]; [0]], [false; false], [Midpoint.Minimize], [h], [d], [f], d, f.
  split; [vm_compute; reflexivity|]. do 4 (split; [reflexivity|]). split; [discriminate|vm_compute; reflexivity].
Qed.

(* two lists that agree, entry by entry, at the successful observations have the same selection *)
Lemma select_success_ext {A B C} (f : A -> C) (g : B -> C) d1 d2 : forall (fails : list bool) l1 l2,
  length l1 = length fails -> length l2 = length fails ->
  (forall r, (r < length fails)%nat -> nth r fails false = false -> f (nth r l1 d1) = g (nth r l2 d2)) ->
  Midpoint.select (map negb fails) (map f l1) = Midpoint.select (map negb fails) (map g l2).
Proof.
  induction fails as [|b m IH]; intros [|x1 r1] [|x2 r2] H1 H2 H; try discriminate; [reflexivity|].
  injection H1 as H1. injection H2 as H2. cbn [map Midpoint.select].
  rewrite (IH r1 r2 H1 H2) by (intros r Hr; apply (H (S r)); simpl; lia).
  destruct b; [reflexivity|]. cbn [negb]. f_equal. apply (H 0%nat); [simpl; lia | reflexivity].
Qed.

(* which RAW column a job is fitted on
   (index lists in ANY order: position k of optimized_metrics_index / constraint_metrics_index pairs with column k of
   values[:, index_list], i.e. with raw column index_list[k]) *)
Theorem job_on_own_raw_column vals vars fails objs opt_ix con_ix jobs index v w :
  length fails = length vals ->
  view_jobs vals vars fails objs opt_ix con_ix = Some jobs -> In (index, v, w) jobs ->
  exists i, Midpoint.smmi (Midpoint.column index vals) fails (nth index objs Midpoint.NoObjective) = Some i /\
    v = map (Midpoint.rel_value i) (Midpoint.select (map negb fails) (Midpoint.column index vals)).
Proof.
  intros LF Hj Hin.
  destruct (proj2 (view_jobs_spec _ _ _ _ _ _ _ Hj) _ _ _ Hin) as (ix & o & j & _ & Hp & Hix & -> & _).
  destruct (Proofs.Midpoint.view_law ix vals vars fails objs (repeat None (length objs)) LF) as (o' & Hp' & _ & Hlen & Hlaw).
  rewrite Hp in Hp'. injection Hp' as <-.
  assert (Hjlt : (j < length ix)%nat) by (apply nth_error_Some; congruence).
  destruct (Hlaw j Hjlt) as (i & l & Hs & _ & _ & Hval & _).
  rewrite (nth_error_nth ix j 0%nat Hix) in Hs, Hval.
  exists i. split; [exact Hs|].
  rewrite <- Proofs.Midpoint.select_map. unfold Midpoint.column. rewrite map_map.
  apply (select_success_ext _ _ [] []); [congruence | congruence |].
  intros r Hr Hf. rewrite LF in Hr. rewrite (Hval r Hr), Hf. reflexivity.
Qed.
