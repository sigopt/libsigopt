(* Model.Incumbent: the generic batching loop under a pointwise acquisition function, and the incumbents of plain and of augmented expected
   improvement.  Both are an argmin, read through the first-minimum contract of Proofs.Pareto. *)
From Coq Require Import List QArith Lia.
From LV Require Import Model.Pareto Model.Incumbent Proofs.Pareto.
Import ListNotations.
Open Scope Q_scope.

(* a pointwise function applied batch by batch is the map: the value does not depend on the batch size *)
Lemma batched_is_map {A B} (g : A -> B) : forall fuel bs pts, (0 < bs)%nat -> (length pts <= fuel)%nat ->
  batched (map g) bs fuel pts = map g pts.
Proof.
  induction fuel as [|fuel IH]; intros bs pts Hbs Hlen.
  - destruct pts; [reflexivity|simpl in Hlen; lia].
  - destruct pts as [|x pts]; [reflexivity|]. cbn [batched].
    rewrite IH; [|exact Hbs|].
    + rewrite <- map_app. rewrite firstn_skipn. reflexivity.
    + rewrite skipn_length. cbn [length] in *. lia.
Qed.

Theorem batched_eval_is_map {A B} (g : A -> B) (b : option nat) (pts : list A) :
  (pts <> [] \/ exists k, b = Some (S k)) ->
  evaluate_at_point_list (map g) b pts = Some (map g pts).
Proof.
  intros H. unfold evaluate_at_point_list.
  set (bs := match b with Some b0 => if Nat.eqb b0 0 then length pts else b0 | None => length pts end).
  assert (Hbs : (0 < bs)%nat).
  { unfold bs. destruct H as [H|(k & ->)]; [|simpl; lia].
    assert (0 < length pts)%nat by (destruct pts; [congruence|simpl; lia]).
    destruct b as [b0|]; [|congruence]. destruct (Nat.eqb_spec b0 0); lia. }
  destruct (Nat.eqb_spec bs 0) as [E|E]; [lia|].
  rewrite batched_is_map; [reflexivity|congruence|lia].
Qed.

(* the plain incumbent is the value at the first minimum *)
Theorem incumbent_plain_spec vals : vals <> [] ->
  let '(i, v) := incumbent_plain vals in
  (i < length vals)%nat /\ v = nth i vals 0 /\ (forall k, (k < length vals)%nat -> v <= nth k vals 0) /\
  (forall k, (k < i)%nat -> v < nth k vals 0).
Proof.
  intros H. unfold incumbent_plain. pose proof (argmin_first_min vals 0 H) as (H1 & H2 & H3). repeat split; assumption.
Qed.

(* the augmented-EI incumbent is the mean at a minimum of mean + q * sd *)
Theorem incumbent_aei_spec q means sds : means <> [] -> length means = length sds ->
  let '(i, v) := incumbent_aei q means sds in
  (i < length means)%nat /\ v = nth i means 0 /\
  (forall k, (k < length means)%nat -> nth i means 0 + q * nth i sds 0 <= nth k means 0 + q * nth k sds 0).
Proof.
  intros H Hl. unfold incumbent_aei.
  set (f := fun p : Q * Q => fst p + q * snd p). set (qs := map f (combine means sds)).
  assert (Hq : qs <> []) by (unfold qs; destruct means, sds; simpl in *; try congruence; discriminate).
  assert (Hlen : length qs = length means) by (unfold qs; rewrite map_length, combine_length; lia).
  (* read with the default f (0, 0), entry k of qs is f of the entries k *)
  assert (Hnth : forall k, nth k qs (f (0, 0)) = nth k means 0 + q * nth k sds 0)
    by (intros k; unfold qs; rewrite map_nth, combine_nth by exact Hl; reflexivity).
  pose proof (argmin_first_min qs (f (0, 0)) Hq) as (H1 & H2 & _). rewrite Hlen in H1, H2.
  repeat split; [exact H1|]. intros k Hk. rewrite <- !Hnth. apply H2. exact Hk.
Qed.
