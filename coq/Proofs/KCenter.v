(* C18: farthest-first clustering with the -inf self-distance trick, nearest-centre partition, per-cluster strict-< scan. *)
From Coq Require Import List Qabs Lia Lqa.
From LV Require Import Model.KCenter.
Import ListNotations.
Open Scope Q_scope.

Lemma Qltb_lt x y : Qltb x y = true <-> x < y.
Proof.
  unfold Qltb. rewrite negb_true_iff, <- not_true_iff_false, Qle_bool_iff. split; [apply Qnot_le_lt|apply Qlt_not_le].
Qed.
Lemma Qltb_ge x y : Qltb x y = false <-> y <= x.
Proof. unfold Qltb. rewrite negb_false_iff. apply Qle_bool_iff. Qed.

(* a boolean strict weak order: asymmetric, and "not less" is transitive *)
Definition swo {A} (lt : A -> A -> bool) : Prop :=
  (forall x y, lt x y = true -> lt y x = false) /\
  (forall x y z, lt x y = false -> lt y z = false -> lt x z = false).

Lemma swo_flip {A} (lt : A -> A -> bool) : swo lt -> swo (fun x y => lt y x).
Proof. intros [asym ntrans]. split; [intros x y; apply asym|intros x y z H1 H2; exact (ntrans z y x H2 H1)]. Qed.

Lemma Qltb_swo : swo Qltb.
Proof.
  split.
  - intros x y H. apply Qltb_ge, Qlt_le_weak, Qltb_lt, H.
  - intros x y z H1 H2. apply Qltb_ge in H1, H2. apply Qltb_ge. exact (Qle_trans _ _ _ H2 H1).
Qed.
Lemma xltb_swo : swo xltb.
Proof. split; [intros [|x] [|y]|intros [|x] [|y] [|z]]; cbn; try discriminate; try reflexivity; apply Qltb_swo. Qed.
Lemma vltb_swo : swo vltb.
Proof. split; [intros [|x] [|y]|intros [|x] [|y] [|z]]; cbn; try discriminate; try reflexivity; apply Qltb_swo. Qed.

Lemma xltb_fin_lt a b : xltb (Fin a) (Fin b) = true <-> a < b.
Proof. exact (Qltb_lt a b). Qed.
Lemma xltb_fin_ge a b : xltb (Fin a) (Fin b) = false <-> b <= a.
Proof. exact (Qltb_ge a b). Qed.
Lemma xminb_fin a b : xminb (Fin a) (Fin b) = Fin (Qminb a b).
Proof. unfold xminb, Qminb. simpl. unfold Qltb. destruct (Qle_bool a b); reflexivity. Qed.

Lemma Qlt_nle x y : x < y <-> ~ y <= x.
Proof. split; [apply Qlt_not_le|apply Qnot_le_lt]. Qed.

Lemma Qle_bool_false_le a b : Qle_bool a b = false -> b <= a.
Proof. intros E. apply Qlt_le_weak, Qltb_lt. unfold Qltb. rewrite E. reflexivity. Qed.

Lemma Qminb_le_l a b : Qminb a b <= a.
Proof. unfold Qminb. destruct (Qle_bool a b) eqn:E; [apply Qle_refl|apply Qle_bool_false_le, E]. Qed.
Lemma Qminb_le_r a b : Qminb a b <= b.
Proof. unfold Qminb. destruct (Qle_bool a b) eqn:E; [apply Qle_bool_iff, E|apply Qle_refl]. Qed.
Lemma Qminb_cases a b : Qminb a b = a \/ Qminb a b = b.
Proof. unfold Qminb. destruct (Qle_bool a b); auto. Qed.
Lemma Qmaxb_ge_l a b : a <= Qmaxb a b.
Proof. unfold Qmaxb. destruct (Qle_bool a b) eqn:E; [apply Qle_bool_iff, E|apply Qle_refl]. Qed.
Lemma Qmaxb_ge_r a b : b <= Qmaxb a b.
Proof. unfold Qmaxb. destruct (Qle_bool a b) eqn:E; [apply Qle_refl|apply Qle_bool_false_le, E]. Qed.
Lemma Qmaxb_cases a b : Qmaxb a b = a \/ Qmaxb a b = b.
Proof. unfold Qmaxb. destruct (Qle_bool a b); auto. Qed.

(* folding a binary selection (min, or max read with the order reversed) over g c for c in r, started at g a: the result
   bounds every g c for c in a :: r, and is one of them *)
Section FoldSel.
Context {B : Type} (R : Q -> Q -> Prop) (sel : Q -> Q -> Q) (g : B -> Q).
Hypothesis R_refl : forall a, R a a.
Hypothesis R_trans : forall a b c, R a b -> R b c -> R a c.
Hypothesis sel_l : forall a b, R (sel a b) a.
Hypothesis sel_r : forall a b, R (sel a b) b.
Hypothesis sel_cases : forall a b, sel a b = a \/ sel a b = b.

Lemma fold_sel_bound_from : forall r m,
  R (fold_left (fun m c => sel m (g c)) r m) m /\ forall c, In c r -> R (fold_left (fun m c => sel m (g c)) r m) (g c).
Proof.
  induction r as [|y r IH]; intros m; simpl; [split; [apply R_refl|intros c []]|].
  destruct (IH (sel m (g y))) as [I1 I2]. split.
  - eapply R_trans; [exact I1|apply sel_l].
  - intros c [->|Hc]; [eapply R_trans; [exact I1|apply sel_r]|apply I2; exact Hc].
Qed.
Lemma fold_sel_attained_from : forall r m,
  fold_left (fun m c => sel m (g c)) r m = m \/ exists c, In c r /\ fold_left (fun m c => sel m (g c)) r m = g c.
Proof.
  induction r as [|y r IH]; intros m; simpl; [left; reflexivity|].
  destruct (IH (sel m (g y))) as [I|(c & Hc & I)]; [|right; exists c; auto].
  rewrite I. destruct (sel_cases m (g y)) as [-> | ->]; [left; reflexivity|right; exists y; auto].
Qed.

Lemma fold_sel_bound r a c : In c (a :: r) -> R (fold_left (fun m c => sel m (g c)) r (g a)) (g c).
Proof. destruct (fold_sel_bound_from r (g a)) as [I1 I2]. intros [<-|Hc]; [exact I1|exact (I2 c Hc)]. Qed.
Lemma fold_sel_attained r a : exists c, In c (a :: r) /\ fold_left (fun m c => sel m (g c)) r (g a) = g c.
Proof.
  destruct (fold_sel_attained_from r (g a)) as [E|(c & Hc & E)]; [exists a|exists c]; (split; [|exact E]);
    [left; reflexivity|right; exact Hc].
Qed.
End FoldSel.

Definition fold_min_bound {B} (g : B -> Q) := fold_sel_bound Qle Qminb g Qle_refl Qle_trans Qminb_le_l Qminb_le_r.
Definition fold_min_attained {B} (g : B -> Q) := fold_sel_attained Qminb g Qminb_cases.

Lemma lmin_le l x : In x l -> lmin l <= x.
Proof. destruct l as [|a r]; [intros []|]. exact (fold_min_bound (fun y => y) r a x). Qed.
Lemma lmin_In l : l <> [] -> In (lmin l) l.
Proof.
  destruct l as [|a r]; [congruence|intros _]. destruct (fold_min_attained (fun y => y) r a) as (c & Hc & E).
  rewrite <- E in Hc. exact Hc.
Qed.
Lemma lmax_ge l x : In x l -> x <= lmax l.
Proof.
  destruct l as [|a r]; [intros []|].
  exact (fold_sel_bound (fun u w => w <= u) Qmaxb (fun y => y) Qle_refl (fun a b c H1 H2 => Qle_trans _ _ _ H2 H1)
           Qmaxb_ge_l Qmaxb_ge_r r a x).
Qed.
Lemma lmax_In l : l <> [] -> In (lmax l) l.
Proof.
  destruct l as [|a r]; [congruence|intros _]. destruct (fold_sel_attained Qmaxb (fun y => y) Qmaxb_cases r a) as (c & Hc & E).
  rewrite <- E in Hc. exact Hc.
Qed.

Lemma lt_S_cases k n : (k < S n)%nat -> (k < n)%nat \/ k = n.
Proof. intros H. apply Nat.le_lteq, Nat.lt_succ_r, H. Qed.

Section ArgBest.
Context {A : Type} (better : A -> A -> bool) (d : A).
Hypothesis order : swo better.

Lemma better_irrefl x : better x x = false.
Proof. destruct (better x x) eqn:E; [|reflexivity]. rewrite (proj1 order _ _ E) in E. discriminate. Qed.

Lemma better_lt_le x y z : better x y = true -> better z y = false -> better x z = true.
Proof. intros H1 H2. destruct (better x z) eqn:E; [reflexivity|]. rewrite (proj2 order _ _ _ E H2) in H1. discriminate. Qed.

(* r is the first best entry of l: nothing is better than l[r], and l[r] is better than everything before it *)
Definition first_best (l : list A) (r : nat) : Prop :=
  (r < length l)%nat /\ (forall k, (k < length l)%nat -> better (nth k l d) (nth r l d) = false) /\
  (forall k, (k < r)%nat -> better (nth r l d) (nth k l d) = true).

(* one step of the scan: x replaces the running best exactly when it is better *)
Lemma first_best_snoc p bi x : first_best p bi ->
  first_best (p ++ [x]) (if better x (nth bi p d) then length p else bi).
Proof.
  intros (Hb & Hall & Hfirst). unfold first_best. rewrite last_length.
  destruct (better x (nth bi p d)) eqn:E.
  - rewrite nth_middle.
    assert (Hx : forall k, (k < length p)%nat -> better x (nth k (p ++ [x]) d) = true).
    { intros k Hk. rewrite app_nth1 by exact Hk. exact (better_lt_le _ _ _ E (Hall k Hk)). }
    split; [apply Nat.lt_succ_diag_r|]. split; [|exact Hx].
    intros k Hk. destruct (lt_S_cases _ _ Hk) as [Hk'| ->]; [apply (proj1 order), Hx, Hk'|rewrite nth_middle; apply better_irrefl].
  - rewrite (app_nth1 p [x] d Hb). split; [apply Nat.lt_lt_succ_r, Hb|]. split.
    + intros k Hk. destruct (lt_S_cases _ _ Hk) as [Hk'| ->]; [rewrite app_nth1 by exact Hk'; apply Hall, Hk'|rewrite nth_middle; exact E].
    + intros k Hk. rewrite app_nth1 by exact (Nat.lt_trans _ _ _ Hk Hb). apply Hfirst, Hk.
Qed.

Lemma argbest_from_first : forall l p bi, first_best p bi ->
  first_best (p ++ l) (argbest_from better (nth bi p d) bi (length p) l).
Proof.
  induction l as [|x l IH]; intros p bi H; cbn [argbest_from]; [rewrite app_nil_r; exact H|].
  pose proof (first_best_snoc p bi x H) as H'. specialize (IH (p ++ [x]) _ H').
  rewrite <- app_assoc, last_length in IH. destruct (better x (nth bi p d)).
  - rewrite nth_middle in IH. exact IH.
  - rewrite (app_nth1 p [x] d (proj1 H)) in IH. exact IH.
Qed.

Theorem argbest_first l : l <> [] -> first_best l (argbest better l).
Proof.
  destruct l as [|x l]; [congruence|intros _].
  apply (argbest_from_first l [x] O). split; [apply Nat.lt_0_1|]. split; [|intros k Hk; inversion Hk].
  intros [|[|k]] Hk; [apply better_irrefl|inversion Hk; lia..].
Qed.
End ArgBest.

Lemma xargmax_first l : l <> [] -> first_best (fun x best => xltb best x) NInf l (xargmax l).
Proof. exact (argbest_first _ NInf (swo_flip _ xltb_swo) l). Qed.
Lemma xargmin_first l : l <> [] -> first_best xltb NInf l (xargmin l).
Proof. exact (argbest_first _ NInf xltb_swo l). Qed.
Lemma qargmin_first l : l <> [] ->
  let r := qargmin l in
  (r < length l)%nat /\ (forall k, (k < length l)%nat -> nth r l 0 <= nth k l 0) /\
  (forall k, (k < r)%nat -> nth r l 0 < nth k l 0).
Proof.
  intros Hne. destruct (argbest_first _ 0 Qltb_swo l Hne) as (H1 & H2 & H3).
  split; [exact H1|]. split; intros k Hk; [apply Qltb_ge, H2|apply Qltb_lt, H3]; exact Hk.
Qed.
Lemma vargmin_first l : l <> [] -> first_best vltb PInf l (vargmin l).
Proof. exact (argbest_first _ PInf vltb_swo l). Qed.

Lemma set_nth_length {A} (v : A) : forall l i, length (set_nth i v l) = length l.
Proof. induction l as [|x l IH]; intros [|i]; simpl; auto. Qed.
Lemma nth_set_nth {A} (v d : A) : forall l i j, (i < length l)%nat ->
  nth j (set_nth i v l) d = if Nat.eqb j i then v else nth j l d.
Proof.
  induction l as [|x l IH]; intros i j Hi; [inversion Hi|]. destruct i as [|i], j as [|j]; try reflexivity.
  exact (IH i j (proj2 (Nat.succ_lt_mono _ _) Hi)).
Qed.

Lemma map2_length {A} (g : A -> A -> A) : forall a b, length (map2 g a b) = Nat.min (length a) (length b).
Proof. induction a as [|x a IH]; intros [|y b]; simpl; auto. Qed.
Lemma nth_map2 {A} (g : A -> A -> A) d : forall a b t, (t < length a)%nat -> (t < length b)%nat ->
  nth t (map2 g a b) d = g (nth t a d) (nth t b d).
Proof.
  induction a as [|x a IH]; intros [|y b] t Ha Hb; [inversion Ha|inversion Ha|inversion Hb|].
  destruct t as [|t]; [reflexivity|]. exact (IH b t (proj2 (Nat.succ_lt_mono _ _) Ha) (proj2 (Nat.succ_lt_mono _ _) Hb)).
Qed.

(* map_nth for any default, inside the list *)
Lemma nth_map_lt {A B} (g : A -> B) (d0 : A) (d : B) l j : (j < length l)%nat -> nth j (map g l) d = g (nth j l d0).
Proof. intros Hj. rewrite nth_indep with (d' := g d0) by (rewrite map_length; exact Hj). apply map_nth. Qed.
Lemma nth_map_seq {A} (f : nat -> A) d n t : (t < n)%nat -> nth t (map f (seq 0 n)) d = f t.
Proof. intros Ht. rewrite (nth_map_lt f O), seq_nth by (rewrite ?seq_length; exact Ht). reflexivity. Qed.
Lemma nth_map_combine {A B C} (f : A * B -> C) (da : A) (db : B) (dc : C) : forall (a : list A) (b : list B) t,
  length b = length a -> (t < length a)%nat -> nth t (map f (combine a b)) dc = f (nth t a da, nth t b db).
Proof.
  intros a b t Hl Ht. rewrite (nth_map_lt f (da, db)) by (rewrite combine_length, Hl, Nat.min_id; exact Ht).
  rewrite combine_nth by (symmetry; exact Hl). reflexivity.
Qed.

Lemma memb_In x l : memb x l = true <-> In x l.
Proof.
  unfold memb. rewrite existsb_exists. split.
  - intros (y & Hy & E). apply Nat.eqb_eq in E. subst. exact Hy.
  - intros H. exists x. split; [exact H|apply Nat.eqb_refl].
Qed.
Lemma memb_false x l : memb x l = false <-> ~ In x l.
Proof. rewrite <- memb_In. symmetry. apply not_true_iff_false. Qed.

(* pigeonhole: fewer than n distinct indices below n leave one out *)
Lemma fresh_index (cs : list nat) n : (length cs < n)%nat -> exists t, (t < n)%nat /\ ~ In t cs.
Proof.
  intros Hlen. destruct (existsb (fun t => negb (memb t cs)) (seq 0 n)) eqn:E.
  - apply existsb_exists in E. destruct E as (t & Hs & Hm). apply in_seq in Hs. apply negb_true_iff, memb_false in Hm.
    exists t. split; [lia|exact Hm].
  - exfalso. assert (Hincl : incl (seq 0 n) cs).
    { intros t Ht. apply memb_In. destruct (memb t cs) eqn:M; [reflexivity|].
      rewrite <- E. apply existsb_exists. exists t. rewrite M. split; [exact Ht|reflexivity]. }
    pose proof (NoDup_incl_length (seq_NoDup n 0) Hincl) as H. rewrite seq_length in H. lia.
Qed.

Lemma nodupb_NoDup l : nodupb l = true <-> NoDup l.
Proof.
  induction l as [|x l IH]; simpl; [split; [constructor|reflexivity]|].
  rewrite andb_true_iff, negb_true_iff, IH. change (existsb (Nat.eqb x) l) with (memb x l). rewrite memb_false. split.
  - intros [H1 H2]. constructor; assumption.
  - intros H. inversion H; subst. split; assumption.
Qed.

Lemma dist2_nonneg a b : 0 <= dist2 a b.
Proof. unfold dist2. apply Qmaxb_ge_l. Qed.
Lemma dot_self a : dot a a = sumsq a.
Proof. induction a as [|x a IH]; simpl; [reflexivity|rewrite IH; reflexivity]. Qed.
Lemma dist2_self a : dist2 a a == 0.
Proof.
  unfold dist2. rewrite dot_self. destruct (Qmaxb_cases 0 (sumsq a + sumsq a - 2 * sumsq a)) as [-> | ->]; lra.
Qed.
(* the expanded form equals the sum of squared coordinate differences *)
Fixpoint sqdiff (a b : point) : Q := match a, b with x :: a', y :: b' => (x - y) * (x - y) + sqdiff a' b' | _, _ => 0 end.
Lemma Qsq_nonneg (z : Q) : 0 <= z * z.
Proof. unfold Qle. simpl. rewrite Z.mul_1_r. apply Z.square_nonneg. Qed.
Lemma sqdiff_nonneg : forall a b, 0 <= sqdiff a b.
Proof.
  induction a as [|x a IH]; intros [|y b]; cbn [sqdiff]; try apply Qle_refl. specialize (IH b).
  pose proof (Qsq_nonneg (x - y)) as H. lra.
Qed.
Lemma expand_sqdiff : forall a b, length a = length b -> sumsq a + sumsq b - 2 * dot a b == sqdiff a b.
Proof.
  induction a as [|x a IH]; intros [|y b] Hl; try discriminate; [reflexivity|].
  cbn [sumsq dot sqdiff]. pose proof (IH b (eq_add_S _ _ Hl)) as E. lra.
Qed.
Lemma dist2_sqdiff a b : length a = length b -> dist2 a b == sqdiff a b.
Proof.
  intros Hl. pose proof (expand_sqdiff a b Hl) as E. unfold dist2, Qmaxb.
  assert (Hle : Qle_bool 0 (sumsq a + sumsq b - 2 * dot a b) = true) by (apply Qle_bool_iff; rewrite E; apply sqdiff_nonneg).
  rewrite Hle. exact E.
Qed.

Definition row_entry (pts : list point) (c t : nat) : xr := if Nat.eqb t c then NInf else Fin (d2ix pts c t).

Lemma row_of_length pts f : length (row_of pts f) = length pts.
Proof. unfold row_of. rewrite set_nth_length, map_length. reflexivity. Qed.

Lemma nth_row_of pts f t : (f < length pts)%nat -> (t < length pts)%nat -> nth t (row_of pts f) NInf = row_entry pts f t.
Proof.
  intros Hf Ht. unfold row_of, row_entry. rewrite nth_set_nth by (rewrite map_length; exact Hf).
  destruct (Nat.eqb t f); [reflexivity|].
  exact (nth_map_lt (fun p => Fin (dist2 (nth f pts []) p)) [] NInf pts t Ht).
Qed.

(* what one more centre does to the membership test, to the column minimum and to the nearest-centre distance *)
Lemma memb_snoc t cs c : memb t (cs ++ [c]) = memb t cs || Nat.eqb t c.
Proof. unfold memb. rewrite existsb_app. cbn [existsb]. rewrite orb_false_r. reflexivity. Qed.
Lemma colmin_snoc rows r : rows <> [] -> colmin (rows ++ [r]) = map2 xminb (colmin rows) r.
Proof. destruct rows as [|r0 rows]; [congruence|intros _]. exact (fold_left_app _ _ _ _). Qed.
Lemma omind_snoc pts cs c t : cs <> [] -> omind pts (cs ++ [c]) t = Qminb (omind pts cs t) (d2ix pts c t).
Proof. destruct cs as [|c0 cs]; [congruence|intros _]. unfold omind, mind. cbn [app]. rewrite fold_left_app. reflexivity. Qed.

(* the running minimum over the rows of the chosen centres: -inf at the centres themselves, elsewhere the squared distance
   to the nearest one *)
Lemma colmin_spec pts : forall cs, cs <> [] -> (forall c, In c cs -> (c < length pts)%nat) ->
  length (colmin (map (row_of pts) cs)) = length pts /\
  forall t, (t < length pts)%nat ->
    nth t (colmin (map (row_of pts) cs)) NInf = if memb t cs then NInf else Fin (omind pts cs t).
Proof.
  induction cs as [|c cs IH] using rev_ind; [congruence|]. intros _ Hin.
  assert (Hc : (c < length pts)%nat) by (apply Hin, in_or_app; right; left; reflexivity).
  destruct (list_eq_dec Nat.eq_dec cs []) as [->|Hne].
  - split; [apply row_of_length|]. intros t Ht. cbn [app map colmin fold_left].
    rewrite nth_row_of by assumption. unfold row_entry, memb, omind, mind. cbn [existsb fold_left]. rewrite orb_false_r. reflexivity.
  - destruct (IH Hne (fun x Hx => Hin x (in_or_app _ _ _ (or_introl Hx)))) as [Hl Hn].
    rewrite map_app. cbn [map]. rewrite colmin_snoc by (intros E; apply map_eq_nil in E; contradiction). split.
    + rewrite map2_length, Hl, row_of_length. apply Nat.min_id.
    + intros t Ht. rewrite nth_map2, Hn, nth_row_of, memb_snoc, omind_snoc by (rewrite ?Hl, ?row_of_length; assumption).
      unfold row_entry. destruct (memb t cs); [destruct (Nat.eqb t c); reflexivity|].
      destruct (Nat.eqb t c); [reflexivity|apply xminb_fin].
Qed.

Lemma omind_le pts cs t c : In c cs -> omind pts cs t <= d2ix pts c t.
Proof. destruct cs as [|c0 r]; [intros []|]. exact (fold_min_bound (fun c' => d2ix pts c' t) r c0 c). Qed.
Lemma omind_attained pts cs t : cs <> [] -> exists c, In c cs /\ omind pts cs t = d2ix pts c t.
Proof. destruct cs as [|c0 r]; [congruence|intros _]. exact (fold_min_attained (fun c' => d2ix pts c' t) r c0). Qed.

Definition next_centre (pts : list point) (cs : list nat) : nat := xargmax (colmin (map (row_of pts) cs)).
Fixpoint grow_centres (pts : list point) (fuel : nat) (cs : list nat) : list nat :=
  match fuel with O => cs | S fuel' => grow_centres pts fuel' (cs ++ [next_centre pts cs]) end.

(* the loop is entered with the rows of the centres before f and returns the grown list with all its rows *)
Lemma kc_loop_grow pts : forall fuel f prev,
  kc_loop fuel pts f (map (row_of pts) prev) (prev ++ [f]) =
  (grow_centres pts fuel (prev ++ [f]), map (row_of pts) (grow_centres pts fuel (prev ++ [f]))).
Proof.
  induction fuel as [|fuel IH]; intros f prev; cbn [kc_loop grow_centres]; change [row_of pts f] with (map (row_of pts) [f]);
    rewrite <- map_app; [reflexivity|]. fold (next_centre pts (prev ++ [f])). apply IH.
Qed.

(* the guard, and what the loop and the argmin over the columns return *)
Lemma k_center_inv pts first k cs part : k_center pts first k = Some (cs, part) ->
  (0 < k < length pts)%nat /\ (first < length pts)%nat /\ cs = grow_centres pts (k - 1) [first] /\
  part = map (fun t => xargmin (column (map (row_of pts) cs) t)) (seq 0 (length pts)).
Proof.
  unfold k_center. rewrite (kc_loop_grow pts (k - 1) first [] : kc_loop (k - 1) pts first [] [first] = _).
  destruct (Nat.ltb 0 k && Nat.ltb k (length pts) && Nat.ltb first (length pts)) eqn:G; [|discriminate].
  apply andb_true_iff in G. destruct G as [G G3]. apply andb_true_iff in G. destruct G as [G1 G2]. apply Nat.ltb_lt in G1, G2, G3.
  intros E. injection E as <- <-. repeat split; assumption.
Qed.

Theorem k_center_total pts first k : (0 < k < length pts)%nat -> (first < length pts)%nat -> k_center pts first k <> None.
Proof.
  intros [H1 H2] H3. unfold k_center. apply Nat.ltb_lt in H1, H2, H3. rewrite H1, H2, H3.
  destruct (kc_loop (k - 1) pts first [] [first]). discriminate.
Qed.

(* what one greedy step guarantees about the chosen index c given the centres `pre` chosen so far *)
Definition step_ok (pts : list point) (pre : list nat) (c : nat) : Prop :=
  (c < length pts)%nat /\ ~ In c pre /\
  (forall t, (t < length pts)%nat -> ~ In t pre -> omind pts pre t <= omind pts pre c) /\
  (forall t, (t < c)%nat -> ~ In t pre -> omind pts pre t < omind pts pre c).

Definition centres_ok (pts : list point) (cs : list nat) : Prop :=
  cs <> [] /\ NoDup cs /\ (forall c, In c cs -> (c < length pts)%nat).

Lemma next_centre_ok pts cs : centres_ok pts cs -> (length cs < length pts)%nat -> step_ok pts cs (next_centre pts cs).
Proof.
  intros (Hne & Hnd & Hin) Hlen. unfold next_centre.
  destruct (colmin_spec pts cs Hne Hin) as [Hcl Hcol]. set (col := colmin (map (row_of pts) cs)) in *.
  destruct (fresh_index cs (length pts) Hlen) as (t0 & Ht0 & Hfresh).
  assert (Hcne : col <> []) by (intros E; rewrite E in Hcl; rewrite <- Hcl in Ht0; inversion Ht0).
  destruct (xargmax_first col Hcne) as (Hr & Hmax & Hfirst). set (r := xargmax col) in *.
  rewrite Hcl in Hr, Hmax.
  assert (Hrn : memb r cs = false).
  { destruct (memb r cs) eqn:E; [|reflexivity]. specialize (Hmax t0 Ht0).
    rewrite (Hcol r Hr), E, (Hcol t0 Ht0) in Hmax. apply memb_false in Hfresh. rewrite Hfresh in Hmax. discriminate. }
  split; [exact Hr|]. split; [apply memb_false; exact Hrn|]. split.
  - intros t Ht Hnt. specialize (Hmax t Ht). rewrite (Hcol r Hr), Hrn, (Hcol t Ht) in Hmax.
    apply memb_false in Hnt. rewrite Hnt in Hmax. apply xltb_fin_ge, Hmax.
  - intros t Htr Hnt. specialize (Hfirst t Htr). rewrite (Hcol r Hr), Hrn, (Hcol t (Nat.lt_trans _ _ _ Htr Hr)) in Hfirst.
    apply memb_false in Hnt. rewrite Hnt in Hfirst. apply xltb_fin_lt, Hfirst.
Qed.

Lemma centres_ok_snoc pts cs x : centres_ok pts cs -> (x < length pts)%nat -> ~ In x cs -> centres_ok pts (cs ++ [x]).
Proof.
  intros (Hne & Hnd & Hin) Hx Hnx. split; [destruct cs; discriminate|]. split.
  - apply (NoDup_Add (Add_app x cs [])). rewrite app_nil_r. split; assumption.
  - intros c Hc. apply in_app_or in Hc. destruct Hc as [Hc|[<-|[]]]; [apply Hin; exact Hc|exact Hx].
Qed.

Lemma grow_centres_ok pts : forall fuel cs, centres_ok pts cs -> (length cs + fuel <= length pts)%nat ->
  centres_ok pts (grow_centres pts fuel cs) /\
  exists rest, grow_centres pts fuel cs = cs ++ rest /\ length rest = fuel /\
               forall j, (j < fuel)%nat -> step_ok pts (cs ++ firstn j rest) (nth j rest O).
Proof.
  induction fuel as [|fuel IH]; intros cs Hg Hlen; cbn [grow_centres].
  - split; [exact Hg|]. exists []. rewrite app_nil_r. split; [reflexivity|]. split; [reflexivity|]. intros j Hj. inversion Hj.
  - pose proof (next_centre_ok pts cs Hg ltac:(lia)) as Hs. set (x := next_centre pts cs) in *.
    destruct (IH (cs ++ [x]) (centres_ok_snoc pts cs x Hg (proj1 Hs) (proj1 (proj2 Hs))))
      as (Hgood & rest & E & Hl & Hsteps); [rewrite last_length, Nat.add_succ_comm; exact Hlen|].
    split; [exact Hgood|]. exists (x :: rest). split; [rewrite E, <- app_assoc; reflexivity|]. split; [exact (f_equal S Hl)|].
    intros [|j] Hj; cbn [firstn nth].
    + rewrite app_nil_r. exact Hs.
    + specialize (Hsteps j (proj2 (Nat.succ_lt_mono _ _) Hj)). rewrite <- app_assoc in Hsteps. exact Hsteps.
Qed.

(* centres: k of them, the first is the given one, pairwise distinct, in range; every later centre is the FIRST index,
   among those not yet chosen, whose squared distance to the nearest chosen centre is maximal *)
Theorem k_center_centres pts first k cs part :
  k_center pts first k = Some (cs, part) ->
  length cs = k /\ hd O cs = first /\ NoDup cs /\ (forall c, In c cs -> (c < length pts)%nat) /\
  forall i, (1 <= i < k)%nat -> step_ok pts (firstn i cs) (nth i cs O).
Proof.
  intros H. destruct (k_center_inv pts first k cs part H) as ([G1 G2] & G3 & Hcs & _).
  assert (Hg : centres_ok pts [first]).
  { split; [discriminate|]. split; [constructor; [intros []|constructor]|]. intros c [<-|[]]. exact G3. }
  destruct (grow_centres_ok pts (k - 1) [first] Hg ltac:(simpl; lia)) as ((Hne & Hnd & Hin) & rest & E & Hl & Hsteps).
  rewrite <- Hcs in Hnd, Hin, E. clear Hcs. subst cs.
  split; [simpl; lia|]. split; [reflexivity|]. split; [exact Hnd|]. split; [exact Hin|].
  intros [|i] Hi; [lia|]. apply (Hsteps i). lia.
Qed.

Lemma row_entry_other pts c t : t <> c -> row_entry pts c t = Fin (d2ix pts c t).
Proof. intros H. unfold row_entry. rewrite (proj2 (Nat.eqb_neq t c) H). reflexivity. Qed.

(* if the entry of centre r is a minimum of column t, then r is a nearest centre of t, and is t itself if t is a centre at all *)
Lemma row_entry_min_le pts r j t : xltb (row_entry pts j t) (row_entry pts r t) = false -> d2ix pts r t <= d2ix pts j t.
Proof.
  unfold row_entry. destruct (Nat.eqb_spec t r) as [->|Hr].
  - intros _. unfold d2ix at 1. rewrite dist2_self. apply dist2_nonneg.
  - destruct (Nat.eqb t j); [discriminate|apply xltb_fin_ge].
Qed.
Lemma row_entry_min_self pts r t : xltb (row_entry pts t t) (row_entry pts r t) = false -> t = r.
Proof. unfold row_entry. rewrite Nat.eqb_refl. destruct (Nat.eqb_spec t r); [trivial|discriminate]. Qed.

Lemma column_entries pts cs t : (forall c, In c cs -> (c < length pts)%nat) -> (t < length pts)%nat ->
  column (map (row_of pts) cs) t = map (fun c => row_entry pts c t) cs.
Proof.
  intros Hin Ht. unfold column. rewrite map_map. apply map_ext_in. intros c Hc. apply nth_row_of; [apply Hin; exact Hc|exact Ht].
Qed.

(* the argmin of column t, read on the centres *)
Lemma column_first_min pts cs t : cs <> [] ->
  let r := xargmin (map (fun c => row_entry pts c t) cs) in
  (r < length cs)%nat /\
  (forall j, (j < length cs)%nat -> xltb (row_entry pts (nth j cs O) t) (row_entry pts (nth r cs O) t) = false) /\
  (forall j, (j < r)%nat -> xltb (row_entry pts (nth r cs O) t) (row_entry pts (nth j cs O) t) = true).
Proof.
  intros Hne. destruct (xargmin_first (map (fun c => row_entry pts c t) cs)) as (Hr & Hmin & Hfirst).
  { intros E. apply map_eq_nil in E. contradiction. }
  cbv zeta. set (r := xargmin _) in *. rewrite map_length in Hr.
  split; [exact Hr|]. split; intros j Hj; rewrite <- !(nth_map_lt (fun c => row_entry pts c t) O NInf) by lia; [apply Hmin; rewrite map_length|apply Hfirst]; exact Hj.
Qed.

(* the label of observation t is the first minimum of column t: t's own index if t is a centre, otherwise the index of a
   nearest centre, the first one on ties *)
Lemma nearest_centre pts cs t :
  cs <> [] -> NoDup cs -> (forall c, In c cs -> (c < length pts)%nat) -> (t < length pts)%nat ->
  let c := xargmin (column (map (row_of pts) cs) t) in
  (c < length cs)%nat /\
  (forall i, (i < length cs)%nat -> nth i cs O = t -> c = i) /\
  (forall j, (j < length cs)%nat -> d2ix pts (nth c cs O) t <= d2ix pts (nth j cs O) t) /\
  (~ In t cs -> forall j, (j < c)%nat -> d2ix pts (nth c cs O) t < d2ix pts (nth j cs O) t).
Proof.
  intros Hne Hnd Hin Ht. rewrite column_entries by assumption.
  destruct (column_first_min pts cs t Hne) as (Hr & Hmin & Hfirst). cbv zeta. set (r := xargmin _) in *. clearbody r.
  split; [exact Hr|]. split; [|split].
  - intros i Hi Hci. specialize (Hmin i Hi). rewrite Hci in Hmin.
    apply (proj1 (NoDup_nth cs O) Hnd); [exact Hr|exact Hi|]. rewrite Hci. symmetry. exact (row_entry_min_self _ _ _ Hmin).
  - intros j Hj. apply row_entry_min_le, Hmin, Hj.
  - intros Hnt j Hj. specialize (Hfirst j Hj).
    assert (N : forall i, (i < length cs)%nat -> t <> nth i cs O) by (intros i Hi ->; apply Hnt, nth_In, Hi).
    rewrite (row_entry_other _ _ _ (N r Hr)), (row_entry_other _ _ _ (N j (Nat.lt_trans _ _ _ Hj Hr))) in Hfirst.
    apply xltb_fin_lt, Hfirst.
Qed.

(* partition: one label < k per observation; a centre is in its own cluster; every observation's centre is a nearest
   centre; for a non-centre it is the first nearest centre *)
Theorem k_center_partition pts first k cs part :
  k_center pts first k = Some (cs, part) ->
  length part = length pts /\
  forall t, (t < length pts)%nat ->
    let c := nth t part O in
    (c < k)%nat /\
    (forall i, (i < k)%nat -> nth i cs O = t -> c = i) /\
    (forall j, (j < k)%nat -> d2ix pts (nth c cs O) t <= d2ix pts (nth j cs O) t) /\
    (~ In t cs -> forall j, (j < c)%nat -> d2ix pts (nth c cs O) t < d2ix pts (nth j cs O) t).
Proof.
  intros Hk. destruct (k_center_centres pts first k cs part Hk) as (Hlen & _ & Hnd & Hin & _).
  destruct (k_center_inv pts first k cs part Hk) as ([G1 _] & _ & _ & Hp). subst k.
  split; [rewrite Hp, map_length, seq_length; reflexivity|].
  intros t Ht. rewrite Hp, nth_map_seq by exact Ht.
  apply nearest_centre; try assumption. destruct cs; [inversion G1|discriminate].
Qed.

(* b is the first minimum of the values over the observations t < n in P *)
Definition first_min (values : list xv) (P : nat -> Prop) (n b : nat) : Prop :=
  (forall t, (t < n)%nat -> P t -> vle (nth b values PInf) (nth t values PInf)) /\
  (forall t, (t < b)%nat -> P t -> vlt (nth b values PInf) (nth t values PInf)).

(* what one step of the scan writes into the slot of the observation's cluster: index and value of the running first minimum *)
Definition upd_best (i : nat) (x : xv) (o : option (nat * xv)) : option (nat * xv) :=
  match o with
  | None => Some (i, x)
  | Some (_, bv) => if vltb x bv then Some (i, x) else o
  end.

Lemma scan_step_length values st ip : length (scan_step values st ip) = length st.
Proof.
  destruct ip as [i p]. unfold scan_step. destruct (nth p st None) as [[b bv]|]; [destruct (vltb _ bv)|];
    rewrite ?set_nth_length; reflexivity.
Qed.
Lemma nth_scan_step values st i p c : (p < length st)%nat ->
  nth c (scan_step values st (i, p)) None =
  if Nat.eqb c p then upd_best i (nth i values PInf) (nth p st None) else nth c st None.
Proof.
  intros Hp. unfold scan_step, upd_best. destruct (nth p st None) as [[b bv]|] eqn:E; [destruct (vltb _ bv)|];
    rewrite ?nth_set_nth by exact Hp; try reflexivity.
  destruct (Nat.eqb_spec c p) as [->|_]; [exact E|reflexivity].
Qed.

Section Scan.
Variable values : list xv.
Variable part : list nat.
Local Notation v t := (nth t values PInf).

(* o describes cluster c among the first m observations: None if it has no member there, otherwise the index and value of
   the first minimum of the values over its members *)
Definition cluster_best (m c : nat) (o : option (nat * xv)) : Prop :=
  match o with
  | None => forall t, (t < m)%nat -> nth t part O <> c
  | Some (b, x) => (b < m)%nat /\ nth b part O = c /\ x = v b /\ first_min values (fun t => nth t part O = c) m b
  end.

Lemma cluster_best_other m c o : nth m part O <> c -> cluster_best m c o -> cluster_best (S m) c o.
Proof.
  intros Hc. assert (Hlt : forall t, (t < S m)%nat -> nth t part O = c -> (t < m)%nat).
  { intros t Ht Htc. destruct (lt_S_cases _ _ Ht) as [H| ->]; [exact H|contradiction]. }
  destruct o as [[b x]|]; cbn [cluster_best].
  - intros (H1 & H2 & H3 & H4 & H5). repeat split; try assumption; [lia|].
    intros t Ht Htc. apply H4; [apply Hlt|]; assumption.
  - intros H t Ht Htc. apply (H t); [apply Hlt|]; assumption.
Qed.

(* an observation strictly below every earlier member of its cluster is the cluster's new first minimum *)
Lemma cluster_best_new m : (forall t, (t < m)%nat -> nth t part O = nth m part O -> vlt (v m) (v t)) ->
  cluster_best (S m) (nth m part O) (Some (m, v m)).
Proof.
  intros Hlt. repeat split; [lia| |exact Hlt].
  intros t Ht Htp. destruct (lt_S_cases _ _ Ht) as [H| ->]; [|apply (better_irrefl _ vltb_swo)].
  apply (proj1 vltb_swo), Hlt; [exact H|exact Htp].
Qed.

Lemma cluster_best_upd m o :
  cluster_best m (nth m part O) o -> cluster_best (S m) (nth m part O) (upd_best m (v m) o).
Proof.
  destruct o as [[b x]|]; cbn [cluster_best upd_best].
  - intros (H1 & H2 & -> & H4 & H5). destruct (vltb (v m) (v b)) eqn:Ex.
    + apply cluster_best_new. intros t Ht Htp. exact (better_lt_le _ vltb_swo _ _ _ Ex (H4 t Ht Htp)).
    + repeat split; try assumption; [lia|].
      intros t Ht Htp. destruct (lt_S_cases _ _ Ht) as [H| ->]; [apply H4; [exact H|exact Htp]|exact Ex].
  - intros H. apply cluster_best_new. intros t Ht Htp. destruct (H t Ht Htp).
Qed.

Variable k : nat.
Hypothesis part_lt : forall t, (t < length part)%nat -> (nth t part O < k)%nat.

Definition scan_inv (m : nat) (st : list (option (nat * xv))) : Prop :=
  length st = k /\ forall c, (c < k)%nat -> cluster_best m c (nth c st None).

Lemma scan_step_inv m st : (m < length part)%nat -> scan_inv m st -> scan_inv (S m) (scan_step values st (m, nth m part O)).
Proof.
  intros Hm [Hl Hinv]. split; [rewrite scan_step_length; exact Hl|]. intros c Hc.
  rewrite nth_scan_step by (rewrite Hl; apply part_lt, Hm).
  destruct (Nat.eqb_spec c (nth m part O)) as [->|Hne].
  - apply cluster_best_upd, Hinv, Hc.
  - apply cluster_best_other; [congruence|apply Hinv, Hc].
Qed.

Lemma scan_gen : forall l pre st, part = pre ++ l -> scan_inv (length pre) st ->
  scan_inv (length part) (fold_left (scan_step values) (combine (seq (length pre) (length l)) l) st).
Proof.
  induction l as [|p l IH]; intros pre st Hp Hinv; cbn [length seq combine fold_left].
  - rewrite app_nil_r in Hp. rewrite Hp. exact Hinv.
  - specialize (IH (pre ++ [p]) (scan_step values st (length pre, p))). rewrite last_length in IH.
    apply IH; [rewrite <- app_assoc; exact Hp|].
    assert (E : p = nth (length pre) part O) by (rewrite Hp; symmetry; apply nth_middle).
    rewrite E. apply scan_step_inv; [rewrite Hp, app_length; apply Nat.lt_add_pos_r, Nat.lt_0_succ|exact Hinv].
Qed.

Lemma cluster_scan_inv : scan_inv (length part) (cluster_scan values part k).
Proof.
  apply (scan_gen part [] (repeat None k) eq_refl).
  split; [apply repeat_length|]. intros c Hc. rewrite nth_repeat. intros t Ht. inversion Ht.
Qed.
End Scan.

Lemma flat_somes : forall (st : list (option (nat * xv))),
  (forall c, (c < length st)%nat -> nth c st None <> None) ->
  flat_map (fun o => match o with Some (i, _) => [i] | None => [] end) st =
  map (fun o => match o with Some (i, _) => i | None => O end) st.
Proof.
  induction st as [|o st IH]; intros H; [reflexivity|]. cbn [flat_map map].
  rewrite IH by (intros c Hc; exact (H (S c) (proj1 (Nat.succ_lt_mono _ _) Hc))).
  pose proof (H O (Nat.lt_0_succ _)) as H0. cbn [nth] in H0. destruct o as [[i x]|]; [reflexivity|congruence].
Qed.

(* when every cluster has a member the scan fills every entry, and the index read off entry c is the first minimum of
   cluster c *)
Lemma cluster_scan_best values part k :
  (forall t, (t < length part)%nat -> (nth t part O < k)%nat) ->
  (forall c, (c < k)%nat -> exists t, (t < length part)%nat /\ nth t part O = c) ->
  let st := cluster_scan values part k in
  let best := flat_map (fun o => match o with Some (i, _) => [i] | None => [] end) st in
  length st = k /\ length best = k /\
  forall c, (c < k)%nat ->
    (nth c best O < length part)%nat /\ nth (nth c best O) part O = c /\
    first_min values (fun t => nth t part O = c) (length part) (nth c best O).
Proof.
  intros Hlt Hmem st best. destruct (cluster_scan_inv values part k Hlt) as [Hsl Hinv]. fold st in Hsl, Hinv.
  assert (Hsome : forall c, (c < k)%nat -> nth c st None <> None).
  { intros c Hc E. specialize (Hinv c Hc). rewrite E in Hinv. destruct (Hmem c Hc) as (t & Ht & Htc). exact (Hinv t Ht Htc). }
  set (proj := fun o : option (nat * xv) => match o with Some (i, _) => i | None => O end).
  assert (Eb : best = map proj st) by (apply flat_somes; rewrite Hsl; exact Hsome).
  split; [exact Hsl|]. split; [rewrite Eb, map_length; exact Hsl|].
  intros c Hc. rewrite Eb, (nth_map_lt proj None) by (rewrite Hsl; exact Hc).
  specialize (Hinv c Hc). destruct (nth c st None) as [[b x]|] eqn:E; [|destruct (Hsome c Hc E)].
  destruct Hinv as (H1 & H2 & _ & H4). split; [exact H1|split; [exact H2|exact H4]].
Qed.

Lemma NoDup_left_inverse (g : nat -> nat) l : (forall c, (c < length l)%nat -> g (nth c l O) = c) -> NoDup l.
Proof. intros H. apply (NoDup_nth l O). intros i j Hi Hj E. rewrite <- (H i Hi), <- (H j Hj), E. reflexivity. Qed.

Theorem best_assignments_spec values spts k :
  length values = length spts -> (2 <= k < length spts)%nat ->
  exists cs part best,
    k_center spts (vargmin values) k = Some (cs, part) /\
    best_assignments values spts k = Some best /\
    length best = k /\ NoDup best /\ (forall i, In i best -> (i < length spts)%nat) /\
    hd O best = vargmin values /\
    forall c, (c < k)%nat ->
      let b := nth c best O in
      nth b part O = c /\ first_min values (fun t => nth t part O = c) (length spts) b.
Proof.
  intros Hlv [Hk2 Hkn]. assert (Hk0 : (0 < k)%nat) by lia.
  destruct (vargmin_first values) as (Hf & Hfmin & Hffirst); [intros E; rewrite E in Hlv; simpl in Hlv; lia|].
  set (f := vargmin values) in *. rewrite Hlv in Hf.
  destruct (k_center spts f k) as [[cs part]|] eqn:Ekc; [|destruct (k_center_total spts f k (conj Hk0 Hkn) Hf Ekc)].
  destruct (k_center_centres spts f k cs part Ekc) as (Hcl & Hhd & _ & Hin & _).
  destruct (k_center_partition spts f k cs part Ekc) as (Hpl & Hpart).
  (* centre c lies in cluster c, so no cluster is empty *)
  assert (Hown : forall c, (c < k)%nat -> (nth c cs O < length spts)%nat /\ nth (nth c cs O) part O = c).
  { intros c Hc. assert (Hcn : (nth c cs O < length spts)%nat) by (apply Hin, nth_In; rewrite Hcl; exact Hc). split; [exact Hcn|].
    exact (proj1 (proj2 (Hpart _ Hcn)) c Hc eq_refl). }
  destruct (cluster_scan_best values part k) as (Hsl & Hbl & Hbest).
  { intros t Ht. apply Hpart. rewrite <- Hpl. exact Ht. }
  { intros c Hc. exists (nth c cs O). rewrite Hpl. apply Hown, Hc. }
  set (best := flat_map _ (cluster_scan values part k)) in *. rewrite Hpl in Hbest.
  assert (Hndb : NoDup best).
  { apply (NoDup_left_inverse (fun b => nth b part O)). rewrite Hbl. intros c Hc. apply (Hbest c Hc). }
  assert (Hrange : forall i, In i best -> (i < length spts)%nat).
  { intros i Hi. destruct (In_nth best i O Hi) as (c & Hc & <-). rewrite Hbl in Hc. apply (Hbest c Hc). }
  exists cs, part, best. split; [reflexivity|]. split; [|split; [exact Hbl|split; [exact Hndb|split; [exact Hrange|split]]]].
  - unfold best_assignments. fold f. rewrite Ekc. fold best. rewrite Hbl, Hsl, Nat.eqb_refl, (proj2 (Nat.ltb_lt 1 k) Hk2).
    rewrite (proj2 (nodupb_NoDup best) Hndb), (proj2 (forallb_forall _ best)); [reflexivity|].
    intros i Hi. apply Nat.ltb_lt, Hrange, Hi.
  - (* the first entry is the first minimum of all values: it heads cluster 0, whose centre it is *)
    destruct (Hbest O Hk0) as (Hb & _ & Hbmin & Hbfirst).
    replace (hd O best) with (nth O best O) by (destruct best; reflexivity). set (b := nth O best O) in *.
    assert (Hfp : nth f part O = O).
    { apply (proj1 (proj2 (Hpart f Hf)) O Hk0). destruct cs; [subst k; inversion Hk0|exact Hhd]. }
    destruct (Nat.lt_trichotomy b f) as [L|[L|L]]; [|exact L|]; exfalso.
    + pose proof (Hffirst b L) as H1. pose proof (Hbmin f Hf Hfp) as H2. unfold vlt, vle in H1, H2. congruence.
    + pose proof (Hbfirst f L Hfp) as H1. pose proof (Hfmin b) as H2. rewrite Hlv in H2. specialize (H2 Hb). unfold vlt, vle in H1, H2. congruence.
  - intros c Hc. apply (Hbest c Hc).
Qed.

Lemma all_some_length {A} : forall (l : list (option A)) r, all_some l = Some r -> length r = length l.
Proof.
  induction l as [|o l IH]; intros r H; simpl in H; [injection H as <-; reflexivity|].
  destruct o as [x|]; [|discriminate]. destruct (all_some l) as [r'|]; [|discriminate]. injection H as <-.
  simpl. f_equal. apply IH. reflexivity.
Qed.

Lemma scaled_values_length maximize vals fails : length fails = length vals ->
  length (scaled_values maximize vals fails) = length vals.
Proof.
  intros Hl. unfold scaled_values. destruct (select (map negb fails) vals).
  - rewrite map_length, combine_length, Hl. apply Nat.min_id.
  - destruct (scale_mid (q :: l)). rewrite map_length, combine_length, Hl. apply Nat.min_id.
Qed.

Lemma masked_values_length scaled fails : length fails = length scaled -> length (masked_values scaled fails) = length scaled.
Proof. intros Hl. unfold masked_values. rewrite map_length, combine_length, Hl. apply Nat.min_id. Qed.

Lemma compared_values_length maximize vals fails : length fails = length vals ->
  length (masked_values (scaled_values maximize vals fails) fails) = length vals.
Proof. intros Hl. rewrite masked_values_length; rewrite scaled_values_length by exact Hl; [reflexivity|exact Hl]. Qed.

Theorem view_spec cs tgt points vals fails maximize k ohs :
  all_some (map (to_one_hot cs) points) = Some ohs ->
  length vals = length points -> length fails = length points -> (2 <= k < length points)%nat ->
  let mv := masked_values (scaled_values maximize vals fails) fails in
  let spts := map (search_point cs tgt) ohs in
  exists centres part best,
    k_center spts (vargmin mv) k = Some (centres, part) /\
    view cs tgt points vals fails maximize k = Some best /\
    length best = k /\ NoDup best /\ (forall i, In i best -> (i < length points)%nat) /\
    hd O best = vargmin mv /\
    forall c, (c < k)%nat ->
      let b := nth c best O in
      nth b part O = c /\ first_min mv (fun t => nth t part O = c) (length points) b.
Proof.
  intros Hoh Hlv Hlf Hk mv spts.
  assert (Hn : length spts = length points).
  { unfold spts. rewrite map_length, (all_some_length _ _ Hoh), map_length. reflexivity. }
  assert (Hsv : length mv = length spts).
  { unfold mv. rewrite compared_values_length, Hn by (rewrite Hlv; exact Hlf). exact Hlv. }
  unfold view. rewrite Hoh. fold mv spts. rewrite <- Hn in Hk |- *. exact (best_assignments_spec mv spts k Hsv Hk).
Qed.

Lemma overwrite_length : forall fails vals junk, length (overwrite fails vals junk) = length vals.
Proof.
  induction fails as [|f fs IH]; intros vals junk; [reflexivity|].
  destruct vals as [|v vs]; [reflexivity|]. cbn [overwrite length]. f_equal. apply IH.
Qed.

Lemma select_overwrite : forall fails vals junk,
  select (map negb fails) (overwrite fails vals junk) = select (map negb fails) vals.
Proof.
  induction fails as [|f fs IH]; intros vals junk; [reflexivity|].
  destruct vals as [|v vs]; [reflexivity|]. cbn [overwrite map select]. destruct f; cbn [negb]; rewrite IH; reflexivity.
Qed.

(* any row-wise function that does not look at the stored value of a failed row gives the same on both histories *)
Lemma map_combine_overwrite {B} (g : Q * bool -> B) : (forall x y, g (x, true) = g (y, true)) ->
  forall fails vals junk, map g (combine (overwrite fails vals junk) fails) = map g (combine vals fails).
Proof.
  intros Hg. induction fails as [|f fs IH]; intros vals junk.
  - destruct vals; reflexivity.
  - destruct vals as [|v vs]; [reflexivity|]. cbn [overwrite combine map]. rewrite IH. f_equal.
    destruct f; [apply Hg|reflexivity].
Qed.

Theorem scaled_values_overwrite (maximize : bool) vals fails junk :
  scaled_values maximize (overwrite fails vals junk) fails = scaled_values maximize vals fails.
Proof.
  unfold scaled_values. rewrite select_overwrite.
  destruct (select (map negb fails) vals) as [|q l].
  - apply map_combine_overwrite. intros x y. reflexivity.
  - destruct (scale_mid (q :: l)) as [s m]. apply map_combine_overwrite. intros x y. reflexivity.
Qed.

Theorem view_overwrite cs tgt points vals fails maximize k junk :
  view cs tgt points (overwrite fails vals junk) fails maximize k = view cs tgt points vals fails maximize k.
Proof. unfold view. rewrite scaled_values_overwrite. reflexivity. Qed.

(* the same for two histories given pointwise: equal lengths, equal values at every successful observation *)
Lemma overwrite_agree : forall fails vals vals',
  length vals = length fails -> length vals' = length fails ->
  (forall t, (t < length fails)%nat -> nth t fails true = false -> nth t vals 0 = nth t vals' 0) ->
  overwrite fails vals vals' = vals'.
Proof.
  induction fails as [|f fs IH]; intros vals vals' H1 H2 H.
  - destruct vals; [|discriminate]. destruct vals'; [reflexivity|discriminate].
  - destruct vals as [|v vs]; [discriminate|]. destruct vals' as [|w ws]; [discriminate|].
    cbn [overwrite hd tl]. f_equal.
    + destruct f; [reflexivity|]. apply (H O); [apply Nat.lt_0_succ|reflexivity].
    + apply IH; [exact (eq_add_S _ _ H1)|exact (eq_add_S _ _ H2)|].
      intros t Ht Hf. apply (H (S t)); [apply -> Nat.succ_lt_mono; exact Ht|exact Hf].
Qed.

Theorem view_agree cs tgt points vals vals' fails maximize k :
  length vals = length fails -> length vals' = length fails ->
  (forall t, (t < length fails)%nat -> nth t fails true = false -> nth t vals 0 = nth t vals' 0) ->
  scaled_values maximize vals' fails = scaled_values maximize vals fails /\
  view cs tgt points vals' fails maximize k = view cs tgt points vals fails maximize k.
Proof.
  intros H1 H2 H. rewrite <- (overwrite_agree fails vals vals' H1 H2 H).
  split; [apply scaled_values_overwrite|apply view_overwrite].
Qed.

Lemma scale_positive nf : 0 < fst (scale_mid nf).
Proof.
  unfold scale_mid. set (mn := lmin nf). set (mx := lmax nf).
  destruct (Qltb ((mx - mn) * (1 # 2)) min_half_width) eqn:E1.
  - destruct (Qltb 1 (Qminb (Qabs mx) (Qabs mn))) eqn:E2; cbn [fst]; [|reflexivity].
    apply Qltb_lt in E2.
    assert (H : 1 < Qmaxb (Qabs mn) (Qabs mx)).
    { eapply Qlt_le_trans; [exact E2|]. eapply Qle_trans; [apply Qminb_le_r|apply Qmaxb_ge_l]. }
    unfold Qdiv. rewrite Qmult_1_l. apply Qinv_lt_0_compat. lra.
  - cbn [fst]. apply Qltb_ge in E1. unfold min_half_width, norm_factor in *.
    assert (H : 0 < mx - mn) by lra.
    unfold Qdiv. apply Qmult_lt_0_compat; [reflexivity|apply Qinv_lt_0_compat; exact H].
Qed.

(* with at least one success, every scaled value is negate * s * (w - m) for one s > 0 and one m, where w is the raw value
   of a success and the lie (the worst successful raw value) of a failure *)
Theorem scaled_values_affine (maximize : bool) vals fails :
  select (map negb fails) vals <> [] ->
  exists s m lie, 0 < s /\
    lie = (if maximize then lmin (select (map negb fails) vals) else lmax (select (map negb fails) vals)) /\
    scaled_values maximize vals fails =
    map (fun vf : Q * bool => (if maximize then Qopp 1 else 1) * s * ((if snd vf then lie else fst vf) - m)) (combine vals fails).
Proof.
  intros Hne. unfold scaled_values. destruct (select (map negb fails) vals) as [|q l] eqn:E; [congruence|].
  pose proof (scale_positive (q :: l)) as Hs. destruct (scale_mid (q :: l)) as [s m]. cbn [fst] in Hs.
  exists s, m, (if maximize then lmin (q :: l) else lmax (q :: l)). split; [exact Hs|]. split; [reflexivity|].
  apply map_ext. intros [x b]. cbn [fst snd]. destruct b; reflexivity.
Qed.

(* hence, between two successes, a smaller scaled value means a better raw value (smaller when minimising, larger when
   maximising), and equal raw values give equal scaled values *)
Lemma affine_order (neg s m a b : Q) : 0 < s ->
  (neg * s * (a - m) <= neg * s * (b - m) <-> neg * a <= neg * b).
Proof.
  intros Hs. rewrite <- (Qmult_le_l (neg * a) (neg * b) s Hs). split; intros H; lra.
Qed.

Lemma ex_lt_S (P : nat -> Prop) n : (exists t, (t < S n)%nat /\ P t) <-> P O \/ exists t, (t < n)%nat /\ P (S t).
Proof.
  split.
  - intros ([|t] & Ht & H); [left; exact H|right; exists t; split; [apply Nat.succ_lt_mono, Ht|exact H]].
  - intros [H|(t & Ht & H)]; [exists O; split; [apply Nat.lt_0_succ|exact H]|exists (S t); split; [apply -> Nat.succ_lt_mono; exact Ht|exact H]].
Qed.

(* the successful raw values are exactly the entries of the non-failure selection *)
Lemma In_select_success : forall (fails : list bool) (vals : list Q) x,
  In x (select (map negb fails) vals) <->
  exists t, (t < length vals)%nat /\ nth t fails true = false /\ nth t vals 0 = x.
Proof.
  induction fails as [|f fails IH]; intros [|v vals] x; cbn [map select length];
    try (split; [intros []|intros ([|t] & H1 & H2 & _); (discriminate H2 || inversion H1)]).
  rewrite ex_lt_S. cbn [nth]. rewrite <- IH. destruct f; cbn [negb In].
  - split; [right; assumption|intros [[H _]|H]; [discriminate|exact H]].
  - split; (intros [H|H]; [left|right; exact H]); [split; [reflexivity|exact H]|exact (proj2 H)].
Qed.

(* the raw value that stands behind scaled value t: the observation's own raw value for a success, the lie (= the worst
   successful raw value) for a failure *)
Definition raw_behind (maximize : bool) (vals : list Q) (fails : list bool) (t : nat) : Q :=
  if nth t fails false
  then (if maximize then lmin (select (map negb fails) vals) else lmax (select (map negb fails) vals))
  else nth t vals 0.

(* order of the scaled values = order of the objective on the raw values behind them *)
Lemma scaled_le_iff (maximize : bool) vals fails t u :
  length fails = length vals -> select (map negb fails) vals <> [] ->
  (t < length vals)%nat -> (u < length vals)%nat ->
  (nth t (scaled_values maximize vals fails) 0 <= nth u (scaled_values maximize vals fails) 0 <->
   if maximize then raw_behind maximize vals fails u <= raw_behind maximize vals fails t
   else raw_behind maximize vals fails t <= raw_behind maximize vals fails u).
Proof.
  intros Hl Hne Ht Hu.
  destruct (scaled_values_affine maximize vals fails Hne) as (s & m & lie & Hs & Hlie & E).
  rewrite E. rewrite !(nth_map_combine _ 0 false 0) by assumption. cbn [fst snd].
  fold (raw_behind maximize vals fails). unfold raw_behind. rewrite <- Hlie.
  set (wt := if nth t fails false then lie else nth t vals 0).
  set (wu := if nth u fails false then lie else nth u vals 0).
  destruct maximize.
  - apply (iff_trans (affine_order (Qopp 1) s m wt wu Hs)). split; intros H; lra.
  - apply (iff_trans (affine_order 1 s m wt wu Hs)). split; intros H; lra.
Qed.

Lemma scaled_lt_iff (maximize : bool) vals fails t u :
  length fails = length vals -> select (map negb fails) vals <> [] ->
  (t < length vals)%nat -> (u < length vals)%nat ->
  (nth t (scaled_values maximize vals fails) 0 < nth u (scaled_values maximize vals fails) 0 <->
   if maximize then raw_behind maximize vals fails u < raw_behind maximize vals fails t
   else raw_behind maximize vals fails t < raw_behind maximize vals fails u).
Proof.
  intros Hl Hne Ht Hu. rewrite Qlt_nle, (scaled_le_iff maximize vals fails u t Hl Hne Hu Ht).
  destruct maximize; symmetry; apply Qlt_nle.
Qed.

Lemma nth_fails_default (fails : list bool) t : (t < length fails)%nat -> nth t fails true = nth t fails false.
Proof. intros H. apply nth_indep. exact H. Qed.
(* "success" (false with default true) already says that t is in range *)
Lemma success_default (fails : list bool) t : nth t fails true = false -> nth t fails false = false.
Proof.
  intros E. destruct (Nat.lt_ge_cases t (length fails)) as [H|H]; [rewrite <- E; apply nth_indep, H|].
  rewrite nth_overflow in E by exact H. discriminate.
Qed.
Lemma raw_behind_success maximize vals fails t : nth t fails true = false -> raw_behind maximize vals fails t = nth t vals 0.
Proof. intros Ef. unfold raw_behind. rewrite (success_default fails t Ef). reflexivity. Qed.

Lemma raw_behind_range (maximize : bool) vals fails t :
  length fails = length vals -> select (map negb fails) vals <> [] -> (t < length vals)%nat ->
  lmin (select (map negb fails) vals) <= raw_behind maximize vals fails t <= lmax (select (map negb fails) vals).
Proof.
  intros Hl Hne Ht. set (nf := select (map negb fails) vals) in *.
  assert (Hmm : lmin nf <= lmax nf) by (apply lmin_le, lmax_In; exact Hne).
  unfold raw_behind. fold nf. destruct (nth t fails false) eqn:Ef.
  - destruct maximize; split; try apply Qle_refl; exact Hmm.
  - assert (Hin : In (nth t vals 0) nf).
    { apply In_select_success. exists t. split; [exact Ht|]. split; [|reflexivity].
      rewrite nth_fails_default by congruence. exact Ef. }
    split; [apply lmin_le|apply lmax_ge]; exact Hin.
Qed.

Lemma nth_masked scaled fails t : length fails = length scaled -> (t < length scaled)%nat ->
  nth t (masked_values scaled fails) PInf = if nth t fails false then PInf else Val (nth t scaled 0).
Proof.
  intros Hl Ht. unfold masked_values. rewrite (nth_map_combine _ 0 false PInf) by assumption. reflexivity.
Qed.

(* b has the best raw value among the successful observations t < n, and a strictly better one than every such
   observation before it; raw_first_best_in says the same of the successful observations in P *)
Definition raw_first_best (maximize : bool) (vals : list Q) (fails : list bool) (n b : nat) : Prop :=
  (forall t, (t < n)%nat -> nth t fails true = false ->
     if maximize then nth t vals 0 <= nth b vals 0 else nth b vals 0 <= nth t vals 0) /\
  (forall t, (t < b)%nat -> nth t fails true = false ->
     if maximize then nth t vals 0 < nth b vals 0 else nth b vals 0 < nth t vals 0).
Definition raw_first_best_in (maximize : bool) (vals : list Q) (fails : list bool) (P : nat -> Prop) (n b : nat) : Prop :=
  (forall t, (t < n)%nat -> P t -> nth t fails true = false ->
     if maximize then nth t vals 0 <= nth b vals 0 else nth b vals 0 <= nth t vals 0) /\
  (forall t, (t < b)%nat -> P t -> nth t fails true = false ->
     if maximize then nth t vals 0 < nth b vals 0 else nth b vals 0 < nth t vals 0).

Section Masked.
Variable maximize : bool.
Variable vals : list Q.
Variable fails : list bool.
Hypothesis Hl : length fails = length vals.
Let nf := select (map negb fails) vals.
Hypothesis Hne : nf <> [].
Let sv := scaled_values maximize vals fails.
Let mv := masked_values sv fails.
Let m (t : nat) : xv := nth t mv PInf.

Lemma sv_length : length sv = length vals.
Proof. exact (scaled_values_length maximize vals fails Hl). Qed.

Lemma m_failed t : (t < length vals)%nat -> nth t fails false = true -> m t = PInf.
Proof. intros Ht Ef. unfold m, mv. rewrite nth_masked by (rewrite sv_length; assumption). rewrite Ef. reflexivity. Qed.

Lemma m_success t : (t < length vals)%nat -> nth t fails true = false -> m t = Val (nth t sv 0).
Proof.
  intros Ht Ef. unfold m, mv. rewrite nth_masked by (rewrite sv_length; assumption).
  rewrite (success_default fails t Ef). reflexivity.
Qed.

Lemma success_or_failed t : (t < length vals)%nat -> nth t fails true = false \/ nth t fails false = true.
Proof. intros Ht. rewrite (nth_fails_default fails t) by (rewrite Hl; exact Ht). destruct (nth t fails false); auto. Qed.

(* between two successes the comparison the view makes IS the comparison of the raw values for the objective *)
Lemma m_success_order t u : (t < length vals)%nat -> (u < length vals)%nat -> nth t fails true = false -> nth u fails true = false ->
  (vle (m t) (m u) <-> if maximize then nth u vals 0 <= nth t vals 0 else nth t vals 0 <= nth u vals 0) /\
  (vlt (m t) (m u) <-> if maximize then nth u vals 0 < nth t vals 0 else nth t vals 0 < nth u vals 0).
Proof.
  intros Ht Hu Et Eu. unfold vle, vlt. rewrite (m_success t Ht Et), (m_success u Hu Eu).
  rewrite <- (raw_behind_success maximize vals fails t Et), <- (raw_behind_success maximize vals fails u Eu). split.
  - exact (iff_trans (Qltb_ge _ _) (scaled_le_iff maximize vals fails t u Hl Hne Ht Hu)).
  - exact (iff_trans (Qltb_lt _ _) (scaled_lt_iff maximize vals fails t u Hl Hne Ht Hu)).
Qed.
(* a success is strictly before every failure; nothing is strictly after a failure *)
Lemma m_success_lt_failed t u : (t < length vals)%nat -> (u < length vals)%nat -> nth t fails true = false -> nth u fails false = true ->
  vlt (m t) (m u).
Proof. intros Ht Hu Et Eu. unfold vlt. rewrite (m_success t Ht Et), (m_failed u Hu Eu). reflexivity. Qed.
Lemma m_failed_not_lt t x : (t < length vals)%nat -> nth t fails false = true -> ~ vlt (m t) x.
Proof. intros Ht Et. unfold vlt. rewrite (m_failed t Ht Et). simpl. discriminate. Qed.
Lemma m_le_failed_is_failed b t : (b < length vals)%nat -> (t < length vals)%nat -> nth b fails false = true -> vle (m b) (m t) ->
  nth t fails false = true.
Proof.
  intros Hb Ht Eb H. destruct (success_or_failed t Ht) as [Et|Et]; [|exact Et].
  exfalso. pose proof (m_success_lt_failed t b Ht Hb Et Eb) as L. unfold vlt, vle in *. congruence.
Qed.

(* any index b whose compared value is the first minimum over a set P of observations (a cluster) *)
Theorem set_min_is_best_success (P : nat -> Prop) (b : nat) :
  (b < length vals)%nat -> first_min mv P (length vals) b ->
  ((exists t, (t < length vals)%nat /\ P t /\ nth t fails true = false) -> nth b fails true = false) /\
  (nth b fails true = false -> raw_first_best_in maximize vals fails P (length vals) b) /\
  (nth b fails false = true ->
     (forall t, (t < length vals)%nat -> P t -> nth t fails false = true) /\
     (forall t, (t < b)%nat -> ~ P t)).
Proof.
  intros Hb [Hmin Hfirst]. split; [|split].
  - intros (t & Ht & HP & Et). destruct (success_or_failed b Hb) as [E|E]; [exact E|]. exfalso.
    pose proof (m_le_failed_is_failed b t Hb Ht E (Hmin t Ht HP)) as F. rewrite (success_default fails t Et) in F. discriminate.
  - intros Eb. split.
    + intros t Ht HP Et. apply (m_success_order b t Hb Ht Eb Et). apply Hmin; assumption.
    + intros t Ht HP Et. apply (m_success_order b t Hb (Nat.lt_trans _ _ _ Ht Hb) Eb Et). apply Hfirst; assumption.
  - intros Eb. split.
    + intros t Ht HP. apply (m_le_failed_is_failed b t Hb Ht Eb). apply Hmin; assumption.
    + intros t Ht HP. apply (m_failed_not_lt b (m t) Hb Eb). apply Hfirst; assumption.
Qed.

(* the first minimum of the compared values (the first centre, the first returned index): the set of all observations *)
Theorem first_min_is_best_success :
  let bestv := if maximize then lmax nf else lmin nf in
  let b := vargmin mv in
  (b < length vals)%nat /\ nth b fails true = false /\ nth b vals 0 == bestv /\
  raw_first_best maximize vals fails (length vals) b.
Proof.
  intros bestv b.
  destruct (proj1 (In_select_success fails vals bestv)) as (t0 & Ht0 & Et0 & Ev0).
  { unfold bestv. fold nf. destruct maximize; [apply lmax_In|apply lmin_In]; exact Hne. }
  pose proof (compared_values_length maximize vals fails Hl) as Hml. fold sv mv in Hml.
  destruct (vargmin_first mv) as (Hb & Hmin & Hfirst); [intros E; rewrite E in Hml; rewrite <- Hml in Ht0; inversion Ht0|].
  fold b in Hb, Hmin, Hfirst. rewrite Hml in Hb.
  destruct (set_min_is_best_success (fun _ => True) b Hb) as (S1 & S2 & _).
  { split; [intros t Ht _; apply Hmin; rewrite Hml; exact Ht|intros t Ht _; apply Hfirst, Ht]. }
  assert (Eb : nth b fails true = false) by (apply S1; exists t0; auto).
  destruct (S2 Eb) as [Hall Hfst].
  split; [exact Hb|]. split; [exact Eb|]. split; [|split].
  - pose proof (Hall t0 Ht0 I Et0) as H. rewrite Ev0 in H.
    assert (Hin : In (nth b vals 0) nf) by (apply In_select_success; exists b; auto).
    unfold bestv in *. destruct maximize; apply Qle_antisym; try exact H; [apply lmax_ge|apply lmin_le]; exact Hin.
  - intros t Ht Et. exact (Hall t Ht I Et).
  - intros t Ht Et. exact (Hfst t Ht I Et).
Qed.
End Masked.

(* the whole endpoint in terms of RAW values: the strict reading *)
Theorem view_strict cs tgt points vals fails maximize k ohs :
  all_some (map (to_one_hot cs) points) = Some ohs ->
  length vals = length points -> length fails = length points -> (2 <= k < length points)%nat ->
  let nf := select (map negb fails) vals in
  nf <> [] ->
  let mv := masked_values (scaled_values maximize vals fails) fails in
  let spts := map (search_point cs tgt) ohs in
  let bestv := if maximize then lmax nf else lmin nf in
  exists centres part best,
    k_center spts (vargmin mv) k = Some (centres, part) /\
    view cs tgt points vals fails maximize k = Some best /\
    length best = k /\ NoDup best /\ (forall i, In i best -> (i < length points)%nat) /\
    (let b0 := hd O best in
     In b0 best /\ nth b0 fails true = false /\ nth b0 vals 0 == bestv /\
     raw_first_best maximize vals fails (length points) b0) /\
    forall c, (c < k)%nat ->
      let b := nth c best O in
      nth b part O = c /\
      ((exists t, (t < length points)%nat /\ nth t part O = c /\ nth t fails true = false) -> nth b fails true = false) /\
      (nth b fails true = false ->
         raw_first_best_in maximize vals fails (fun t => nth t part O = c) (length points) b) /\
      (nth b fails false = true ->
         (forall t, (t < length points)%nat -> nth t part O = c -> nth t fails false = true) /\
         (forall t, (t < b)%nat -> nth t part O <> c)).
Proof.
  intros Hoh Hlv Hlf Hk nf Hne mv spts bestv.
  destruct (view_spec cs tgt points vals fails maximize k ohs Hoh Hlv Hlf Hk)
    as (centres & part & best & H1 & H2 & H3 & H4 & H5 & H6 & H7).
  assert (Hl : length fails = length vals) by (rewrite Hlv; exact Hlf).
  assert (Hin0 : In (hd O best) best) by (destruct best; [simpl in H3; lia|left; reflexivity]).
  exists centres, part, best. split; [exact H1|]. split; [exact H2|]. split; [exact H3|]. split; [exact H4|]. split; [exact H5|].
  clear H1 H2 H4 Hoh Hlf Hk. rewrite <- Hlv in *. clear Hlv. split.
  - split; [exact Hin0|]. cbv zeta. rewrite H6. exact (proj2 (first_min_is_best_success maximize vals fails Hl Hne)).
  - intros c Hc. destruct (H7 c Hc) as (P1 & P2). split; [exact P1|].
    exact (set_min_is_best_success maximize vals fails Hl Hne (fun t => nth t part O = c) (nth c best O)
             (H5 _ (nth_In _ _ ltac:(rewrite H3; exact Hc))) P2).
Qed.

(* strict reading of "one of which is the overall best observation": the first returned index is a SUCCESSFUL observation
   whose raw value no success beats, every earlier success being strictly worse *)
Theorem overall_best_strict cs tgt points vals fails maximize k ohs :
  all_some (map (to_one_hot cs) points) = Some ohs ->
  length vals = length points -> length fails = length points -> (2 <= k < length points)%nat ->
  (exists i, (i < length points)%nat /\ nth i fails true = false) ->
  exists best,
    view cs tgt points vals fails maximize k = Some best /\
    let b0 := hd O best in
    In b0 best /\ (b0 < length points)%nat /\ nth b0 fails true = false /\
    raw_first_best maximize vals fails (length points) b0.
Proof.
  intros Hoh Hlv Hlf Hk (i & Hi & Ei).
  assert (Hne : select (map negb fails) vals <> []).
  { intros E. assert (Hin : In (nth i vals 0) (select (map negb fails) vals)).
    { apply In_select_success. exists i. split; [congruence|]. split; [exact Ei|reflexivity]. }
    rewrite E in Hin. destruct Hin. }
  destruct (view_strict cs tgt points vals fails maximize k ohs Hoh Hlv Hlf Hk Hne)
    as (centres & part & best & _ & H2 & _ & _ & H5 & (B1 & B2 & _ & B4 & B5) & _).
  exists best. split; [exact H2|]. cbv zeta. split; [exact B1|]. split; [apply H5; exact B1|]. split; [exact B2|]. split; assumption.
Qed.

(* hence the endpoint never answers with failed observations only when a success exists *)
Theorem never_only_failures cs tgt points vals fails maximize k best :
  length vals = length points -> length fails = length points -> (2 <= k < length points)%nat ->
  view cs tgt points vals fails maximize k = Some best ->
  (exists i, (i < length points)%nat /\ nth i fails true = false) ->
  exists i, In i best /\ nth i fails true = false.
Proof.
  intros Hlv Hlf Hk Hv Hs. unfold view in Hv.
  destruct (all_some (map (to_one_hot cs) points)) as [ohs|] eqn:Hoh; [|discriminate].
  destruct (overall_best_strict cs tgt points vals fails maximize k ohs Hoh Hlv Hlf Hk Hs) as (best' & Hv' & B1 & _ & B2 & _).
  unfold view in Hv'. rewrite Hoh in Hv'. rewrite Hv in Hv'. injection Hv' as <-.
  exists (hd O best). split; assumption.
Qed.
