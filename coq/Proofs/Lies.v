(* C15: pending-point bookkeeping over any history.  Lemmas and theorems about LV.Model.Lies, in the order of its parts (i)-(vii).
   The data of a GP and the point sets of a Parzen estimator are functions of what they started from and of the lies told
   since (lied and hist_step, pz_of): the theorems about histories are read off those functions. *)
From Coq Require Import List QArith Lia.
From LV Require Import Model.Lies.
Import ListNotations.
Open Scope Q_scope.

Lemma Qle_bool_false_le a b : Qle_bool a b = false -> b <= a.
Proof.
  intros E. destruct (Qlt_le_dec a b) as [L|L]; [|exact L].
  apply Qlt_le_weak, Qle_bool_iff in L. congruence.
Qed.
Lemma Qmaxb_spec a b : (Qmaxb a b = a /\ b <= a) \/ (Qmaxb a b = b /\ a <= b).
Proof.
  unfold Qmaxb. destruct (Qle_bool a b) eqn:E; [right|left]; (split; [reflexivity|]).
  - apply Qle_bool_iff, E.
  - apply Qle_bool_false_le, E.
Qed.
Lemma Qminb_spec a b : (Qminb a b = a /\ a <= b) \/ (Qminb a b = b /\ b <= a).
Proof.
  unfold Qminb. destruct (Qle_bool b a) eqn:E; [right|left]; (split; [reflexivity|]).
  - apply Qle_bool_iff, E.
  - apply Qle_bool_false_le, E.
Qed.

(* a left fold of a binary choice that returns, of its two arguments, one that bounds the other (for a preorder R)
   returns an element of the list that bounds all of them *)
Lemma fold_choice_spec (R : Q -> Q -> Prop) (f : Q -> Q -> Q) :
  (forall a, R a a) -> (forall a b c, R a b -> R b c -> R a c) ->
  (forall a b, (f a b = a /\ R b a) \/ (f a b = b /\ R a b)) ->
  forall l x, In (fold_left f l x) (x :: l) /\ forall y, In y (x :: l) -> R y (fold_left f l x).
Proof.
  intros Hrefl Htrans Hf. induction l as [|a l IH]; intros x; cbn [fold_left].
  - split; [left; reflexivity|]. intros y [<-|[]]. apply Hrefl.
  - destruct (IH (f x a)) as [Hin Hub].
    assert (Hx : R x (f x a) /\ R a (f x a) /\ In (f x a) [x; a]).
    { destruct (Hf x a) as [[-> L]|[-> L]]; cbn; auto. }
    destruct Hx as (Hx & Ha & Hfa). split.
    + destruct Hin as [<-|Hin]; [|right; right; exact Hin]. destruct Hfa as [<-|[<-|[]]]; cbn; auto.
    + intros y [<-|[<-|Hy]]; [apply (Htrans _ _ _ Hx)|apply (Htrans _ _ _ Ha)|]; apply Hub; cbn; auto.
Qed.
Lemma qmax_spec l x : In (qmax x l) (x :: l) /\ forall y, In y (x :: l) -> y <= qmax x l.
Proof. exact (fold_choice_spec Qle Qmaxb Qle_refl Qle_trans Qmaxb_spec l x). Qed.
Lemma qmin_spec l x : In (qmin x l) (x :: l) /\ forall y, In y (x :: l) -> qmin x l <= y.
Proof.
  exact (fold_choice_spec (fun a b => b <= a) Qminb Qle_refl (fun a b c H1 H2 => Qle_trans _ _ _ H2 H1) Qminb_spec l x).
Qed.

(* what "worst observed value" means for each lie method *)
Definition worst (m : lie_method) (vals : list Q) (v : Q) : Prop :=
  match m with
  | LieMin => In v vals /\ forall y, In y vals -> y <= v
  | LieMax => In v vals /\ forall y, In y vals -> v <= y
  | LieMean => v * inject_Z (Z.of_nat (length vals)) == qsum vals
  end.

Lemma lie_value_worst m vals : vals <> [] -> exists v, lie_value m vals = Some v /\ worst m vals v.
Proof.
  destruct vals as [|x r]; [congruence|]. intros _. unfold lie_value.
  destruct m; eexists; (split; [reflexivity|]); unfold worst.
  - apply qmax_spec.
  - apply qmin_spec.
  - rewrite Qmult_comm. apply Qmult_div_r. unfold Qeq, inject_Z. cbn [Qnum Qden length]. lia.
Qed.

(* numpy.argmin keeps the first minimum while it scans: [pre] is the part already scanned, [best] its minimum, at index [bi] *)
Lemma argmin_from_spec l : forall pre best bi, nth_error pre bi = Some best -> (forall y, In y pre -> best <= y) ->
  exists v, nth_error (pre ++ l) (argmin_from best bi (length pre) l) = Some v /\ forall y, In y (pre ++ l) -> v <= y.
Proof.
  induction l as [|x r IH]; intros pre best bi Hb Hmin; cbn [argmin_from].
  - rewrite app_nil_r. exists best. split; assumption.
  - assert (Hbi : (bi < length pre)%nat) by (apply nth_error_Some; congruence).
    replace (pre ++ x :: r) with ((pre ++ [x]) ++ r) by (rewrite <- app_assoc; reflexivity).
    replace (S (length pre)) with (length (pre ++ [x])) by (rewrite app_length; apply Nat.add_1_r).
    destruct (Qle_bool best x) eqn:C; apply IH.
    + rewrite nth_error_app1 by exact Hbi. exact Hb.
    + intros y Hy. apply in_app_or in Hy. destruct Hy as [Hy|[<-|[]]]; [apply Hmin, Hy|apply Qle_bool_iff, C].
    + rewrite nth_error_app2, Nat.sub_diag by apply Nat.le_refl. reflexivity.
    + apply Qle_bool_false_le in C. intros y Hy. apply in_app_or in Hy. destruct Hy as [Hy|[<-|[]]]; [|apply Qle_refl].
      apply (Qle_trans _ _ _ C), Hmin, Hy.
Qed.

Lemma argmin_spec l : l <> [] -> exists v, nth_error l (argmin l) = Some v /\ In v l /\ forall y, In y l -> v <= y.
Proof.
  destruct l as [|x r]; [congruence|]. intros _.
  destruct (argmin_from_spec r [x] x 0%nat eq_refl) as (v & Hv & Hmin); [intros y [<-|[]]; apply Qle_refl|].
  exists v. split; [exact Hv|]. split; [exact (nth_error_In _ _ Hv)|exact Hmin].
Qed.

Lemma read_at_argmin l : l <> [] -> exists v, read_at l (argmin l) = OVal v /\ In v l /\ forall y, In y l -> v <= y.
Proof.
  intros Hl. destruct (argmin_spec l Hl) as (v & Hv & H). exists v. unfold read_at. rewrite Hv. split; [reflexivity|exact H].
Qed.

Lemma run_cons {St Op Out} (step : St -> Op -> St * Out) s o ops : run step s (o :: ops) = run step (fst (step s o)) ops.
Proof. reflexivity. Qed.

Definition hist_wf (h : hist) : Prop :=
  length (h_vals h) = length (h_pts h) /\ length (h_noise h) = length (h_pts h) /\ h_vals h <> [].
Definition gp_cache_ok (g : gp) : Prop := g_best g = None \/ g_best g = Some (argmin (h_vals (g_hist g))).
Definition gp_wf (g : gp) : Prop := hist_wf (g_hist g) /\ gp_cache_ok g.
Definition dims_ok (d : nat) (locs : list point) : Prop := Forall (fun p => length p = d) locs.
Definition gop_ok (d : nat) (o : gop) : Prop := match o with GAppend locs _ => dims_ok d locs | _ => True end.
Definition is_gappend (o : gop) : bool := match o with GAppend _ _ => true | _ => false end.

Lemma dims_ok_forallb d locs : dims_ok d locs -> forallb (fun p => Nat.eqb (length p) d) locs = true.
Proof. intros H. apply forallb_forall. intros p Hp. apply Nat.eqb_eq. exact (proj1 (Forall_forall _ _) H p Hp). Qed.

Lemma append_historical_data_ok h locs vs ns : dims_ok (h_dim h) locs ->
  append_historical_data h locs vs ns =
    inl match locs with [] => h | _ => mkHist (h_dim h) (h_pts h ++ locs) (h_vals h ++ vs) (h_noise h ++ ns) end.
Proof. intros Hd. unfold append_historical_data. destruct locs; [reflexivity|]. rewrite (dims_ok_forallb _ _ Hd). reflexivity. Qed.

(* the data h followed by a lie block: the locations, each carrying the value v and the lie noise *)
Definition lied (h : hist) (locs : list point) (v : Q) : hist :=
  mkHist (h_dim h) (h_pts h ++ locs) (h_vals h ++ repeat v (length locs)) (h_noise h ++ repeat lie_noise (length locs)).

Lemma lied_nil h v : lied h [] v = h.
Proof. destruct h as [d ps vs ns]. unfold lied. cbn [length repeat h_dim h_pts h_vals h_noise]. rewrite !app_nil_r. reflexivity. Qed.
Lemma lied_lied h l1 l2 v : lied (lied h l1 v) l2 v = lied h (l1 ++ l2) v.
Proof. unfold lied. cbn [h_dim h_pts h_vals h_noise]. rewrite app_length, !repeat_app, <- !app_assoc. reflexivity. Qed.
Lemma lied_wf h locs v : hist_wf h -> hist_wf (lied h locs v).
Proof.
  intros (H1 & H2 & H3). unfold hist_wf, lied. cbn [h_pts h_vals h_noise].
  rewrite !app_length, !repeat_length, H1, H2. repeat split. intros E. apply app_eq_nil in E. apply H3, E.
Qed.

(* appending a lie block goes through HistoricalData's early return on an empty block, which leaves the same data *)
Lemma append_lies h locs v : dims_ok (h_dim h) locs ->
  append_historical_data h locs (repeat v (length locs)) (repeat lie_noise (length locs)) = inl (lied h locs v).
Proof.
  intros Hd. rewrite (append_historical_data_ok _ _ _ _ Hd). destruct locs; [|reflexivity]. rewrite lied_nil. reflexivity.
Qed.

Lemma gp_append_lied g locs m v : lie_value m (h_vals (g_hist g)) = Some v -> dims_ok (h_dim (g_hist g)) locs ->
  gp_append g locs m = (mkGp (lied (g_hist g) locs v) None, None).
Proof. intros Hv Hd. unfold gp_append. rewrite Hv, (append_lies _ _ v Hd). reflexivity. Qed.

(* one append: the data grow by exactly the lie block: locations, the lie value of that moment, the lie noise *)
Lemma gp_append_spec g locs m : hist_wf (g_hist g) -> dims_ok (h_dim (g_hist g)) locs ->
  exists v, worst m (h_vals (g_hist g)) v /\
    let g' := fst (gp_append g locs m) in
    snd (gp_append g locs m) = None /\ g_best g' = None /\
    h_dim (g_hist g') = h_dim (g_hist g) /\
    h_pts (g_hist g') = h_pts (g_hist g) ++ locs /\
    h_vals (g_hist g') = h_vals (g_hist g) ++ repeat v (length locs) /\
    h_noise (g_hist g') = h_noise (g_hist g) ++ repeat lie_noise (length locs).
Proof.
  intros (_ & _ & Hne) Hd. destruct (lie_value_worst m _ Hne) as (v & Hv & Hw).
  exists v. split; [exact Hw|]. rewrite (gp_append_lied g locs m v Hv Hd). repeat split.
Qed.
Lemma gp_step_append_fst g locs m : fst (gp_step g (GAppend locs m)) = fst (gp_append g locs m).
Proof. cbn [gp_step]. destruct (gp_append g locs m). reflexivity. Qed.

(* What an operation does to the data.  The best-index memo plays no part in it, and reads leave the data alone. *)
Definition hist_step (h : hist) (o : gop) : hist :=
  match o with
  | GAppend locs m => match lie_value m (h_vals h) with Some v => lied h locs v | None => h end
  | _ => h
  end.

Lemma gp_step_hist g o : gop_ok (h_dim (g_hist g)) o -> g_hist (fst (gp_step g o)) = hist_step (g_hist g) o.
Proof.
  destruct o as [locs m| | | | | |]; try reflexivity. intros Hd. rewrite gp_step_append_fst. cbn [hist_step].
  destruct (lie_value m (h_vals (g_hist g))) as [v|] eqn:Hv.
  - rewrite (gp_append_lied g locs m v Hv Hd). reflexivity.
  - unfold gp_append. rewrite Hv. reflexivity.
Qed.
Lemma hist_step_dim h o : h_dim (hist_step h o) = h_dim h.
Proof. destruct o; try reflexivity. cbn [hist_step]. destruct (lie_value _ _); reflexivity. Qed.
Lemma hist_step_wf h o : hist_wf h -> hist_wf (hist_step h o).
Proof. intros Hw. destruct o; try exact Hw. cbn [hist_step]. destruct (lie_value _ _); [apply lied_wf|]; exact Hw. Qed.

Lemma gp_run_hist ops : forall g, Forall (gop_ok (h_dim (g_hist g))) ops ->
  g_hist (run gp_step g ops) = fold_left hist_step ops (g_hist g).
Proof.
  induction ops as [|o ops IH]; intros g Ho; [reflexivity|]. inversion Ho as [|? ? Ho1 Ho2]; subst.
  rewrite run_cons. cbn [fold_left].
  rewrite <- (gp_step_hist g o Ho1). apply IH. rewrite (gp_step_hist g o Ho1), hist_step_dim. exact Ho2.
Qed.
Lemma hist_run_wf ops : forall h, hist_wf h -> hist_wf (fold_left hist_step ops h).
Proof. induction ops as [|o ops IH]; intros h Hw; [exact Hw|]. apply IH, hist_step_wf, Hw. Qed.
Lemma hist_run_reads ops : forall h, fold_left hist_step ops h = fold_left hist_step (filter is_gappend ops) h.
Proof.
  induction ops as [|o ops IH]; intros h; [reflexivity|]. cbn [filter]. destruct o; cbn [is_gappend fold_left]; apply IH.
Qed.

Lemma gp_step_cache g o : gp_cache_ok g -> gp_cache_ok (fst (gp_step g o)).
Proof.
  intros Hc. destruct o as [locs m| | | | | |]; try exact Hc.
  - rewrite gp_step_append_fst. unfold gp_append. destruct (lie_value _ _); [|exact Hc].
    destruct (append_historical_data _ _ _ _); [left; reflexivity|exact Hc].
  - right. cbn. destruct Hc as [->| ->]; reflexivity.
Qed.
Lemma gp_run_wf ops g : gp_wf g -> Forall (gop_ok (h_dim (g_hist g))) ops -> gp_wf (run gp_step g ops).
Proof.
  intros [Hw Hc] Ho. split; [rewrite (gp_run_hist ops g Ho); apply hist_run_wf, Hw|].
  clear Hw Ho. revert g Hc. induction ops as [|o ops IH]; intros g Hc; [exact Hc|]. apply IH, gp_step_cache, Hc.
Qed.

Lemma gp_lie_invariant g0 ops : gp_wf g0 -> Forall (gop_ok (h_dim (g_hist g0))) ops ->
  let g := run gp_step g0 ops in
  (length (h_vals (g_hist g)) = length (h_pts (g_hist g)) /\ length (h_noise (g_hist g)) = length (h_pts (g_hist g)) /\
   h_vals (g_hist g) <> []) /\
  g_hist g = g_hist (run gp_step g0 (filter is_gappend ops)) /\
  snd (gp_step g GNum) = ONat (length (h_pts (g_hist g))) /\
  snd (gp_step g GPts) = OPts (h_pts (g_hist g)) /\
  snd (gp_step g GVals) = OVec (h_vals (g_hist g)) /\
  snd (gp_step g GNoise) = OVec (h_noise (g_hist g)) /\
  exists v, snd (gp_step g GBest) = OVal v /\ In v (h_vals (g_hist g)) /\ forall y, In y (h_vals (g_hist g)) -> v <= y.
Proof.
  intros Hw Ho. destruct (gp_run_wf ops g0 Hw Ho) as [Hw' Hc]. split; [exact Hw'|]. split.
  - rewrite !gp_run_hist; [apply hist_run_reads| |exact Ho]. apply (incl_Forall (incl_filter _ _) Ho).
  - (* the accessors return the fields; the memoised best index, if there is one, is the argmin *)
    repeat split. cbn [gp_step snd]. destruct Hc as [->| ->]; apply read_at_argmin, Hw'.
Qed.

(* the locations appended by a history *)
Definition appended (ops : list gop) : list point :=
  flat_map (fun o => match o with GAppend locs _ => locs | _ => [] end) ops.
Definition only_liemin (o : gop) : Prop := match o with GAppend _ LieMin => True | GAppend _ _ => False | _ => True end.

Lemma qmax_repeat m k : qmax m (repeat m k) = m.
Proof.
  induction k as [|k IH]; [reflexivity|]. cbn [repeat qmax fold_left]. unfold Qmaxb at 2.
  assert (Qle_bool m m = true) as -> by (apply Qle_bool_iff, Qle_refl). exact IH.
Qed.
Lemma lie_min_stable vals k v : lie_value LieMin vals = Some v -> lie_value LieMin (vals ++ repeat v k) = Some v.
Proof.
  destruct vals as [|x r]; [discriminate|]. cbn [lie_value app]. intros E. injection E as E'. f_equal.
  unfold qmax in *. rewrite fold_left_app, E'. apply qmax_repeat.
Qed.

(* closed form for the library's own lie method (constant_liar_min, the default and the only one it passes):
   whatever was read in between, the data are the initial data followed by every appended location, all carrying the
   maximum of the INITIAL values and the lie noise *)
Lemma hist_liemin_closed_form ops : forall h w, Forall only_liemin ops -> lie_value LieMin (h_vals h) = Some w ->
  fold_left hist_step ops h = lied h (appended ops) w.
Proof.
  induction ops as [|o ops IH]; intros h w Hm Hv; [symmetry; apply lied_nil|].
  inversion Hm as [|? ? Hm1 Hm2]; subst. destruct o as [locs m| | | | | |]; try exact (IH h w Hm2 Hv).
  destruct m; try contradiction. cbn [fold_left hist_step appended flat_map]. rewrite Hv, <- lied_lied.
  apply (IH _ w Hm2), lie_min_stable, Hv.
Qed.
Lemma gp_liemin_closed_form ops g w : Forall (gop_ok (h_dim (g_hist g))) ops -> Forall only_liemin ops ->
  lie_value LieMin (h_vals (g_hist g)) = Some w ->
  let g' := run gp_step g ops in let k := length (appended ops) in
  h_pts (g_hist g') = h_pts (g_hist g) ++ appended ops /\
  h_vals (g_hist g') = h_vals (g_hist g) ++ repeat w k /\
  h_noise (g_hist g') = h_noise (g_hist g) ++ repeat lie_noise k.
Proof. intros Ho Hm Hv. cbn zeta. rewrite (gp_run_hist ops g Ho), (hist_liemin_closed_form ops _ w Hm Hv). repeat split. Qed.

Definition sop_ok (d : nat) (o : sop) : Prop := match o with SAppend locs _ => dims_ok d locs | _ => True end.
Definition sop_gop (o : sop) : gop := match o with SAppend locs m => GAppend locs m | _ => GNum end.
Definition comp_ok (d n : nat) (g : gp) : Prop := gp_wf g /\ h_dim (g_hist g) = d /\ length (h_pts (g_hist g)) = n.
Definition sum_wf (d : nat) (s : gpsum) : Prop :=
  s_comps s <> [] /\ length (s_weights s) = length (s_comps s) /\ Forall (comp_ok d (s_num s)) (s_comps s).
(* a memoised field is empty or holds the value a fresh computation would give *)
Definition memo_ok {A} (c : option A) (v : A) : Prop := c = None \/ c = Some v.
Definition sum_cache_ok (s : gpsum) : Prop :=
  memo_ok (c_vals s) (fresh_vals s) /\ memo_ok (c_noise s) (fresh_noise s) /\ memo_ok (c_best s) (argmin (fresh_vals s)).

(* the common length of the columns is that of the first component *)
Lemma sum_wf_intro d n gs ws cv cn cb : gs <> [] -> length ws = length gs -> Forall (comp_ok d n) gs ->
  sum_wf d (mkSum gs ws cv cn cb).
Proof.
  intros Hne Hl Hf. repeat split; try assumption. unfold s_num. cbn [s_comps]. destruct gs as [|g r]; [congruence|].
  inversion Hf as [|? ? (_ & _ & Hn) _]. rewrite Hn. exact Hf.
Qed.

Lemma comp_ok_append d n g locs m : comp_ok d n g -> dims_ok d locs ->
  exists g', gp_append g locs m = (g', None) /\ comp_ok d (n + length locs) g'.
Proof.
  intros ([Hw _] & Hdim & Hn) Hd. destruct (lie_value_worst m _ (proj2 (proj2 Hw))) as (v & Hv & _). rewrite <- Hdim in Hd.
  eexists. split; [exact (gp_append_lied g locs m v Hv Hd)|]. split; [split; [apply lied_wf, Hw|left; reflexivity]|].
  split; [exact Hdim|]. cbn. rewrite app_length, Hn. reflexivity.
Qed.

Lemma append_all_ok d n gs locs m : Forall (comp_ok d n) gs -> dims_ok d locs ->
  append_all gs locs m = (map (fun g => fst (gp_append g locs m)) gs, None) /\
  Forall (comp_ok d (n + length locs)) (map (fun g => fst (gp_append g locs m)) gs).
Proof.
  intros Hf Hd. induction Hf as [|g r Hg _ [IH1 IH2]]; [split; [reflexivity|constructor]|].
  destruct (comp_ok_append d n g locs m Hg Hd) as (g' & E & Hg'). cbn [append_all map]. rewrite E, IH1.
  split; [reflexivity|constructor; assumption].
Qed.

(* an append resets the three memos and sends every component through the same append *)
Lemma s_step_append d s locs m : sum_wf d s -> dims_ok d locs ->
  let s' := mkSum (map (fun g => fst (gp_append g locs m)) (s_comps s)) (s_weights s) None None None in
  s_step true s (SAppend locs m) = (s', ONone) /\ sum_wf d s'.
Proof.
  intros (Hne & Hlw & Hf) Hd. destruct (append_all_ok d _ _ locs m Hf Hd) as [E Hf']. cbn [s_step]. rewrite E.
  split; [reflexivity|]. apply (sum_wf_intro d (s_num s + length locs)); [|rewrite map_length; exact Hlw|exact Hf'].
  destruct (s_comps s); [congruence|discriminate].
Qed.

Lemma memo_get {A} (c : option A) v : memo_ok c v -> match c with Some x => x | None => v end = v.
Proof. intros [->| ->]; reflexivity. Qed.

Lemma s_read_vals_ok s : memo_ok (c_vals s) (fresh_vals s) ->
  s_read_vals s = (mkSum (s_comps s) (s_weights s) (Some (fresh_vals s)) (c_noise s) (c_best s), fresh_vals s).
Proof. unfold s_read_vals. intros [E|E]; rewrite E; [reflexivity|]. rewrite <- E. destruct s; reflexivity. Qed.

(* with consistent memos a memoised read returns the fresh value and leaves its memos holding fresh values; components and
   weights are not touched *)
Lemma s_step_read s : sum_cache_ok s ->
  let fill := mkSum (s_comps s) (s_weights s) in
  let v := fresh_vals s in
  s_step true s SVals = (fill (Some v) (c_noise s) (c_best s), OVec v) /\
  s_step true s SNoise = (fill (c_vals s) (Some (fresh_noise s)) (c_best s), OVec (fresh_noise s)) /\
  s_step true s SBest = (fill (Some v) (c_noise s) (Some (argmin v)), read_at v (argmin v)).
Proof.
  intros (Cv & Cn & Cb). cbn [s_step]. rewrite (s_read_vals_ok s Cv). cbn [c_best]. rewrite (memo_get _ _ Cb).
  split; [reflexivity|]. split; [|reflexivity].
  destruct Cn as [E|E]; rewrite E; [reflexivity|]. rewrite <- E. destruct s; reflexivity.
Qed.

Lemma s_step_wf d s o : sum_wf d s -> sum_cache_ok s -> sop_ok d o ->
  let s' := fst (s_step true s o) in
  sum_wf d s' /\ sum_cache_ok s' /\ s_weights s' = s_weights s /\
  s_comps s' = map (fun g => fst (gp_step g (sop_gop o))) (s_comps s).
Proof.
  intros Hwf Hck Ho. destruct (s_step_read s Hck) as (Ev & En & Eb). pose proof Hck as (Cv & Cn & Cb). cbn zeta in *.
  destruct o as [locs m| | | | | |].
  1: { destruct (s_step_append d s locs m Hwf Ho) as [E Hwf']. rewrite E. split; [exact Hwf'|].
       split; [repeat split; left; reflexivity|]. split; [reflexivity|].
       apply map_ext. intros g. symmetry. apply gp_step_append_fst. }
  (* every other operation leaves components and weights alone, so well-formedness, which speaks of them only, is kept by
     conversion and the components go through the identity; a memo that is filled is filled with the fresh value *)
  3: rewrite Ev. 4: rewrite En. 5: rewrite Eb.
  all: refine (conj Hwf (conj _ (conj eq_refl (eq_sym (map_id _))))).
  1, 2, 6: exact Hck.
  - exact (conj (or_intror eq_refl) (conj Cn Cb)).
  - exact (conj Cv (conj (or_intror eq_refl) Cb)).
  - exact (conj (or_intror eq_refl) (conj Cn (or_intror eq_refl))).
Qed.

Lemma s_run_wf d ops : forall s, sum_wf d s -> sum_cache_ok s -> Forall (sop_ok d) ops ->
  let s' := run (s_step true) s ops in
  sum_wf d s' /\ sum_cache_ok s' /\ s_weights s' = s_weights s /\
  s_comps s' = map (fun g => run gp_step g (map sop_gop ops)) (s_comps s).
Proof.
  induction ops as [|o ops IH]; intros s Hw Hc Ho; cbn zeta.
  - unfold run. cbn [fold_left map]. split; [exact Hw|split; [exact Hc|split; [reflexivity|]]]. symmetry. apply map_id.
  - inversion Ho as [|? ? Ho1 Ho2]; subst. destruct (s_step_wf d s o Hw Hc Ho1) as (Hw' & Hc' & Hws & Hcomps).
    rewrite run_cons.
    destruct (IH _ Hw' Hc' Ho2) as (I1 & I2 & I3 & I4). split; [exact I1|]. split; [exact I2|]. split; [congruence|].
    rewrite I4, Hcomps, map_map. reflexivity.
Qed.

(* what "weighted sum of the components' current data" means, pointwise *)
Definition dot (i : nat) (wcs : list (Q * list Q)) : Q := fold_right (fun wc a => fst wc * nth i (snd wc) 0 + a) 0 wcs.

Lemma zipadd_length a b : length a = length b -> length (zipadd a b) = length a.
Proof. intros H. unfold zipadd. rewrite map_length, combine_length, H. apply Nat.min_id. Qed.
Lemma zipadd_nth : forall a b i, length a = length b -> (i < length a)%nat ->
  nth i (zipadd a b) 0 = nth i a 0 + nth i b 0.
Proof.
  induction a as [|x a IH]; intros [|y b] i Hl Hi; cbn [length] in *; try lia.
  unfold zipadd in *. cbn [combine map nth fst snd]. destruct i as [|i]; [reflexivity|].
  apply IH; lia.
Qed.
Lemma scale_nth w : forall c i, (i < length c)%nat -> nth i (map (Qmult w) c) 0 = w * nth i c 0.
Proof. induction c as [|x c IH]; intros [|i] Hi; cbn [length] in *; try lia; [reflexivity|]. cbn [map nth]. apply IH. lia. Qed.

Lemma wsum_gen n : forall wcs acc, length acc = n -> Forall (fun wc => length (snd wc) = n) wcs ->
  let r := fold_left (fun acc wc => zipadd acc (map (Qmult (fst wc)) (snd wc))) wcs acc in
  length r = n /\ forall i, (i < n)%nat -> nth i r 0 == nth i acc 0 + dot i wcs.
Proof.
  induction wcs as [|[w c] wcs IH]; intros acc Ha Hf; cbn zeta.
  - cbn. split; [exact Ha|]. intros i Hi. symmetry. apply Qplus_0_r.
  - inversion Hf as [|? ? Hc Hr]; subst. cbn [snd fst] in Hc. cbn [fold_left fst snd].
    assert (Hl : length acc = length (map (Qmult w) c)) by (rewrite map_length; congruence).
    assert (Hz : length (zipadd acc (map (Qmult w) c)) = length acc) by (apply zipadd_length; exact Hl).
    destruct (IH (zipadd acc (map (Qmult w) c)) Hz Hr) as [I1 I2]. split; [exact I1|].
    intros i Hi. rewrite (I2 i Hi), (zipadd_nth acc (map (Qmult w) c) i Hl Hi).
    rewrite scale_nth by (rewrite Hc; exact Hi). symmetry. apply Qplus_assoc.
Qed.

Lemma wsum_spec n ws cols : Forall (fun c => length c = n) cols ->
  length (wsum n ws cols) = n /\ forall i, (i < n)%nat -> nth i (wsum n ws cols) 0 == dot i (combine ws cols).
Proof.
  intros Hf. unfold wsum.
  assert (Hc : Forall (fun wc : Q * list Q => length (snd wc) = n) (combine ws cols)).
  { apply Forall_forall. intros [w c] Hin. apply in_combine_r in Hin. exact (proj1 (Forall_forall _ _) Hf c Hin). }
  destruct (wsum_gen n (combine ws cols) (repeat 0 n) (repeat_length _ _) Hc) as [H1 H2]. split; [exact H1|].
  intros i Hi. rewrite (H2 i Hi), nth_repeat. apply Qplus_0_l.
Qed.

Lemma comp_ok_cols d n g : comp_ok d n g ->
  length (h_vals (g_hist g)) = n /\ length (h_noise (g_hist g)) = n /\ (0 < n)%nat.
Proof.
  intros (((H1 & H2 & H3) & _) & _ & Hn). split; [congruence|]. split; [congruence|].
  rewrite <- Hn, <- H1. destruct (h_vals (g_hist g)); [congruence|apply Nat.lt_0_succ].
Qed.
Lemma sum_wf_cols d s : sum_wf d s ->
  Forall (fun c => length c = s_num s) (map (fun g => h_vals (g_hist g)) (s_comps s)) /\
  Forall (fun c => length c = s_num s) (map (fun g => h_noise (g_hist g)) (s_comps s)) /\ (0 < s_num s)%nat.
Proof.
  intros (Hne & _ & Hf). split; [|split].
  - apply Forall_map, (Forall_impl _ (fun g Hg => proj1 (comp_ok_cols _ _ g Hg)) Hf).
  - apply Forall_map, (Forall_impl _ (fun g Hg => proj1 (proj2 (comp_ok_cols _ _ g Hg))) Hf).
  - destruct (s_comps s) as [|g r]; [congruence|]. exact (proj2 (proj2 (comp_ok_cols _ _ g (Forall_inv Hf)))).
Qed.

(* the property for the sum, over any history of reads, predictions and valid appends *)
Definition reads_fresh (reset : bool) : Prop :=
  forall d s0 ops, sum_wf d s0 -> c_vals s0 = None -> c_noise s0 = None -> c_best s0 = None -> Forall (sop_ok d) ops ->
    let s := run (s_step reset) s0 ops in
    snd (s_step reset s SVals) = OVec (fresh_vals s) /\ snd (s_step reset s SNoise) = OVec (fresh_noise s).

Lemma gpsum_reads ops d s0 : sum_wf d s0 -> c_vals s0 = None -> c_noise s0 = None -> c_best s0 = None -> Forall (sop_ok d) ops ->
  let s := run (s_step true) s0 ops in
  snd (s_step true s SNum) = ONat (s_num s) /\
  snd (s_step true s SVals) = OVec (fresh_vals s) /\
  snd (s_step true s SNoise) = OVec (fresh_noise s) /\
  (exists v, snd (s_step true s SBest) = OVal v /\ In v (fresh_vals s) /\ forall y, In y (fresh_vals s) -> v <= y) /\
  length (fresh_vals s) = s_num s /\ length (fresh_noise s) = s_num s /\
  (forall i, (i < s_num s)%nat ->
     nth i (fresh_vals s) 0 == dot i (combine (s_weights s0) (map (fun g => h_vals (g_hist g)) (s_comps s))) /\
     nth i (fresh_noise s) 0 == dot i (combine (map (fun w => w * w) (s_weights s0)) (map (fun g => h_noise (g_hist g)) (s_comps s)))) /\
  s_comps s = map (fun g => run gp_step g (map sop_gop ops)) (s_comps s0).
Proof.
  intros Hw E1 E2 E3 Ho. cbn zeta.
  assert (Hc : sum_cache_ok s0) by (repeat split; left; assumption).
  destruct (s_run_wf d ops s0 Hw Hc Ho) as (Hw' & Hc' & Hws & Hcomps).
  set (s := run (s_step true) s0 ops) in *. destruct (sum_wf_cols d s Hw') as (Hv & Hn & Hpos).
  destruct (wsum_spec (s_num s) (s_weights s) _ Hv) as [Lv Dv].
  destruct (wsum_spec (s_num s) (map (fun w => w * w) (s_weights s)) _ Hn) as [Ln Dn].
  fold (fresh_vals s) in Lv, Dv. fold (fresh_noise s) in Ln, Dn. rewrite Hws in Dv, Dn.
  destruct (s_step_read s Hc') as (-> & -> & ->).
  split; [reflexivity|]. split; [reflexivity|]. split; [reflexivity|]. split; [|split; [exact Lv|split; [exact Ln|split; [|exact Hcomps]]]].
  - apply read_at_argmin. intros E. rewrite E in Lv. rewrite <- Lv in Hpos. inversion Hpos.
  - intros i Hi. split; [apply Dv|apply Dn]; exact Hi.
Qed.

Theorem gpsum_fresh_reads : reads_fresh true.
Proof. intros d s0 ops Hw E1 E2 E3 Ho. destruct (gpsum_reads ops d s0 Hw E1 E2 E3 Ho) as (_ & R2 & R3 & _). split; assumption. Qed.

(* the machine WITHOUT the reset (the code before commit 1aeae01) violates it: read, append, read *)
Definition stale_witness : gpsum :=
  mkSum [mkGp (mkHist 1 [[0]; [1]] [1; 2] [1#8; 1#8]) None; mkGp (mkHist 1 [[0]; [1]] [2; 3] [1#8; 1#8]) None]
        [1#2; 1#2] None None None.
Lemma stale_witness_wf : sum_wf 1 stale_witness.
Proof.
  assert (Hc : forall vs, vs <> [] -> length vs = 2%nat -> comp_ok 1 2 (mkGp (mkHist 1 [[0]; [1]] vs [1#8; 1#8]) None)).
  { intros vs Hne Hl. exact (conj (conj (conj Hl (conj eq_refl Hne)) (or_introl eq_refl)) (conj eq_refl eq_refl)). }
  split; [discriminate|]. split; [reflexivity|]. constructor; [|constructor; [|constructor]]; apply Hc; (discriminate || reflexivity).
Qed.
Theorem gpsum_fresh_reads_refuted_without_reset : ~ reads_fresh false.
Proof.
  intros H. specialize (H 1%nat stale_witness [SVals; SAppend [[1#2]] LieMin] stale_witness_wf eq_refl eq_refl eq_refl).
  destruct H as [H _]; [repeat constructor|]. vm_compute in H. discriminate H.
Qed.

Definition pop_ok (d : nat) (o : pop) : Prop :=
  match o with PAppend lies _ => dims_ok d lies | PRecover lo gr => dims_ok d lo /\ dims_ok d gr | _ => True end.
(* points = base ++ current lies, and every lie has the estimator's dimension *)
Definition pz_inv (blo bgr : list point) (s : pz) : Prop :=
  p_lower s = blo ++ p_lower_lies s /\ p_greater s = bgr ++ p_greater_lies s /\
  dims_ok (p_dim s) (p_lower_lies s) /\ dims_ok (p_dim s) (p_greater_lies s).

(* so a consistent estimator is a function of its dimension, its base points and the lies it holds; every operation acts
   on the lies alone *)
Definition pz_of (d : nat) (blo bgr ll gl : list point) : pz := mkPz d (blo ++ ll) (bgr ++ gl) ll gl.

Lemma pz_inv_of blo bgr s : pz_inv blo bgr s ->
  exists d ll gl, s = pz_of d blo bgr ll gl /\ dims_ok d ll /\ dims_ok d gl.
Proof. destruct s as [d lo gr ll gl]. intros (E1 & E2 & Hl & Hg). cbn in *. subst lo gr. exists d, ll, gl. repeat split; assumption. Qed.
Lemma pz_of_inv d blo bgr ll gl : dims_ok d ll -> dims_ok d gl -> pz_inv blo bgr (pz_of d blo bgr ll gl).
Proof. intros Hl Hg. repeat split; assumption. Qed.

(* clear_lies cuts the lies off the end of a point set by their number, and does not slice when there are none *)
Lemma drop_lies {A} (a l : list A) : match l with [] => a ++ l | x :: r => drop_last (length (x :: r)) (a ++ l) end = a.
Proof.
  destruct l as [|x r]; [apply app_nil_r|]. unfold drop_last.
  rewrite app_length, Nat.add_sub, firstn_app, Nat.sub_diag, firstn_all. cbn [firstn]. apply app_nil_r.
Qed.

Lemma pz_append_spec s lies lower : dims_ok (p_dim s) lies ->
  pz_append s lies lower =
    (mkPz (p_dim s) (if lower then p_lower s ++ lies else p_lower s) (if lower then p_greater s else p_greater s ++ lies)
          (if lower then p_lower_lies s ++ lies else p_lower_lies s)
          (if lower then p_greater_lies s else p_greater_lies s ++ lies), None).
Proof.
  intros Hd. unfold pz_append. destruct lies as [|p r].
  - destruct s, lower; cbn; rewrite ?app_nil_r; reflexivity.
  - unfold rows_ok. rewrite (dims_ok_forallb _ _ Hd). destruct lower; reflexivity.
Qed.
Lemma pz_append_of d blo bgr ll gl lies lower : dims_ok d lies ->
  pz_append (pz_of d blo bgr ll gl) lies lower =
    (pz_of d blo bgr (if lower then ll ++ lies else ll) (if lower then gl else gl ++ lies), None).
Proof. intros Hd. rewrite pz_append_spec by exact Hd. unfold pz_of. destruct lower; cbn; rewrite app_assoc; reflexivity. Qed.
Lemma pz_clear_of d blo bgr ll gl : pz_clear (pz_of d blo bgr ll gl) = pz_of d blo bgr [] [].
Proof.
  unfold pz_clear, pz_of. cbn [p_dim p_lower p_greater p_lower_lies p_greater_lies]. rewrite !drop_lies, !app_nil_r. reflexivity.
Qed.
Lemma pz_recover_of d blo bgr ll gl lo gr : dims_ok d lo -> dims_ok d gr ->
  pz_recover (pz_of d blo bgr ll gl) lo gr = (pz_of d blo bgr lo gr, None).
Proof. intros Hlo Hgr. unfold pz_recover. rewrite pz_clear_of, (pz_append_of _ _ _ _ _ lo true Hlo). exact (pz_append_of d blo bgr lo [] gr false Hgr). Qed.

Lemma pz_step_of d blo bgr ll gl o : pop_ok d o ->
  fst (pz_step (pz_of d blo bgr ll gl) o) =
    match o with
    | PAppend lies lower => pz_of d blo bgr (if lower then ll ++ lies else ll) (if lower then gl else gl ++ lies)
    | PClear => pz_of d blo bgr [] []
    | PStash => pz_of d blo bgr ll gl
    | PRecover lo gr => pz_of d blo bgr lo gr
    end.
Proof.
  intros Ho. destruct o as [lies lower| | |lo gr]; cbn [pz_step].
  - rewrite (pz_append_of _ _ _ _ _ lies lower Ho). reflexivity.
  - apply pz_clear_of.
  - reflexivity.
  - rewrite (pz_recover_of _ _ _ _ _ lo gr (proj1 Ho) (proj2 Ho)). reflexivity.
Qed.

Lemma pz_run_of d blo bgr ops : forall ll gl, dims_ok d ll -> dims_ok d gl -> Forall (pop_ok d) ops ->
  exists ll' gl', run pz_step (pz_of d blo bgr ll gl) ops = pz_of d blo bgr ll' gl' /\ dims_ok d ll' /\ dims_ok d gl'.
Proof.
  induction ops as [|o ops IH]; intros ll gl Hl Hg Ho; [exists ll, gl; repeat split; assumption|].
  inversion Ho as [|? ? Ho1 Ho2]; subst.
  rewrite run_cons, (pz_step_of _ _ _ _ _ o Ho1).
  destruct o as [lies [|]| | |lo gr]; apply IH; try assumption.
  1, 2: apply Forall_app; split; assumption.
  1, 2: constructor.
  - exact (proj1 Ho1).
  - exact (proj2 Ho1).
Qed.

Lemma parzen_run_inv blo bgr ops s : pz_inv blo bgr s -> Forall (pop_ok (p_dim s)) ops -> pz_inv blo bgr (run pz_step s ops).
Proof.
  intros Hi Ho. destruct (pz_inv_of _ _ _ Hi) as (d & ll & gl & -> & Hl & Hg).
  destruct (pz_run_of d blo bgr ops ll gl Hl Hg Ho) as (ll' & gl' & -> & Hl' & Hg'). apply pz_of_inv; assumption.
Qed.

(* what the current lies are after each kind of operation *)
Lemma parzen_lies_semantics blo bgr s : pz_inv blo bgr s ->
  (forall lies lower, dims_ok (p_dim s) lies ->
     let s' := fst (pz_step s (PAppend lies lower)) in
     p_lower_lies s' = (if lower then p_lower_lies s ++ lies else p_lower_lies s) /\
     p_greater_lies s' = (if lower then p_greater_lies s else p_greater_lies s ++ lies)) /\
  (p_lower_lies (fst (pz_step s PClear)) = [] /\ p_greater_lies (fst (pz_step s PClear)) = []) /\
  (pz_step s PStash = (s, OStash (p_lower_lies s) (p_greater_lies s))) /\
  (forall lo gr, dims_ok (p_dim s) lo -> dims_ok (p_dim s) gr ->
     let s' := fst (pz_step s (PRecover lo gr)) in
     p_lower_lies s' = lo /\ p_greater_lies s' = gr /\ p_lower s' = blo ++ lo /\ p_greater s' = bgr ++ gr).
Proof.
  intros Hi. destruct (pz_inv_of _ _ _ Hi) as (d & ll & gl & -> & _). split; [|split; [|split; [reflexivity|]]].
  - intros lies lower Hd. cbn zeta. rewrite (pz_step_of _ _ _ _ _ (PAppend lies lower) Hd). split; reflexivity.
  - split; reflexivity.
  - intros lo gr Hlo Hgr. cbn zeta. rewrite (pz_step_of _ _ _ _ _ (PRecover lo gr) (conj Hlo Hgr)). repeat split.
Qed.

Theorem parzen_lie_invariant ops s0 : p_lower_lies s0 = [] -> p_greater_lies s0 = [] -> Forall (pop_ok (p_dim s0)) ops ->
  let s := run pz_step s0 ops in
  p_lower s = p_lower s0 ++ p_lower_lies s /\ p_greater s = p_greater s0 ++ p_greater_lies s.
Proof.
  intros E1 E2 Ho. assert (Hi : pz_inv (p_lower s0) (p_greater s0) s0).
  { unfold pz_inv. rewrite E1, E2, !app_nil_r. repeat split; constructor. }
  destruct (parzen_run_inv _ _ ops s0 Hi Ho) as (H1 & H2 & _). split; assumption.
Qed.

(* stash at any consistent state, do anything valid, recover: lies and point sets are those of the stash moment *)
Theorem recover_restores blo bgr s ops : pz_inv blo bgr s -> Forall (pop_ok (p_dim s)) ops ->
  let s' := fst (pz_step (run pz_step s ops) (PRecover (p_lower_lies s) (p_greater_lies s))) in
  p_lower_lies s' = p_lower_lies s /\ p_greater_lies s' = p_greater_lies s /\ p_lower s' = p_lower s /\ p_greater s' = p_greater s.
Proof.
  intros Hi Ho. destruct (pz_inv_of _ _ _ Hi) as (d & ll & gl & -> & Hl & Hg).
  destruct (pz_run_of d blo bgr ops ll gl Hl Hg Ho) as (ll' & gl' & -> & _).
  cbn zeta. rewrite (pz_step_of _ _ _ _ _ (PRecover ll gl) (conj Hl Hg)). repeat split.
Qed.

Section CLProofs.
  Context {St : Type}.
  Variable append1 : St -> point -> St.
  Variable pick : St -> point.
  Lemma cl_loop_spec n : forall s,
    length (fst (cl_loop append1 pick n s)) = n /\ length (snd (cl_loop append1 pick n s)) = n /\
    forall i, (i < n)%nat ->
      let si := fold_left append1 (firstn i (fst (cl_loop append1 pick n s))) s in
      nth_error (snd (cl_loop append1 pick n s)) i = Some si /\ nth_error (fst (cl_loop append1 pick n s)) i = Some (pick si).
  Proof.
    induction n as [|n IH]; intros s; cbn [cl_loop].
    - split; [reflexivity|]. split; [reflexivity|]. intros i Hi. destruct (Nat.nlt_0_r i Hi).
    - destruct (IH (append1 s (pick s))) as (L1 & L2 & Hn).
      destruct (cl_loop append1 pick n (append1 s (pick s))) as [ps ss]. cbn [fst snd length] in *.
      split; [rewrite L1; reflexivity|]. split; [rewrite L2; reflexivity|]. intros [|i] Hi; cbn [firstn fold_left nth_error].
      + split; reflexivity.
      + apply Hn, Nat.succ_lt_mono, Hi.
  Qed.
  (* every pick is an answer of the optimiser: a property all answers share holds of all picks *)
  Lemma cl_loop_picks (P : point -> Prop) n : (forall t, P (pick t)) -> forall s, Forall P (fst (cl_loop append1 pick n s)).
  Proof.
    intros HP. induction n as [|n IH]; intros s; cbn [cl_loop]; [constructor|].
    specialize (IH (append1 s (pick s))). destruct (cl_loop append1 pick n (append1 s (pick s))). constructor; [apply HP|exact IH].
  Qed.
End CLProofs.

Lemma dims_ok_firstn d i l : dims_ok d l -> dims_ok d (firstn i l).
Proof. intros H. rewrite <- (firstn_skipn i l) in H. apply Forall_app in H. apply H. Qed.

Lemma fold_gp_append1 l : forall g, fold_left gp_append1 l g = run gp_step g (map (fun p => GAppend [p] LieMin) l).
Proof.
  induction l as [|p l IH]; intros g; [reflexivity|]. cbn [fold_left map].
  rewrite run_cons.
  rewrite gp_step_append_fst. apply IH.
Qed.
Lemma appended_singletons l : appended (map (fun p => GAppend [p] LieMin) l) = l.
Proof. induction l as [|p l IH]; [reflexivity|]. cbn [map appended flat_map app]. f_equal. exact IH. Qed.

(* pick i is optimised against a model whose data are the caller's data followed by lies at picks 0..i-1, each carrying
   the worst (maximum) observed value and the lie noise *)
Theorem constant_liar_gp (pick : gp -> point) n g0 w : lie_value LieMin (h_vals (g_hist g0)) = Some w ->
  (forall g, length (pick g) = h_dim (g_hist g0)) ->
  let picks := fst (cl_loop gp_append1 pick n g0) in let seen := snd (cl_loop gp_append1 pick n g0) in
  length picks = n /\
  forall i, (i < n)%nat -> exists gi, nth_error seen i = Some gi /\ nth_error picks i = Some (pick gi) /\
    h_pts (g_hist gi) = h_pts (g_hist g0) ++ firstn i picks /\
    h_vals (g_hist gi) = h_vals (g_hist g0) ++ repeat w i /\
    h_noise (g_hist gi) = h_noise (g_hist g0) ++ repeat lie_noise i.
Proof.
  intros Hv Hp. cbn zeta. destruct (cl_loop_spec gp_append1 pick n g0) as (L1 & L2 & Hn). split; [exact L1|].
  intros i Hi. destruct (Hn i Hi) as [H1 H2]. cbn zeta in H1, H2. eexists. split; [exact H1|]. split; [exact H2|].
  set (l := firstn i (fst (cl_loop gp_append1 pick n g0))).
  assert (Hlen : length l = i) by (subst l; rewrite firstn_length, L1; apply Nat.min_l, Nat.lt_le_incl, Hi).
  assert (Hl : dims_ok (h_dim (g_hist g0)) l) by apply dims_ok_firstn, cl_loop_picks, Hp.
  rewrite fold_gp_append1.
  destruct (gp_liemin_closed_form (map (fun p => GAppend [p] LieMin) l) g0 w) as (-> & -> & ->); [| |exact Hv|].
  - apply Forall_map. apply (Forall_impl _ (fun p Hp => Forall_cons p Hp (Forall_nil _)) Hl).
  - apply Forall_map, Forall_forall. intros p _. exact I.
  - rewrite appended_singletons, Hlen. repeat split.
Qed.

Section SearchProofs.
  Variable to_cube : point -> point.
  Variable pick : search_af -> point.
  Lemma search_iter_spec n : forall draws a ps ss fin, (n <= length draws)%nat ->
    search_iter to_cube pick draws n a = (ps, ss, fin) ->
    length ps = n /\
    forall i, (i < n)%nat -> exists ai, nth_error ss i = Some ai /\ nth_error ps i = Some (pick ai) /\
      repulsors ai = repulsors a ++ map to_cube (firstn i ps) /\ dist_par ai = nth i (dist_par a :: draws) 0.
  Proof.
    induction n as [|n IH]; intros draws a ps ss fin Hl; cbn [search_iter].
    - intros [= <- <- _]. split; [reflexivity|]. intros i Hi. destruct (Nat.nlt_0_r i Hi).
    - destruct draws as [|d draws]; [destruct (Nat.nle_succ_0 n Hl)|]. cbn [tl].
      destruct (search_iter to_cube pick draws n (mkSearch (repulsors a ++ [to_cube (pick a)]) d)) as [[ps' ss'] fin'] eqn:E.
      intros [= <- <- _]. destruct (IH _ _ _ _ _ (proj2 (Nat.succ_le_mono _ _) Hl) E) as [L Hn].
      split; [cbn [length]; rewrite L; reflexivity|]. intros [|i] Hi.
      + exists a. cbn. rewrite app_nil_r. repeat split.
      + destruct (Hn i (proj2 (Nat.succ_lt_mono _ _) Hi)) as (ai & H1 & H2 & H3 & H4). exists ai.
        split; [exact H1|]. split; [exact H2|]. split; [|exact H4].
        rewrite H3. cbn [repulsors firstn map]. rewrite <- app_assoc. reflexivity.
  Qed.
End SearchProofs.

Theorem search_picks_become_repulsors to_cube pick draws n a : (n <= length draws)%nat ->
  let '(picks, seen, final) := search_loop to_cube pick draws n a in
  length picks = n /\
  (forall i, (i < n)%nat -> exists ai, nth_error seen i = Some ai /\ nth_error picks i = Some (pick ai) /\
     repulsors ai = repulsors a ++ map to_cube (firstn i picks) /\ dist_par ai = nth i (dist_par a :: draws) 0) /\
  final = a.
Proof.
  intros Hl. unfold search_loop. destruct (search_iter to_cube pick draws n a) as [[ps ss] fin] eqn:E.
  destruct (search_iter_spec to_cube pick n draws a ps ss fin Hl E) as [L Hn].
  split; [exact L|]. split; [exact Hn|]. destruct a; reflexivity.
Qed.

(* "fed as lies": the model's data are the data it was built from followed by the pending points, all carrying the value v and the
   lie noise, and the ordinary (constant-liar) optimiser runs with an empty pending set *)
Definition fed_as_lies (h : hist) (pending : list point) (v : Q) (f : gp_feed) : Prop :=
  f_use_qei f = false /\ f_pending_set f = [] /\
  h_dim (f_hist f) = h_dim h /\
  h_pts (f_hist f) = h_pts h ++ pending /\
  h_vals (f_hist f) = h_vals h ++ repeat v (length pending) /\
  h_noise (f_hist f) = h_noise h ++ repeat lie_noise (length pending).
(* "fed as the pending set": parallel EI runs on the data as built, with exactly the pending points as its pending set *)
Definition fed_as_pending_set (h : hist) (pending : list point) (f : gp_feed) : Prop :=
  f_use_qei f = true /\ f_pending_set f = pending /\ f_hist f = h.
Definition pending_fed (h : hist) (pending : list point) (f : gp_feed) : Prop :=
  (exists v, fed_as_lies h pending v f) \/ fed_as_pending_set h pending f.

Lemma fed_as_lies_lied h pending v : fed_as_lies h pending v (mkFeed (lied h pending v) [] false).
Proof. repeat split. Qed.

Lemma feed_gp_constant_liar mt h pending lie : dims_ok (h_dim h) pending ->
  feed_gp ConstantLiar mt h pending lie = inl (mkFeed (lied h pending lie) [] false).
Proof. intros Hd. unfold feed_gp. rewrite (append_lies h pending lie Hd). reflexivity. Qed.

Lemma feed_gp_qei_single h pending lie : pending <> [] -> feed_gp QEI false h pending lie = inl (mkFeed h pending true).
Proof. intros Hne. unfold feed_gp. destruct pending; [congruence|reflexivity]. Qed.

(* the repaired branch: qEI requested on a multitask request - the pending points are appended by append_lie_data, so they carry
   the worst value of the model's OWN data (not the lie value the view computed) *)
Lemma feed_gp_qei_multitask h pending lie : hist_wf h -> dims_ok (h_dim h) pending -> pending <> [] ->
  exists v, worst LieMin (h_vals h) v /\ feed_gp QEI true h pending lie = inl (mkFeed (lied h pending v) [] false).
Proof.
  intros (_ & _ & Hne) Hd Hp. destruct (lie_value_worst LieMin _ Hne) as (v & Hv & Hw). exists v. split; [exact Hw|].
  unfold feed_gp. destruct pending as [|p r]; [congruence|]. cbn [length Nat.eqb negb andb].
  rewrite (gp_append_lied (mkGp h None) (p :: r) LieMin v Hv Hd). reflexivity.
Qed.

Lemma feed_gp_qei_nothing_pending mt h lie : feed_gp QEI mt h [] lie = inl (mkFeed h [] false).
Proof. reflexivity. Qed.

Theorem pending_points_fed :
  (* the GP endpoint, every combination of parallelism and multitask: lies in the data, or the pending set of parallel EI *)
  (forall par mt h pending lie, hist_wf h -> dims_ok (h_dim h) pending ->
     exists f, feed_gp par mt h pending lie = inl f /\ pending_fed h pending f) /\
  (* ... which of the two, and which lie value *)
  (forall mt h pending lie, dims_ok (h_dim h) pending ->
     exists f, feed_gp ConstantLiar mt h pending lie = inl f /\ fed_as_lies h pending lie f) /\
  (forall h pending lie, pending <> [] ->
     exists f, feed_gp QEI false h pending lie = inl f /\ fed_as_pending_set h pending f) /\
  (forall h pending lie, hist_wf h -> dims_ok (h_dim h) pending -> pending <> [] ->
     exists v f, worst LieMin (h_vals h) v /\ feed_gp QEI true h pending lie = inl f /\ fed_as_lies h pending v f) /\
  (* the Parzen endpoint and the search endpoint *)
  (forall s pending, dims_ok (p_dim s) pending ->
     let s' := fst (feed_parzen s pending) in
     snd (feed_parzen s pending) = None /\ p_greater s' = p_greater s ++ pending /\
     p_greater_lies s' = p_greater_lies s ++ pending /\ p_lower s' = p_lower s /\ p_lower_lies s' = p_lower_lies s) /\
  (forall to_cube sampled pending d,
     repulsors (feed_search to_cube sampled pending d) = map to_cube sampled ++ map to_cube pending).
Proof.
  split; [|split; [|split; [|split; [|split]]]].
  - intros par mt h pending lie Hwf Hd. destruct par; [|destruct pending as [|p r]; [|destruct mt]].
    + eexists. split; [exact (feed_gp_constant_liar mt h pending lie Hd)|]. left. exists lie. apply fed_as_lies_lied.
    + eexists. split; [apply feed_gp_qei_nothing_pending|]. left. exists lie.
      pose proof (fed_as_lies_lied h [] lie) as F. rewrite lied_nil in F. exact F.
    + destruct (feed_gp_qei_multitask h (p :: r) lie Hwf Hd) as (v & _ & Hf); [discriminate|].
      eexists. split; [exact Hf|]. left. exists v. apply fed_as_lies_lied.
    + eexists. split; [apply feed_gp_qei_single; discriminate|]. right. repeat split.
  - intros mt h pending lie Hd. eexists. split; [exact (feed_gp_constant_liar mt h pending lie Hd)|apply fed_as_lies_lied].
  - intros h pending lie Hne. eexists. split; [exact (feed_gp_qei_single h pending lie Hne)|]. repeat split.
  - intros h pending lie Hwf Hd Hne. destruct (feed_gp_qei_multitask h pending lie Hwf Hd Hne) as (v & Hw & Hf).
    exists v. eexists. split; [exact Hw|]. split; [exact Hf|apply fed_as_lies_lied].
  - intros s pending Hd. unfold feed_parzen. rewrite (pz_append_spec s pending false Hd). repeat split.
  - intros. unfold feed_search. apply map_app.
Qed.

(* the GPs under the failure model: lies (with the view's lie value) under constant liar, untouched under qEI *)
Lemma failure_gp_feed :
  (forall h pending lie, dims_ok (h_dim h) pending ->
     exists h', feed_failure_gp ConstantLiar h pending lie = inl h' /\ h_dim h' = h_dim h /\
       h_pts h' = h_pts h ++ pending /\ h_vals h' = h_vals h ++ repeat lie (length pending) /\
       h_noise h' = h_noise h ++ repeat lie_noise (length pending)) /\
  (forall h pending lie, feed_failure_gp QEI h pending lie = inl h).
Proof.
  split; [|reflexivity]. intros h pending lie Hd. exists (lied h pending lie). split; [exact (append_lies h pending lie Hd)|]. repeat split.
Qed.

Lemma fold_pz_append1 d blo bgr ll l : forall gl, dims_ok d l ->
  fold_left pz_append1 l (pz_of d blo bgr ll gl) = pz_of d blo bgr ll (gl ++ l).
Proof.
  induction l as [|p l IH]; intros gl Hd; cbn [fold_left]; [rewrite app_nil_r; reflexivity|].
  unfold pz_append1 at 2.
  rewrite (pz_append_of d blo bgr ll gl [p] false) by (constructor; [exact (Forall_inv Hd)|constructor]). cbn [fst].
  rewrite (IH _ (Forall_inv_tail Hd)), <- app_assoc. reflexivity.
Qed.

(* Every optimisation of the batch runs against the estimator as the caller handed it over (base points and the lies it
   already held - the pending points - untouched) plus lies at the previous picks of this batch; afterwards the caller has
   its estimator back exactly as it was: the batch's lies are gone, the lies held before are still there. *)
Theorem parzen_constant_liar blo bgr (pick : pz -> point) n s :
  pz_inv blo bgr s -> (forall t, length (pick t) = p_dim s) ->
  let '(picks, seen, final) := pz_constant_liar pick n s in
  length picks = n /\
  (forall i, (i < n)%nat -> exists si, nth_error seen i = Some si /\ nth_error picks i = Some (pick si) /\
     p_dim si = p_dim s /\ p_lower si = p_lower s /\ p_lower_lies si = p_lower_lies s /\
     p_greater si = p_greater s ++ firstn i picks /\ p_greater_lies si = p_greater_lies s ++ firstn i picks) /\
  final = s.
Proof.
  intros Hi Hp. destruct (pz_inv_of _ _ _ Hi) as (d & ll & gl & -> & Hl & Hg). unfold pz_constant_liar.
  destruct (cl_loop_spec pz_append1 pick n (pz_of d blo bgr ll gl)) as (L1 & L2 & Hn).
  pose proof (cl_loop_picks pz_append1 pick (fun p => length p = d) n Hp (pz_of d blo bgr ll gl)) as Hps.
  destruct (cl_loop pz_append1 pick n (pz_of d blo bgr ll gl)) as [ps ss]. cbn [fst snd] in *.
  split; [exact L1|]. split.
  - intros i Hlt. destruct (Hn i Hlt) as [Hs Hpk]. cbv zeta in Hs, Hpk.
    rewrite (fold_pz_append1 d blo bgr ll (firstn i ps) gl (dims_ok_firstn _ i _ Hps)) in Hs, Hpk.
    eexists. split; [exact Hs|]. split; [exact Hpk|]. cbn. rewrite app_assoc. repeat split.
  - rewrite (fold_pz_append1 d blo bgr ll ps gl Hps). cbn [p_lower_lies p_greater_lies pz_of].
    rewrite (pz_recover_of d blo bgr ll (gl ++ ps) ll gl Hl Hg). reflexivity.
Qed.

(* The Parzen endpoint: the optimiser that finds max_location runs against the formed estimator plus the request's pending
   points as lies of the greater set, and so does every expected-improvement evaluation after it (max_value, the rejection
   sampler): the pending points are still among the lies when the constant liar has returned. *)
Theorem spe_sampling_keeps_pending blo bgr (pick : pz -> point) s pending :
  pz_inv blo bgr s -> dims_ok (p_dim s) pending -> (forall t, length (pick t) = p_dim s) ->
  exists seen, spe_sampling pick s pending = inl (pick seen, seen, seen) /\ seen = fst (feed_parzen s pending) /\
    p_greater seen = p_greater s ++ pending /\ p_greater_lies seen = p_greater_lies s ++ pending /\
    p_lower seen = p_lower s /\ p_lower_lies seen = p_lower_lies s.
Proof.
  intros Hi Hd Hp. destruct (pz_inv_of _ _ _ Hi) as (d & ll & gl & -> & Hl & Hg). unfold spe_sampling, feed_parzen.
  rewrite (pz_append_of d blo bgr ll gl pending false Hd). cbn [fst].
  set (s1 := pz_of d blo bgr ll (gl ++ pending)).
  (* a batch of one: the only pick is optimised against s1 itself, and the constant liar hands s1 back *)
  pose proof (parzen_constant_liar blo bgr pick 1 s1 (pz_of_inv d blo bgr ll _ Hl (proj2 (Forall_app _ _ _) (conj Hg Hd))) Hp) as T.
  unfold pz_constant_liar in *. cbn [cl_loop] in *. destruct T as (_ & _ & ->).
  exists s1. split; [reflexivity|]. split; [reflexivity|]. cbn. rewrite app_assoc. repeat split.
Qed.
