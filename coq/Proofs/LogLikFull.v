(* C04, log marginal likelihood gradient, FULL: the two facts that Props/C04_gp.v (C04_loglik_grad_partial) assumes are proved
   here for real matrices —  d/dt (r(t)' K(t)^-1 r(t)) = -(a' dK a)  for the constant data vector (zero mean) and for the
   GLS-demeaned residual r(t) = y - P b(t) (polynomial mean; envelope identity P' a = 0 from Proofs/GP.v instantiated at R),
   and Jacobi's formula (Lib/RMxDeriv.v) — and tied to the generated definitions: Gen.GenGP (GPNoise / GPNugget /
   GPNoiseZeroMean / LogLik, MathComp matrices) for the value and Gen.GenAcq.LogLikGrad.grad (nat-indexed sums) for the gradient.
   The Cholesky factor is a contract (chol_ok: L L' = K, lower triangular, positive diagonal, near the hyperparameter value);
   it gives 0 < det K, K symmetric and 2 * sum(log(diag L)) = log det K. *)
From Coq Require Import Reals FunctionalExtensionality.
From Coquelicot Require Import Coquelicot.
From mathcomp Require Import ssreflect ssrfun ssrbool eqtype ssrnat seq fintype bigop ssralg ssrnum zmodp matrix.
From LV Require Import Lib.RBase Lib.MxAux Lib.RStruct Lib.RMxDeriv Gen.GenGP Gen.GenAcq Proofs.GP.
Set Implicit Arguments. Unset Strict Implicit. Unset Printing Implicit Defensive.
Import GRing.Theory.
Local Open Scope ring_scope.

Section QuadForm.
Variables (n : nat) (K : R -> 'M[R]_n) (x : R) (dK : 'M[R]_n).
Hypothesis HK : mx_derive K x dK.
Hypothesis Ku : K x \in unitmx.
Hypothesis Ksym : (K x)^T = K x.

(* differentiable residual r: with a = K^-1 r, the two product-rule terms in dr are a' dr and its transpose *)
Lemma quad_derive (r : R -> 'cV[R]_n) (dr : 'cV[R]_n) : mx_derive r x dr ->
  let a := invmx (K x) *m r x in
  is_derive (fun t => ((r t)^T *m (invmx (K t) *m r t)) 0 0) x ((dr^T *m a + a^T *m dr - a^T *m dK *m a) 0 0).
Proof.
  move=> Hr a.
  have Ha : mx_derive (fun t => invmx (K t) *m r t) x (invmx (K x) *m dr - invmx (K x) *m dK *m a).
    apply: mx_derive_val (mx_deriveM (mx_derive_inv HK Ku) Hr). by rewrite mulNmx -(mulmxA _ _ (r x)) addrC.
  apply: is_derive_val (mx_deriveM (mx_derive_tr Hr) Ha 0 0).
  have EaT : (r x)^T *m invmx (K x) = a^T by rewrite /a trmx_mul trmx_inv Ksym.
  by rewrite mulmxBr !mulmxA EaT addrA.
Qed.

(* zero mean: constant data vector *)
Theorem quad_const_derive (y : 'cV[R]_n) :
  let a := invmx (K x) *m y in
  is_derive (fun t => (y^T *m (invmx (K t) *m y)) 0 0) x (- (a^T *m dK *m a) 0 0).
Proof.
  move=> a. apply: is_derive_val (quad_derive (mx_derive_cst x y)).
  by rewrite trmx0 mul0mx mulmx0 addr0 sub0r mxE.
Qed.

(* GLS-demeaned residual (polynomial mean) *)
Variables (p : nat) (y : 'cV[R]_n) (P : 'M[R]_(n,p)).
Hypothesis PKPu : P^T *m cho_solve (K x) P \in unitmx.

(* the envelope identity (C02 saddle point, second equation) at R *)
Lemma gls_envelope : P^T *m gls_a (K x) P y = 0.
Proof. exact: (@saddle2 R_realFieldType n p (K x) P y PKPu). Qed.

Lemma gls_b_derive : exists db, mx_derive (fun t => gls_b (K t) P y) x db.
Proof.
  have HN := mx_derive_inv HK Ku.
  have HS : mx_derive (fun t => P^T *m cho_solve (K t) P) x _ := mx_deriveMl P^T (mx_deriveMr P HN).
  have Hv : mx_derive (fun t => P^T *m cho_solve (K t) y) x _ := mx_deriveMl P^T (mx_deriveMr y HN).
  eexists; exact: (mx_deriveM (mx_derive_inv HS PKPu) Hv).
Qed.

(* r = y - P b(t): both terms in dr = - P db vanish by the envelope identity *)
Lemma envelope_cross (a : 'cV[R]_n) (v : 'cV[R]_p) : P^T *m a = 0 -> (- (P *m v))^T *m a + a^T *m - (P *m v) = 0.
Proof.
  move=> Env. have Env' : a^T *m P = 0 by rewrite -[LHS]trmxK trmx_mul trmxK Env trmx0.
  by rewrite linearN /= trmx_mul mulNmx -mulmxA Env mulmx0 mulmxN mulmxA Env' mul0mx oppr0 addr0.
Qed.
Theorem quad_gls_derive :
  is_derive (fun t => ((gls_r (K t) P y)^T *m gls_a (K t) P y) 0 0) x (- ((gls_a (K x) P y)^T *m dK *m gls_a (K x) P y) 0 0).
Proof.
  have [db Hb] := gls_b_derive.
  have Hr : mx_derive (fun t => gls_r (K t) P y) x (- (P *m db)).
    apply: mx_derive_val (mx_deriveB (mx_derive_cst x y) (mx_deriveMl P Hb)). by rewrite sub0r.
  apply: (@is_derive_eq (fun t => ((gls_r (K t) P y)^T *m (invmx (K t) *m gls_r (K t) P y)) 0 0)).
    by move=> t; rewrite gls_a_residual.
  apply: is_derive_val (quad_derive Hr). by rewrite -gls_a_residual (envelope_cross _ gls_envelope) sub0r mxE.
Qed.
End QuadForm.

Section Views.
Definition mxv m n (A : 'M[R]_(m,n)) (i j : nat) : R :=
  match (insub i : option 'I_m), (insub j : option 'I_n) with Some i', Some j' => A i' j' | _, _ => 0 end.
Definition cvv n (v : 'cV[R]_n) (i : nat) : R := mxv v i 0.
Lemma mxv_lt m n (A : 'M[R]_(m,n)) (i j : nat) (Hi : (i < m)%N) (Hj : (j < n)%N) : mxv A i j = A (Ordinal Hi) (Ordinal Hj).
Proof. by rewrite /mxv !insubT. Qed.
Lemma mxvE m n (A : 'M[R]_(m,n)) (i : 'I_m) (j : 'I_n) : mxv A i j = A i j.
Proof. by rewrite /mxv !valK. Qed.
Lemma cvvE n (v : 'cV[R]_n) (i : 'I_n) : cvv v i = v i 0.
Proof. exact: (mxvE v i 0). Qed.
Lemma bigsum_ord n (f : nat -> R) : bigsum n f = \sum_(i < n) f i.
Proof. elim: n => [|n IH]; first by rewrite big_ord0. by rewrite big_ord_recr /= IH. Qed.

(* entry h of the generated gradient, reading the weights a, the tensor slices dKt and K^-1 through their nat-indexed views *)
Definition grad_mx n nh (a : 'cV[R]_n) (dKt : nat -> 'M[R]_n) (Kinv : 'M[R]_n) (s : R) (lsc : nat -> R) (h : nat) : R :=
  LogLikGrad.grad n nh (cvv a) (fun j l k => mxv (dKt k) j l) (mxv Kinv) s lsc h.
Lemma grad_mxE n nh (a : 'cV[R]_n) (dKt : nat -> 'M[R]_n) (Kinv : 'M[R]_n) (s : R) (h : nat) :
  grad_mx nh a dKt Kinv s (fun _ => 1) h
  = - s * (- (a^T *m dKt h *m a) 0 0 + \tr (Kinv *m dKt h)).
Proof.
  rewrite /grad_mx /LogLikGrad.grad.
  have -> : bigsum n (fun j => bigsum n (fun l => (cvv a j * mxv (dKt h) j l * cvv a l)%Re)) = (a^T *m dKt h *m a) 0 0.
    rewrite bigsum_ord. under eq_bigr => j _ do rewrite bigsum_ord.
    rewrite [RHS]mxE. under [RHS]eq_bigr => l _ do rewrite mxE big_distrl /=.
    rewrite exchange_big /=. apply: eq_bigr => l _. apply: eq_bigr => j _. by rewrite cvvE mxvE cvvE !mxE.
  have -> : bigsum n (fun j => bigsum n (fun l => (mxv Kinv j l * mxv (dKt h) l j)%Re)) = \tr (Kinv *m dKt h).
    rewrite bigsum_ord. apply: eq_bigr => j _. rewrite bigsum_ord mxE. apply: eq_bigr => l _. by rewrite !mxvE.
  by rewrite -[RHS]mulr1.
Qed.
End Views.

Lemma ln_prod_pos (I : Type) (r : seq I) (f : I -> R) :
  (forall i, Rlt 0 (f i)) -> Rlt 0 (\prod_(i <- r) f i) /\ ln (\prod_(i <- r) f i) = \sum_(i <- r) ln (f i).
Proof.
  move=> Hf; elim: r => [|i r [IH1 IH2]].
  - rewrite !big_nil; split; [exact: Rlt_0_1|exact: ln_1].
  - rewrite !big_cons; split; first exact: Rmult_lt_0_compat.
    by rewrite -IH2; apply: ln_mult.
Qed.

Section CholLogDet.
Variable n : nat.
Definition chol_ok (L A : 'M[R]_n) : Prop := L *m L^T = A /\ is_trig_mx L /\ forall i, Rlt 0 (L i i).
Definition sumlogdiag (L : 'M[R]_n) : R := \sum_i ln (L i i).

Lemma chol_logdet (L A : 'M[R]_n) :
  chol_ok L A -> Rlt 0 (\det A) /\ A^T = A /\ 2%:R * sumlogdiag L = ln (\det A).
Proof.
  case=> HA [Ht Hd]. have [Hp Hl] := ln_prod_pos (index_enum _) Hd.
  have Ed : \det A = (\prod_i L i i) * (\prod_i L i i) by rewrite -HA det_mulmx det_tr det_trig.
  split; first by rewrite Ed; apply: Rmult_lt_0_compat.
  split; first by rewrite -HA trmx_mul trmxK.
  by rewrite Ed ln_mult // /sumlogdiag -Hl -RaddE -mulr2n mulr_natl.
Qed.
Lemma det_pos_unitmx (A : 'M[R]_n) : Rlt 0 (\det A) -> A \in unitmx.
Proof. by move=> /Rgt0_neq0; rewrite unitmxE unitfE. Qed.
Lemma scalar_chol_ok (a : R) : Rlt 0 a -> chol_ok (sqrt a)%:M a%:M.
Proof.
  move=> Ha. split; last split.
  - rewrite tr_scalar_mx -scalar_mxM. congr _%:M. exact/sqrt_sqrt/Rlt_le.
  - exact: scalar_mx_is_trig.
  - move=> i. rewrite mxE eqxx mulr1n. exact: sqrt_lt_R0.
Qed.
End CholLogDet.

Section Assemble.
Variables (n nh : nat) (K : R -> 'M[R]_n) (x : R) (dKt : nat -> 'M[R]_n) (h : nat) (s : R).
Hypothesis HK : mx_derive K x (dKt h).

(* Q a quadratic form r' K^-1 r, LD a log-determinant of K, each with the derivative found above *)
Lemma loglik_assemble (Q LD : R -> R) (a : 'cV[R]_n) :
  is_derive Q x (- (a^T *m dKt h *m a) 0 0) -> is_derive LD x (\tr (invmx (K x) *m dKt h)) ->
  is_derive (fun t => - s * (Q t + LD t)) x
            (grad_mx nh a dKt (invmx (K x)) s (fun _ => 1) h).
Proof. move=> HQ HL. rewrite grad_mxE. apply: is_deriveZ. exact: is_deriveD. Qed.

(* the textbook form: L(t) = -s (r' K^-1 r + log det K), no Cholesky *)
Theorem loglik_logdet_grad p (y : 'cV[R]_n) (P : 'M[R]_(n,p)) :
  Rlt 0 (\det (K x)) -> (K x)^T = K x -> P^T *m cho_solve (K x) P \in unitmx ->
  is_derive (fun t => - s * (((gls_r (K t) P y)^T *m gls_a (K t) P y) 0 0 + ln (\det (K t)))) x
            (grad_mx nh (gls_a (K x) P y) dKt (invmx (K x)) s (fun _ => 1) h).
Proof.
  move=> Kpos Ksym PKPu.
  exact: (loglik_assemble (quad_gls_derive HK (det_pos_unitmx Kpos) Ksym y PKPu) (jacobi_logdet HK Kpos)).
Qed.

(* the code's form: log det K = 2 * sum(log(diag(chol K))), chol a Cholesky factor near x *)
Variable chol : 'M[R]_n -> 'M[R]_n.
Hypothesis Hchol : locally x (fun t => chol_ok (chol (K t)) (K t)).

Lemma chol_at_x : Rlt 0 (\det (K x)) /\ (K x)^T = K x.
Proof. by have [Hp [Hs _]] := chol_logdet (locally_singleton _ _ Hchol). Qed.
Lemma logdet_chol_derive :
  is_derive (fun t => 2%:R * sumlogdiag (chol (K t))) x (\tr (invmx (K x) *m dKt h)).
Proof.
  apply: (@is_derive_eq_loc (fun t => ln (\det (K t)))); last exact: (jacobi_logdet HK (proj1 chol_at_x)).
  apply: locally_imp Hchol => t Ht. by have [_ [_ ->]] := chol_logdet Ht.
Qed.

(* the value compute_log_likelihood returns for residual r(t) and weights a(t) = K(t)^-1 r(t) *)
Lemma loglik_value_grad (r a : R -> 'cV[R]_n) :
  is_derive (fun t => ((r t)^T *m a t) 0 0) x (- ((a x)^T *m dKt h *m a x) 0 0) ->
  is_derive (fun t => LogLik.log_likelihood_value chol (@sumlogdiag n) (K t) (r t) (a t) s) x
            (grad_mx nh (a x) dKt (invmx (K x)) s (fun _ => 1) h).
Proof. move=> HQ. exact: (loglik_assemble HQ logdet_chol_derive). Qed.

(* polynomial mean: r, a the GLS residual and weights *)
Lemma loglik_gls_grad p (y : 'cV[R]_n) (P : 'M[R]_(n,p)) : P^T *m cho_solve (K x) P \in unitmx ->
  is_derive (fun t => LogLik.log_likelihood_value chol (@sumlogdiag n) (K t) (gls_r (K t) P y) (gls_a (K t) P y) s) x
            (grad_mx nh (gls_a (K x) P y) dKt (invmx (K x)) s (fun _ => 1) h).
Proof.
  move=> PKPu. have [Kpos Ksym] := chol_at_x.
  exact: (loglik_value_grad (quad_gls_derive HK (det_pos_unitmx Kpos) Ksym y PKPu)).
Qed.
(* zero mean: r = y, a = K^-1 y *)
Lemma loglik_const_grad (y : 'cV[R]_n) :
  is_derive (fun t => LogLik.log_likelihood_value chol (@sumlogdiag n) (K t) y (invmx (K t) *m y) s) x
            (grad_mx nh (invmx (K x) *m y) dKt (invmx (K x)) s (fun _ => 1) h).
Proof.
  have [Kpos Ksym] := chol_at_x.
  exact: (loglik_value_grad (r := fun=> y) (quad_const_derive HK (det_pos_unitmx Kpos) Ksym y)).
Qed.
End Assemble.

(* the generated value functions and their gradients:
   GPNoise / GPNugget / GPNoiseZeroMean compute the GLS (resp. constant) residual and weights of their kernel matrix *)
Section Final.
Variables (n p nh : nat) (chol : 'M[R]_n -> 'M[R]_n).
Variables (noise y : 'cV[R]_n) (Pmx : 'M[R]_(n,p)) (s : R).
Variables (x : R) (dKt : nat -> 'M[R]_n) (h : nat).

(* per-point noise, polynomial mean (GPNoise): value as a function of one hyperparameter t through the kernel matrix *)
Section Noise.
Variable Kker : R -> 'M[R]_n.
Let K t := GPNoise.kernel_matrix (Kker t) noise.
Definition loglik_noise (t : R) : R :=
  LogLik.log_likelihood_value chol (@sumlogdiag n) (K t)
    (GPNoise.demeaned_y (Kker t) noise y Pmx) (GPNoise.K_inv_demeaned_y (Kker t) noise y Pmx) s.
Hypothesis HK : mx_derive Kker x (dKt h).
Hypothesis Hchol : locally x (fun t => chol_ok (chol (K t)) (K t)).
Hypothesis PKPu : GPNoise.PT_K_inv_P (Kker x) noise Pmx \in unitmx.

Lemma noise_K_derive : mx_derive K x (dKt h).
Proof. apply: mx_derive_val (mx_deriveD HK (mx_derive_cst x (diag_mx noise^T))). by rewrite addr0. Qed.

Theorem loglik_noise_grad :
  is_derive loglik_noise x
    (grad_mx nh (GPNoise.K_inv_demeaned_y (Kker x) noise y Pmx) dKt (invmx (K x)) s (fun _ => 1) h).
Proof. exact: (loglik_gls_grad nh s noise_K_derive Hchol y PKPu). Qed.
End Noise.

(* nugget (auto-noise), polynomial mean (GPNugget): both the kernel part and the nugget may depend on t *)
Section Nugget.
Variables (Kker : R -> 'M[R]_n) (tik : R -> R) (dtik : R).
Let K t := GPNugget.kernel_matrix (Kker t) (tik t).
Definition loglik_nugget (t : R) : R :=
  LogLik.log_likelihood_value chol (@sumlogdiag n) (K t)
    (GPNugget.demeaned_y (Kker t) (tik t) y Pmx) (GPNugget.K_inv_demeaned_y (Kker t) (tik t) y Pmx) s.
Variable dKk : 'M[R]_n.
Hypothesis HK : mx_derive Kker x dKk.
Hypothesis Htik : is_derive tik x dtik.
Hypothesis HdK : dKt h = dKk + dtik%:M.
Hypothesis Hchol : locally x (fun t => chol_ok (chol (K t)) (K t)).
Hypothesis PKPu : GPNugget.PT_K_inv_P (Kker x) (tik x) Pmx \in unitmx.

Lemma nugget_K_derive : mx_derive K x (dKt h).
Proof.
  rewrite HdK. apply: mx_derive_eq_loc (mx_deriveD HK (mx_derive_scalar Htik)).
  apply: filter_forall => t. by rewrite [RHS]nugget_K.
Qed.

Theorem loglik_nugget_grad :
  is_derive loglik_nugget x
    (grad_mx nh (GPNugget.K_inv_demeaned_y (Kker x) (tik x) y Pmx) dKt (invmx (K x)) s (fun _ => 1) h).
Proof. exact: (loglik_gls_grad nh s nugget_K_derive Hchol y PKPu). Qed.
End Nugget.

(* zero mean (GPNoiseZeroMean): r = y constant *)
Section ZeroMean.
Variable Kker : R -> 'M[R]_n.
Let K t := GPNoiseZeroMean.kernel_matrix (Kker t) noise.
Definition loglik_zero_mean (t : R) : R :=
  LogLik.log_likelihood_value chol (@sumlogdiag n) (K t)
    (GPNoiseZeroMean.demeaned_y y) (GPNoiseZeroMean.K_inv_demeaned_y (Kker t) noise y) s.
Hypothesis HK : mx_derive Kker x (dKt h).
Hypothesis Hchol : locally x (fun t => chol_ok (chol (K t)) (K t)).

Theorem loglik_zero_mean_grad :
  is_derive loglik_zero_mean x
    (grad_mx nh (GPNoiseZeroMean.K_inv_demeaned_y (Kker x) noise y) dKt (invmx (K x)) s (fun _ => 1) h).
Proof. exact: (loglik_const_grad nh s (noise_K_derive HK) Hchol y). Qed.
End ZeroMean.
End Final.

(* hyperparameter vectors: upd th h t replaces coordinate h by t, so t |-> f (upd th h t) at th h is the h-th partial of f at th *)
Definition upd (th : nat -> R) (h : nat) (t : R) : nat -> R := fun k => if k == h then t else th k.
Lemma upd_id th h : upd th h (th h) = th.
Proof. apply: functional_extensionality => k. by rewrite /upd; case: eqP => [->|]. Qed.

(* the hypotheses are satisfiable: two observations, constant mean,
   kernel matrix t * I (signal-variance hyperparameter, far-apart points), no noise, at t = 1 *)
Section Instance.
Definition chol_scalar (A : 'M[R]_2) : 'M[R]_2 := (sqrt (A 0 0))%:M.
Let Kk (t : R) : 'M[R]_2 := t%:M.
Let P1 : 'M[R]_(2,1) := const_mx 1.
Let noise0 : 'cV[R]_2 := 0.
Lemma inst_K t : GPNoise.kernel_matrix (Kk t) noise0 = t%:M.
Proof. by rewrite /GPNoise.kernel_matrix /noise0 trmx0 linear0 addr0. Qed.
Lemma inst_derive : mx_derive Kk 1 (1%:M).
Proof. exact: (mx_derive_scalar (@is_derive_id R_AbsRing 1)). Qed.
Lemma inst_chol : locally (1 : R) (fun t => chol_ok (chol_scalar (GPNoise.kernel_matrix (Kk t) noise0)) (GPNoise.kernel_matrix (Kk t) noise0)).
Proof.
  apply: locally_imp (open_gt 0 1 Rlt_0_1) => t Ht. rewrite inst_K /chol_scalar mxE eqxx mulr1n. exact: scalar_chol_ok.
Qed.
Lemma inst_PKP : GPNoise.PT_K_inv_P (Kk 1) noise0 P1 \in unitmx.
Proof.
  rewrite /GPNoise.PT_K_inv_P /GPNoise.K_inv_P /GPNoise.P /cho_solve inst_K invmx1 mul1mx unitmxE det_mx11 unitfE.
  by rewrite mxE !big_ord_recl big_ord0 !mxE !mulr1 addr0 -(natrD _ 1 1) Num.Theory.pnatr_eq0.
Qed.
Theorem loglik_full_instance (y : 'cV[R]_2) (s : R) :
  is_derive (loglik_noise chol_scalar noise0 y P1 s Kk) 1
    (grad_mx 1 (GPNoise.K_inv_demeaned_y (Kk 1) noise0 y P1) (fun _ => 1%:M : 'M[R]_2) (invmx (GPNoise.kernel_matrix (Kk 1) noise0)) s (fun _ => 1) 0).
Proof. exact: (@loglik_noise_grad 2 1 1 chol_scalar noise0 y P1 s 1 (fun _ => 1%:M) 0%N Kk inst_derive inst_chol inst_PKP). Qed.
End Instance.
