(* The live likelihood object (Model.LogLikLive): a set that returns normally has fitted the vector it was given on every observation the
   container holds at that moment - whatever happened to the object before. *)
From Coq Require Import List QArith Lia.
From LV Require Import Model.LogLikLive.
Import ListNotations.
Open Scope Q_scope.

(* a normal return: the GP the value is read from was built from THIS vector (kernel part, nugget slot) on ALL observations held now *)
Theorem set_normal_fits o hp ok o' : l_set o hp ok = (o', RNormal) ->
  ok = true /\ length hp = problem_size o /\
  l_cov o' = firstn (S (l_dim o)) hp /\
  l_gp o' = mksnap (firstn (S (l_dim o)) hp) (if l_auto o then Some (last hp 0) else None) (l_n o) /\
  l_n o' = l_n o /\ l_dim o' = l_dim o /\ l_auto o' = l_auto o /\ fitted o'.
Proof.
  unfold l_set. destruct (length hp =? problem_size o)%nat eqn:El; cbn [negb]; [|intros H; inversion H].
  destruct (forallb lpos_b (firstn (S (l_dim o)) hp)); cbn [negb]; [|intros H; inversion H].
  destruct ok; intros H; inversion H; subst. apply Nat.eqb_eq in El. cbn. unfold fitted. cbn. repeat split; auto.
Qed.

(* a vector whose kernel matrix cannot be factored is NEVER accepted, whatever the state of the object and however often it is sent *)
Theorem set_unfactorable_never_normal o hp : snd (l_set o hp false) <> RNormal.
Proof.
  unfold l_set. destruct (negb (length hp =? problem_size o)%nat); [cbn; discriminate|].
  destruct (negb (forallb lpos_b (firstn (S (l_dim o)) hp))); cbn; discriminate.
Qed.

(* the outcome of a set does not depend on the kernel hyperparameters, the fit or the number of fitted observations the object had
   before *)
Theorem set_outcome_history_free o1 o2 hp ok : l_dim o1 = l_dim o2 -> l_auto o1 = l_auto o2 -> l_n o1 = l_n o2 ->
  snd (l_set o1 hp ok) = snd (l_set o2 hp ok) /\
  (snd (l_set o1 hp ok) = RNormal -> fst (l_set o1 hp ok) = fst (l_set o2 hp ok)).
Proof.
  intros Hd Ha Hn. unfold l_set, problem_size. rewrite Hd, Ha, Hn.
  destruct (negb (length hp =? S (l_dim o2) + (if l_auto o2 then 1 else 0))%nat); [cbn; split; [reflexivity|discriminate]|].
  destruct (negb (forallb lpos_b (firstn (S (l_dim o2)) hp))); [cbn; split; [reflexivity|discriminate]|].
  destruct ok; cbn; split; try reflexivity; discriminate.
Qed.

Lemma l_run_cons o op r : l_run o (op :: r) = (fst (l_run (fst (l_step o op)) r), snd (l_step o op) :: snd (l_run (fst (l_step o op)) r)).
Proof. cbn. destruct (l_step o op) as [o1 out]. cbn. destruct (l_run o1 r). reflexivity. Qed.

Lemma l_run_app ops1 : forall o ops2,
  l_run o (ops1 ++ ops2) = (fst (l_run (fst (l_run o ops1)) ops2), snd (l_run o ops1) ++ snd (l_run (fst (l_run o ops1)) ops2)).
Proof.
  induction ops1 as [|op r IH]; intros o ops2; [cbn; destruct (l_run o ops2); reflexivity|].
  change ((op :: r) ++ ops2) with (op :: (r ++ ops2)). rewrite !l_run_cons, IH. reflexivity.
Qed.

Lemma l_run_length ops : forall o, length (snd (l_run o ops)) = length ops.
Proof. induction ops as [|op r IH]; intros o; [reflexivity|]. rewrite l_run_cons. cbn. rewrite IH. reflexivity. Qed.

Fixpoint appended (ops : list lop) : nat := match ops with [] => O | LAppend k :: r => (k + appended r)%nat | _ :: r => appended r end.
(* dimension, nugget mode never change; the number of observations held is the initial one plus everything appended *)
Lemma l_step_static o op : l_dim (fst (l_step o op)) = l_dim o /\ l_auto (fst (l_step o op)) = l_auto o /\
  l_n (fst (l_step o op)) = (l_n o + match op with LAppend k => k | _ => O end)%nat.
Proof.
  destruct op as [hp ok|k| |]; cbn; try (repeat split; lia).
  unfold l_set. destruct (negb (length hp =? problem_size o)%nat); [cbn; repeat split; lia|].
  destruct (negb (forallb lpos_b (firstn (S (l_dim o)) hp))); [cbn; repeat split; lia|]. destruct ok; cbn; repeat split; lia.
Qed.
Lemma l_run_static ops : forall o, l_dim (fst (l_run o ops)) = l_dim o /\ l_auto (fst (l_run o ops)) = l_auto o /\
  l_n (fst (l_run o ops)) = (l_n o + appended ops)%nat.
Proof.
  induction ops as [|op r IH]; intros o; [cbn; repeat split; lia|]. rewrite l_run_cons. cbn [fst].
  destruct (IH (fst (l_step o op))) as (A & B & C'). destruct (l_step_static o op) as (A' & B' & C''). rewrite A, B, C', A', B', C''.
  repeat split; try reflexivity. destruct op; cbn [appended]; lia.
Qed.

(* IN ANY HISTORY: when a set returns normally, the value read right after it is the value of the GP built from the vector just sent, on
   the `l_n o` + (everything appended so far) observations the container holds - not of any earlier fit *)
Theorem history_value_after_normal_set o ops1 hp ok ops2 :
  nth (length ops1) (snd (l_run o (ops1 ++ LSet hp ok :: LValue :: ops2))) (MSet RLen) = MSet RNormal ->
  nth (S (length ops1)) (snd (l_run o (ops1 ++ LSet hp ok :: LValue :: ops2))) (MSet RLen)
  = MValue (mksnap (firstn (S (l_dim o)) hp) (if l_auto o then Some (last hp 0) else None) (l_n o + appended ops1)).
Proof.
  rewrite l_run_app. cbn [snd]. rewrite !app_nth2; rewrite l_run_length; [|lia|lia].
  replace (S (length ops1) - length ops1)%nat with 1%nat by lia. rewrite Nat.sub_diag.
  set (o1 := fst (l_run o ops1)). destruct (l_run_static ops1 o) as (Hd & Ha & Hn). fold o1 in Hd, Ha, Hn.
  rewrite l_run_cons. cbn [snd nth]. cbn [l_step]. destruct (l_set o1 hp ok) as [o2 r] eqn:E. cbn [fst snd]. intros Hr. injection Hr as ->.
  rewrite l_run_cons. cbn [snd nth l_step]. destruct (set_normal_fits _ _ _ _ E) as (_ & _ & _ & Hg & _). rewrite Hg, Hd, Ha, Hn. reflexivity.
Qed.
