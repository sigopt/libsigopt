(* C08, log_sample branch of ContinuousDomain.generate_quasi_random_points_in_domain: the sampler is run on the bounds log(lo), log(hi)
   and its output is exponentiated.  Over R: a sample inside the logarithmic bounds comes back inside the original bounds. *)
From Coq Require Import Reals Lra.
Open Scope R_scope.

Lemma exp_le x y : x <= y -> exp x <= exp y.
Proof. intros [H| ->]; [left; apply exp_increasing, H|apply Rle_refl]. Qed.

Lemma exp_of_log_sample lo hi p : 0 < lo -> lo <= hi -> ln lo <= p <= ln hi -> lo <= exp p <= hi.
Proof.
  intros Hlo Hle [H1 H2]. assert (Hhi : 0 < hi) by lra. split.
  - rewrite <- (exp_ln lo Hlo). apply exp_le, H1.
  - rewrite <- (exp_ln hi Hhi). apply exp_le, H2.
Qed.

(* the logarithmic bounds are ordered like the original ones, so every box sampler's contract (lo' <= p <= hi' given lo' <= hi') applies *)
Lemma log_bounds_ordered lo hi : 0 < lo -> lo <= hi -> ln lo <= ln hi.
Proof.
  intros Hlo [L| ->]; [left; apply ln_increasing; assumption|apply Rle_refl].
Qed.
