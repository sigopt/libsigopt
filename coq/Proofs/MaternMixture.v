(* C03, analytic part for the Matern kernels: C0, C2 and C4 are positive scale mixtures of Gaussians (Schoenberg).  With
   E_c(u) = exp(-u^2 - c^2/u^2), c = r/2:  int_0^oo u^k E_c(u) du = C_k phi_k(r) for k = 0, 2, 4, where int_0^oo is the limit for x -> +oo
   of the proper Riemann integral over [1/x, x] (any [la/x, mu x] for k = 0; the same interval for every r is what Proofs/MaternPsd.v needs).
   k = 0 is Cauchy-Schloemilch: E_c(u) = exp(-2c) gs(u - c/u) and E_c(c/u) = E_c(u), so the substitutions t = u - c/u and v = c/u turn the
   integral over the symmetric interval [c/b, b] into the Gaussian integral of Lib/Gauss.v, with no remainder.  k = 2, 4 follow by the
   fundamental theorem of calculus for u E_c(u) and u^3 E_c(u).  No differentiation under the integral sign, no Fubini. *)
From Coq Require Import Reals Psatz.
From Coquelicot Require Import Coquelicot.
From LV Require Import Lib.RBase Lib.Gauss Proofs.Covariance.
Open Scope R_scope.

(* the substitution variable t = u - c / u of Cauchy-Schloemilch *)
Definition gm (c u : R) : R := u - c / u.
Definition Ec (c u : R) : R := exp (- u ^ 2 - c ^ 2 / u ^ 2).

Lemma between_pos a b x : 0 < a -> 0 < b -> Rmin a b <= x <= Rmax a b -> 0 < x.
Proof. intros Ha Hb [H _]. revert H. apply Rmin_case; lra. Qed.

Lemma gm_deriv c u : u <> 0 -> is_derive (gm c) u (1 + c / u ^ 2).
Proof. intros Hu. unfold gm. auto_derive; [exact Hu|field; exact Hu]. Qed.

Lemma gm_inv c u : 0 < c -> u <> 0 -> gm c (c / u) = - gm c u.
Proof. intros Hc Hu. unfold gm. field. lra. Qed.

Lemma Ec_gs c u : u <> 0 -> Ec c u = exp (- 2 * c) * gs (gm c u).
Proof. intros Hu. unfold Ec, gs, gm. rewrite <- exp_plus. f_equal. field. exact Hu. Qed.

Lemma Ec_inv c u : 0 < c -> u <> 0 -> Ec c (c / u) = Ec c u.
Proof. intros Hc Hu. unfold Ec. f_equal. field. lra. Qed.

Lemma Ec_pos c u : 0 < Ec c u.
Proof. apply exp_pos. Qed.
Lemma Ec_le_gs c u : u <> 0 -> Ec c u <= gs u.
Proof.
  intros Hu. unfold Ec, gs. apply exp_le.
  replace (c ^ 2 / u ^ 2) with ((c / u) ^ 2) by (field; exact Hu).
  pose proof (pow2_ge_0 (c / u)). lra.
Qed.
Lemma Ec_le_1 c u : u <> 0 -> Ec c u <= 1.
Proof. intros Hu. exact (Rle_trans _ _ _ (Ec_le_gs c u Hu) (gs_le_1 u)). Qed.

Lemma Ec_deriv c u : u <> 0 -> is_derive (Ec c) u ((- 2 * u + 2 * c ^ 2 / u ^ 3) * Ec c u).
Proof.
  intros Hu. apply (is_derive_comp exp (fun u => - u ^ 2 - c ^ 2 / u ^ 2) u _ _ (is_derive_exp _)).
  auto_derive; [nra|field; exact Hu].
Qed.
Lemma Ec_cont c u : u <> 0 -> continuous (Ec c) u.
Proof. intros Hu. apply (ex_derive_continuous (Ec c) u). eexists. apply Ec_deriv, Hu. Qed.

Lemma ex_RInt_pos (f : R -> R) a b : 0 < a -> 0 < b -> (forall x, 0 < x -> continuous f x) -> ex_RInt f a b.
Proof.
  intros Ha Hb Hf. apply (@ex_RInt_continuous R_CompleteNormedModule). intros x Hx. apply Hf. apply (between_pos a b x Ha Hb Hx).
Qed.
Lemma Ec_ex_RInt c a b : 0 < a -> 0 < b -> ex_RInt (Ec c) a b.
Proof. intros Ha Hb. apply ex_RInt_pos; [exact Ha|exact Hb|]. intros x Hx. apply Ec_cont. lra. Qed.

Lemma Ig_odd x : Ig (- x) = - Ig x.
Proof.
  assert (E : (fun z => Ig (- z) + Ig z) x = (fun z => Ig (- z) + Ig z) 0).
  { apply (is_derive_0_const (fun z => Ig (- z) + Ig z)). clear x. intros x.
    evar_last.
    apply @is_derive_plus.
    apply (is_derive_comp Ig Ropp). apply Ig_deriv. apply @is_derive_opp. apply is_derive_id.
    apply Ig_deriv.
    replace (gs (- x)) with (gs x) by (unfold gs; f_equal; ring). unfold plus, scal, opp, one, zero; simpl. unfold mult; simpl. lra. }
  simpl in E. rewrite Ropp_0, Ig_0 in E. lra.
Qed.

Lemma RInt_gs_Ig a b : RInt gs a b = Ig b - Ig a.
Proof.
  unfold Ig. rewrite <- (RInt_Chasles gs 0 a b) by apply gs_ex_RInt.
  change (plus (RInt gs 0 a) (RInt gs a b)) with (RInt gs 0 a + RInt gs a b). lra.
Qed.

(* the substitution t = u - c / u *)
Lemma RInt_subst_gm c a b : 0 < a -> 0 < b ->
  is_RInt (fun u => (1 + c / u ^ 2) * Ec c u) a b (exp (- 2 * c) * (Ig (gm c b) - Ig (gm c a))).
Proof.
  intros Ha Hb. rewrite <- RInt_gs_Ig.
  apply (is_RInt_ext (fun u => scal (exp (- 2 * c)) (scal (1 + c / u ^ 2) (gs (gm c u))))).
  { intros x Hx. rewrite Ec_gs; [unfold scal; simpl; unfold mult; simpl; lra|].
    apply Rgt_not_eq, (between_pos a b x Ha Hb). lra. }
  apply (is_RInt_scal (V := R_NormedModule)).
  apply (is_RInt_comp gs (gm c) (fun u => 1 + c / u ^ 2)).
  - intros x _. apply gs_cont.
  - intros x Hx. pose proof (between_pos a b x Ha Hb Hx). split.
    + apply gm_deriv. lra.
    + apply (ex_derive_continuous (fun u => 1 + c / u ^ 2) x). auto_derive. nra.
Qed.

(* the substitution v = c / u; E_c(c / u) = E_c(u) *)
Lemma RInt_subst_inv c a b : 0 < c -> 0 < a -> 0 < b ->
  is_RInt (fun u => c / u ^ 2 * Ec c u) a b (RInt (Ec c) (c / b) (c / a)).
Proof.
  intros Hc Ha Hb.
  assert (Hca : 0 < c / a) by (apply Rdiv_lt_0_compat; lra).
  assert (Hcb : 0 < c / b) by (apply Rdiv_lt_0_compat; lra).
  rewrite <- (opp_RInt_swap (Ec c) (c / a) (c / b)) by (apply Ec_ex_RInt; assumption).
  apply (is_RInt_ext (fun u => opp (scal (- c / u ^ 2) (Ec c (c / u))))).
  { intros x Hx. assert (0 < x) by (apply (between_pos a b x Ha Hb); lra).
    rewrite Ec_inv by lra. unfold opp, scal; simpl. unfold mult; simpl. field. lra. }
  apply @is_RInt_opp.
  apply (is_RInt_comp (Ec c) (fun u => c / u) (fun u => - c / u ^ 2)).
  - intros x Hx. pose proof (between_pos a b x Ha Hb Hx). apply Ec_cont, Rgt_not_eq, Rdiv_lt_0_compat; lra.
  - intros x Hx. pose proof (between_pos a b x Ha Hb Hx). split.
    + auto_derive; [lra|field; lra].
    + apply (ex_derive_continuous (fun u => - c / u ^ 2) x). auto_derive. nra.
Qed.

(* Cauchy-Schloemilch on the symmetric interval [c/b, b]: the two substitutions add up to twice the integral, with no remainder *)
Theorem P0_sym c b : 0 < c -> 0 < b -> RInt (Ec c) (c / b) b = exp (- 2 * c) * Ig (gm c b).
Proof.
  intros Hc Hb.
  assert (Ha : 0 < c / b) by (apply Rdiv_lt_0_compat; lra).
  pose proof (RInt_subst_gm c (c / b) b Ha Hb) as H1.
  pose proof (RInt_subst_inv c (c / b) b Hc Ha Hb) as H2.
  replace (c / (c / b)) with b in H2 by (field; lra).
  pose proof (RInt_correct _ _ _ (Ec_ex_RInt c (c / b) b Ha Hb)) as H0.
  assert (H3 : is_RInt (fun u => (1 + c / u ^ 2) * Ec c u) (c / b) b (RInt (Ec c) (c / b) b + RInt (Ec c) (c / b) b)).
  { apply (is_RInt_ext (fun y => plus (Ec c y) (c / y ^ 2 * Ec c y))); [|exact (is_RInt_plus _ _ _ _ _ _ H0 H2)].
    intros x _. unfold plus; simpl. lra. }
  pose proof (is_RInt_unique _ _ _ _ H1) as U. rewrite (is_RInt_unique _ _ _ _ H3), gm_inv, Ig_odd in U by lra.
  lra.
Qed.

Lemma gm_lim c mu : 0 <= c -> 0 < mu -> is_lim (fun x => gm c (mu * x)) p_infty p_infty.
Proof.
  intros Hc Hmu P [M HM]. exists (Rmax (1 / mu) ((M + c) / mu)). intros x Hx. apply HM.
  assert (H1 : 1 / mu < x) by (eapply Rle_lt_trans; [apply Rmax_l|exact Hx]).
  assert (H2 : (M + c) / mu < x) by (eapply Rle_lt_trans; [apply Rmax_r|exact Hx]).
  apply Rlt_div_l in H1; [|exact Hmu]. apply Rlt_div_l in H2; [|exact Hmu].
  unfold gm. assert (c / (mu * x) <= c).
  { apply Rle_div_l; [nra|nra]. }
  nra.
Qed.

Lemma Ig_gm_lim c mu : 0 <= c -> 0 < mu -> is_lim (fun x => Ig (gm c (mu * x))) p_infty (sqrt PI / 2).
Proof.
  intros Hc Hmu. apply (is_lim_comp Ig (fun x => gm c (mu * x)) p_infty (sqrt PI / 2) p_infty).
  - apply Ig_lim.
  - apply gm_lim; assumption.
  - exists 0. intros x _. discriminate.
Qed.

Lemma RInt_abs_le_len (f : R -> R) a b :
  (forall x, Rmin a b <= x <= Rmax a b -> 0 <= f x <= 1) -> ex_RInt f a b -> Rabs (RInt f a b) <= Rabs (b - a).
Proof.
  intros Hf Hex. rewrite <- (Rmult_1_r (Rabs (b - a))).
  apply (norm_RInt_le_const_abs f a b (RInt f a b) 1).
  - intros x Hx. unfold norm; simpl. unfold abs; simpl. rewrite Rabs_pos_eq; apply Hf, Hx.
  - apply (@RInt_correct R_CompleteNormedModule), Hex.
Qed.

Lemma RInt_Ec_small c a b : 0 < a -> 0 < b -> Rabs (RInt (Ec c) a b) <= Rabs (b - a).
Proof.
  intros Ha Hb. apply RInt_abs_le_len; [|apply Ec_ex_RInt; assumption].
  intros x Hx. pose proof (between_pos a b x Ha Hb Hx). split; [left; apply Ec_pos|apply Ec_le_1; lra].
Qed.

Lemma is_lim_over_x k : is_lim (fun x => k * / x) p_infty 0.
Proof.
  replace (Finite 0) with (Rbar_mult k 0) by (simpl; f_equal; ring).
  apply is_lim_scal_l. apply is_lim_inv_p.
Qed.

(* [la/x, mu x] = a piece of length O(1/x) + the symmetric interval [c/(mu x), mu x] *)
Lemma P0_split c la mu x : 0 < c -> 0 < la -> 0 < mu -> 0 < x ->
  RInt (Ec c) (la / x) (mu * x) = RInt (Ec c) (la / x) (c / (mu * x)) + exp (- 2 * c) * Ig (gm c (mu * x)) /\
  Rabs (RInt (Ec c) (la / x) (c / (mu * x))) <= Rabs (c / mu - la) * / x.
Proof.
  intros Hc Hla Hmu Hx.
  assert (Ha : 0 < la / x) by (apply Rdiv_lt_0_compat; lra).
  assert (Hb : 0 < mu * x) by nra.
  assert (Hm : 0 < c / (mu * x)) by (apply Rdiv_lt_0_compat; lra).
  split.
  - rewrite <- P0_sym by assumption. symmetry. apply (RInt_Chasles (Ec c)); apply Ec_ex_RInt; assumption.
  - eapply Rle_trans; [apply RInt_Ec_small; assumption|].
    replace (c / (mu * x) - la / x) with ((c / mu - la) * / x) by (field; lra).
    rewrite Rabs_mult. rewrite (Rabs_pos_eq (/ x)); [lra|]. left. apply Rinv_0_lt_compat, Hx.
Qed.

Lemma P0_lim_pos c la mu : 0 < c -> 0 < la -> 0 < mu ->
  is_lim (fun x => RInt (Ec c) (la / x) (mu * x)) p_infty (sqrt PI / 2 * exp (- 2 * c)).
Proof.
  intros Hc Hla Hmu.
  apply (is_lim_ext_loc (fun x => RInt (Ec c) (la / x) (c / (mu * x)) + exp (- 2 * c) * Ig (gm c (mu * x)))).
  { exists 0. intros x Hx. symmetry. apply P0_split; assumption. }
  replace (Finite (sqrt PI / 2 * exp (- 2 * c))) with (Finite (0 + exp (- 2 * c) * (sqrt PI / 2))) by (f_equal; ring).
  apply is_lim_plus'.
  - apply (is_lim_0_bound _ (fun x => Rabs (c / mu - la) * / x)); [|apply is_lim_over_x].
    exists 0. intros x Hx. apply P0_split; assumption.
  - apply (is_lim_scal_l (fun x => Ig (gm c (mu * x))) (exp (- 2 * c)) p_infty (sqrt PI / 2)).
    apply Ig_gm_lim; lra.
Qed.

(* c = 0: the plain Gaussian integral *)
Lemma Ec_0 u : Ec 0 u = gs u.
Proof. unfold Ec, gs, Rdiv. f_equal. lra. Qed.

Lemma Ig_small y : Rabs (Ig y) <= Rabs y.
Proof.
  unfold Ig. replace (Rabs y) with (Rabs (y - 0)) by (f_equal; ring).
  apply RInt_abs_le_len; [|apply gs_ex_RInt]. intros x _. split; [left; apply gs_pos|apply gs_le_1].
Qed.

Lemma P0_lim_0 la mu : 0 < la -> 0 < mu ->
  is_lim (fun x => RInt (Ec 0) (la / x) (mu * x)) p_infty (sqrt PI / 2).
Proof.
  intros Hla Hmu.
  apply (is_lim_ext_loc (fun x => Ig (mu * x + 0) - Ig (la / x))).
  { exists 0. intros x Hx. rewrite Rplus_0_r, <- RInt_gs_Ig. apply RInt_ext. intros u _. symmetry. apply Ec_0. }
  replace (Finite (sqrt PI / 2)) with (Finite (sqrt PI / 2 - 0)) by (f_equal; ring).
  apply is_lim_minus'.
  - apply is_lim_lin_pp; [exact Hmu|apply Ig_lim].
  - apply (is_lim_0_bound _ (fun x => la * / x)).
    + exists 0. intros x Hx. eapply Rle_trans; [apply Ig_small|].
      rewrite Rabs_pos_eq; [unfold Rdiv; lra|]. left. apply Rdiv_lt_0_compat; lra.
    + apply is_lim_over_x.
Qed.

Theorem P0_limit c la mu : 0 <= c -> 0 < la -> 0 < mu ->
  is_lim (fun x => RInt (Ec c) (la / x) (mu * x)) p_infty (sqrt PI / 2 * exp (- 2 * c)).
Proof.
  intros [Hc| <-] Hla Hmu; [apply P0_lim_pos; assumption|].
  replace (-2 * 0) with 0 by lra. rewrite exp_0, Rmult_1_r. apply P0_lim_0; assumption.
Qed.

(* d/du (u^k E_c(u)), and the fundamental theorem of calculus for it on [a,b] in (0,oo) *)
Definition dpowEc (k : nat) (c u : R) : R := (INR k * u ^ pred k + u ^ k * (- 2 * u + 2 * c ^ 2 / u ^ 3)) * Ec c u.

Lemma powEc_deriv k c u : u <> 0 -> is_derive (fun u => u ^ k * Ec c u) u (dpowEc k c u).
Proof.
  intros Hu. evar_last.
  - apply (is_derive_mult (fun u => u ^ k) (Ec c) u).
    + apply is_derive_pow, is_derive_id.
    + apply Ec_deriv, Hu.
    + apply Rmult_comm.
  - unfold dpowEc, plus, mult, one; simpl. lra.
Qed.

Lemma FTC_powEc k c a b : 0 < a -> 0 < b -> is_RInt (dpowEc k c) a b (b ^ k * Ec c b - a ^ k * Ec c a).
Proof.
  intros Ha Hb. apply (is_RInt_derive (fun u => u ^ k * Ec c u) (dpowEc k c)).
  - intros x Hx. pose proof (between_pos a b x Ha Hb Hx). apply powEc_deriv. lra.
  - intros x Hx. pose proof (between_pos a b x Ha Hb Hx).
    apply (continuous_mult (fun u => INR k * u ^ pred k + u ^ k * (- 2 * u + 2 * c ^ 2 / u ^ 3)) (Ec c)); [|apply Ec_cont; lra].
    apply (ex_derive_continuous (fun u => INR k * u ^ pred k + u ^ k * (- 2 * u + 2 * c ^ 2 / u ^ 3)) x). auto_derive.
    apply Rgt_not_eq. repeat apply Rmult_lt_0_compat; lra.
Qed.

(* the integrand of the k-th moment *)
Definition mk (k : nat) (c u : R) : R := u ^ k * Ec c u.
(* the term of d/du (u E_c(u)) that the substitution v = c / u turns back into an integral of E_c *)
Definition qc (c u : R) : R := c ^ 2 / u ^ 2 * Ec c u.

Lemma qc_is_RInt c a b : 0 <= c -> 0 < a -> 0 < b -> is_RInt (qc c) a b (c * RInt (Ec c) (c / b) (c / a)).
Proof.
  intros [Hc| <-] Ha Hb.
  - apply (is_RInt_ext (fun u => scal c (c / u ^ 2 * Ec c u))).
    { intros x Hx. unfold qc, scal; simpl. unfold mult; simpl. field. apply Rgt_not_eq, (between_pos a b x Ha Hb). lra. }
    apply (is_RInt_scal (V := R_NormedModule)), RInt_subst_inv; assumption.
  - rewrite Rmult_0_l. apply (is_RInt_ext (fun _ => 0)).
    { intros x _. unfold qc. unfold Rdiv. rewrite pow_i by lia. rewrite !Rmult_0_l. reflexivity. }
    evar_last. apply (@is_RInt_const R_NormedModule a b 0). unfold scal; simpl; unfold mult; simpl; lra.
Qed.

Lemma is_RInt_lin3 (f g h : R -> R) a b lf lg lh (p q r : R) :
  is_RInt f a b lf -> is_RInt g a b lg -> is_RInt h a b lh ->
  is_RInt (fun u => p * f u + q * g u + r * h u) a b (p * lf + q * lg + r * lh).
Proof.
  intros Hf Hg Hh.
  apply (is_RInt_plus (V := R_NormedModule) (fun u => p * f u + q * g u) (fun u => r * h u)).
  - apply (is_RInt_plus (V := R_NormedModule) (fun u => p * f u) (fun u => q * g u)).
    + exact (is_RInt_scal (V := R_NormedModule) f a b p lf Hf).
    + exact (is_RInt_scal (V := R_NormedModule) g a b q lg Hg).
  - exact (is_RInt_scal (V := R_NormedModule) h a b r lh Hh).
Qed.

Lemma is_lim_lin3 (f g h : R -> R) (lf lg lh p q r : R) :
  is_lim f p_infty lf -> is_lim g p_infty lg -> is_lim h p_infty lh ->
  is_lim (fun x => p * f x + q * g x + r * h x) p_infty (p * lf + q * lg + r * lh).
Proof.
  intros Hf Hg Hh.
  apply (is_lim_plus' (fun x => p * f x + q * g x) (fun x => r * h x)).
  - apply (is_lim_plus' (fun x => p * f x) (fun x => q * g x)).
    + exact (is_lim_scal_l f p p_infty lf Hf).
    + exact (is_lim_scal_l g q p_infty lg Hg).
  - exact (is_lim_scal_l h r p_infty lh Hh).
Qed.

(* the boundary term [u^k E_c(u)] of FTC_powEc *)
Definition Bk (k : nat) (c a b : R) : R := b ^ k * Ec c b - a ^ k * Ec c a.
(* 2 int u^2 E = int E + 2 int c^2/u^2 E - [u E]   and   2 int u^4 E = 3 int u^2 E + 2 c^2 int E - [u^3 E],   exactly on [a,b] *)
Definition V2 (c a b : R) : R := 1 / 2 * RInt (Ec c) a b + 1 * (c * RInt (Ec c) (c / b) (c / a)) + - (1 / 2) * Bk 1 c a b.
Definition V4 (c a b : R) : R := 3 / 2 * V2 c a b + c ^ 2 * RInt (Ec c) a b + - (1 / 2) * Bk 3 c a b.

Lemma mk2_is_RInt c a b : 0 <= c -> 0 < a -> 0 < b -> is_RInt (mk 2 c) a b (V2 c a b).
Proof.
  intros Hc Ha Hb.
  apply (is_RInt_ext (fun u => 1 / 2 * Ec c u + 1 * qc c u + - (1 / 2) * dpowEc 1 c u)).
  { intros x Hx. unfold mk, qc, dpowEc. simpl. field. apply Rgt_not_eq, (between_pos a b x Ha Hb). lra. }
  apply is_RInt_lin3; [|apply qc_is_RInt; assumption|apply FTC_powEc; assumption].
  apply (@RInt_correct R_CompleteNormedModule), Ec_ex_RInt; assumption.
Qed.

Lemma mk4_is_RInt c a b : 0 <= c -> 0 < a -> 0 < b -> is_RInt (mk 4 c) a b (V4 c a b).
Proof.
  intros Hc Ha Hb.
  apply (is_RInt_ext (fun u => 3 / 2 * mk 2 c u + c ^ 2 * Ec c u + - (1 / 2) * dpowEc 3 c u)).
  { intros x Hx. unfold mk, dpowEc. simpl. field. apply Rgt_not_eq, (between_pos a b x Ha Hb). lra. }
  apply is_RInt_lin3; [apply mk2_is_RInt; assumption| |apply FTC_powEc; assumption].
  apply (@RInt_correct R_CompleteNormedModule), Ec_ex_RInt; assumption.
Qed.

Lemma gs_le_inv4 x : 0 < x -> gs x <= 2 / x ^ 4.
Proof.
  intros Hx. assert (H4 : 0 < x ^ 4) by (apply pow_lt; exact Hx).
  unfold gs. rewrite exp_Ropp. replace (2 / x ^ 4) with (/ (x ^ 4 / 2)) by (field; lra).
  apply Rinv_le_contravar; [lra|]. replace (x ^ 4) with ((x ^ 2) ^ 2) by lra.
  pose proof (pow2_ge_0 x) as Hy. pose proof (exp_ge_taylor (x ^ 2) 2 Hy) as H. set (y := x ^ 2) in *. simpl in H. lra.
Qed.

Lemma powEc_le_upper c x (k : nat) : 1 <= x -> (k <= 3)%nat -> 0 <= x ^ k * Ec c x <= 2 / x.
Proof.
  intros Hx Hk. assert (Hx0 : x <> 0) by lra.
  assert (Hk0 : 0 < x ^ k) by (apply pow_lt; lra).
  pose proof (Ec_pos c x). split; [nra|].
  apply Rle_trans with (x ^ 3 * (2 / x ^ 4)).
  - apply Rmult_le_compat; [lra|lra| |].
    + apply Rle_pow; [lra|exact Hk].
    + eapply Rle_trans; [apply Ec_le_gs, Hx0|apply gs_le_inv4; lra].
  - right. field. lra.
Qed.

Lemma powEc_le_lower c x (k : nat) : 1 <= x -> (1 <= k)%nat -> 0 <= (1 / x) ^ k * Ec c (1 / x) <= 1 / x.
Proof.
  intros Hx Hk. assert (H1 : 0 < 1 / x) by (apply Rdiv_lt_0_compat; lra).
  assert (H2 : 1 / x <= 1) by (apply Rle_div_l; lra).
  assert (Hk0 : 0 < (1 / x) ^ k) by (apply pow_lt; lra).
  pose proof (Ec_pos c (1 / x)). pose proof (Ec_le_1 c (1 / x)) as HE.
  split; [nra|].
  assert ((1 / x) ^ k <= 1 / x).
  { destruct k as [|k]; [lia|]. simpl.
    assert ((1 / x) ^ k <= 1) by (apply Rle_trans with (1 ^ k); [apply pow_incr; lra|rewrite pow1; lra]).
    assert (0 < (1 / x) ^ k) by (apply pow_lt; lra). nra. }
  assert (Ec c (1 / x) <= 1) by (apply HE; lra). nra.
Qed.

(* the boundary terms vanish *)
Lemma Bk_lim k c : (1 <= k <= 3)%nat -> is_lim (fun x => Bk k c (1 / x) x) p_infty 0.
Proof.
  intros Hk. apply (is_lim_0_bound _ (fun x => 3 * / x)).
  - exists 1. intros x Hx. unfold Bk.
    pose proof (powEc_le_upper c x k (Rlt_le _ _ Hx) (proj2 Hk)) as Hb. pose proof (powEc_le_lower c x k (Rlt_le _ _ Hx) (proj1 Hk)) as Hs.
    apply Rabs_le. unfold Rdiv in *. lra.
  - apply is_lim_over_x.
Qed.

(* the value of the integral for k = 0 *)
Definition L0 (c : R) : R := sqrt PI / 2 * exp (- 2 * c).

Theorem RInt_Ec_lim c : 0 <= c -> is_lim (fun x => RInt (Ec c) (1 / x) x) p_infty (L0 c).
Proof.
  intros Hc. apply (is_lim_ext (fun x => RInt (Ec c) (1 / x) (1 * x))).
  { intros x. rewrite Rmult_1_l. reflexivity. }
  apply P0_limit; lra.
Qed.

Lemma Qterm_lim c : 0 <= c -> is_lim (fun x => c * RInt (Ec c) (c / x) (c / (1 / x))) p_infty (c * L0 c).
Proof.
  intros [Hc| <-].
  - apply (is_lim_scal_l (fun x => RInt (Ec c) (c / x) (c / (1 / x))) c p_infty (L0 c)).
    apply (is_lim_ext_loc (fun x => RInt (Ec c) (c / x) (c * x))).
    { exists 0. intros x Hx. f_equal. field. lra. }
    apply P0_lim_pos; assumption.
  - apply (is_lim_ext (fun _ => 0)); [intros; lra|]. rewrite Rmult_0_l. apply is_lim_const.
Qed.

Lemma V2_lim c : 0 <= c -> is_lim (fun x => V2 c (1 / x) x) p_infty (1 / 2 * L0 c + 1 * (c * L0 c) + - (1 / 2) * 0).
Proof. intros Hc. apply is_lim_lin3; [apply RInt_Ec_lim, Hc|apply Qterm_lim, Hc|apply Bk_lim; lia]. Qed.

Lemma V4_lim c : 0 <= c ->
  is_lim (fun x => V4 c (1 / x) x) p_infty (3 / 2 * (1 / 2 * L0 c + 1 * (c * L0 c) + - (1 / 2) * 0) + c ^ 2 * L0 c + - (1 / 2) * 0).
Proof. intros Hc. apply is_lim_lin3; [apply V2_lim, Hc|apply RInt_Ec_lim, Hc|apply Bk_lim; lia]. Qed.

(* int_{1/x}^x of a function that has an integral on every [a,b] in (0,oo) *)
Lemma moment_lim (f : R -> R) (V : R -> R -> R) (l l' : R) :
  (forall a b, 0 < a -> 0 < b -> is_RInt f a b (V a b)) -> is_lim (fun x => V (1 / x) x) p_infty l -> l = l' ->
  is_lim (fun x => RInt f (1 / x) x) p_infty l'.
Proof.
  intros HV Hl <-. apply (is_lim_ext_loc (fun x => V (1 / x) x)); [|exact Hl].
  exists 0. intros x Hx. symmetry. apply is_RInt_unique, HV; [apply Rdiv_lt_0_compat; lra|exact Hx].
Qed.

(* The three mixture identities; 2c = r is the argument of the documented profiles of Proofs/Covariance.v *)
Theorem moment0 c : 0 <= c -> is_lim (fun x => RInt (mk 0 c) (1 / x) x) p_infty (sqrt PI / 2 * phiC0 (2 * c)).
Proof.
  intros Hc. apply (is_lim_ext (fun x => RInt (Ec c) (1 / x) x)).
  { intros x. apply RInt_ext. intros u _. unfold mk. simpl. lra. }
  replace (sqrt PI / 2 * phiC0 (2 * c)) with (L0 c) by (unfold L0, phiC0; f_equal; f_equal; ring).
  apply RInt_Ec_lim, Hc.
Qed.

Theorem moment2 c : 0 <= c -> is_lim (fun x => RInt (mk 2 c) (1 / x) x) p_infty (sqrt PI / 4 * phiC2 (2 * c)).
Proof.
  intros Hc. apply (moment_lim (mk 2 c) (V2 c) _ _ (fun a b => mk2_is_RInt c a b Hc) (V2_lim c Hc)).
  unfold L0, phiC2. replace (- (2 * c)) with (- 2 * c) by lra. lra.
Qed.

Theorem moment4 c : 0 <= c -> is_lim (fun x => RInt (mk 4 c) (1 / x) x) p_infty (3 * sqrt PI / 8 * phiC4 (2 * c)).
Proof.
  intros Hc. apply (moment_lim (mk 4 c) (V4 c) _ _ (fun a b => mk4_is_RInt c a b Hc) (V4_lim c Hc)).
  unfold L0, phiC4. replace (- (2 * c)) with (- 2 * c) by lra. lra.
Qed.

(* the same, read as mixtures of Gaussians in r = 2c *)
Lemma Ec_gauss r u : u <> 0 -> Ec (r / 2) u = exp (- u ^ 2) * exp (- (/ (4 * u ^ 2)) * r ^ 2).
Proof. intros Hu. unfold Ec. rewrite <- exp_plus. f_equal. field. exact Hu. Qed.

Lemma mixture_of_moment (k : nat) (l : R -> R) r : 0 <= r ->
  (forall c, 0 <= c -> is_lim (fun x => RInt (mk k c) (1 / x) x) p_infty (l (2 * c))) ->
  is_lim (fun x => RInt (fun u => u ^ k * exp (- u ^ 2) * exp (- (/ (4 * u ^ 2)) * r ^ 2)) (1 / x) x) p_infty (l r).
Proof.
  intros Hr H. apply (is_lim_ext_loc (fun x => RInt (mk k (r / 2)) (1 / x) x)).
  - exists 0. intros x Hx. apply RInt_ext. intros u Hu. unfold mk. rewrite Ec_gauss; [symmetry; apply Rmult_assoc|].
    assert (0 < 1 / x) by (apply Rdiv_lt_0_compat; lra). apply Rgt_not_eq, (between_pos (1 / x) x u); lra.
  - replace (l r) with (l (2 * (r / 2))) by (f_equal; field). apply H. lra.
Qed.

Theorem C0_mixture r : 0 <= r ->
  is_lim (fun x => RInt (fun u => exp (- u ^ 2) * exp (- (/ (4 * u ^ 2)) * r ^ 2)) (1 / x) x) p_infty (sqrt PI / 2 * phiC0 r).
Proof.
  intros Hr. apply (is_lim_ext (fun x => RInt (fun u => u ^ 0 * exp (- u ^ 2) * exp (- (/ (4 * u ^ 2)) * r ^ 2)) (1 / x) x)).
  { intros x. apply RInt_ext. intros u _. simpl. lra. }
  exact (mixture_of_moment 0 (fun r => sqrt PI / 2 * phiC0 r) r Hr moment0).
Qed.

Theorem C2_mixture r : 0 <= r ->
  is_lim (fun x => RInt (fun u => u ^ 2 * exp (- u ^ 2) * exp (- (/ (4 * u ^ 2)) * r ^ 2)) (1 / x) x) p_infty (sqrt PI / 4 * phiC2 r).
Proof. intros Hr. exact (mixture_of_moment 2 (fun r => sqrt PI / 4 * phiC2 r) r Hr moment2). Qed.

Theorem C4_mixture r : 0 <= r ->
  is_lim (fun x => RInt (fun u => u ^ 4 * exp (- u ^ 2) * exp (- (/ (4 * u ^ 2)) * r ^ 2)) (1 / x) x) p_infty (3 * sqrt PI / 8 * phiC4 r).
Proof. intros Hr. exact (mixture_of_moment 4 (fun r => 3 * sqrt PI / 8 * phiC4 r) r Hr moment4). Qed.
