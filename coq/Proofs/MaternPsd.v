(* C03: the Gram matrices of C0RadialMatern, C2RadialMatern and C4RadialMatern (the library's default) are Schur multipliers
   (Proofs/SEPsd.v), hence PSD, for all n, dimensions, point sets and length scales.  By Proofs/MaternMixture.v,
   C_k phi_k(r) = lim_N int_{1/(N+1)}^{N+1} u^k exp(-u^2) exp(-(r^2/4)/u^2) du (k = 0, 2, 4; C_k > 0): for fixed u > 0 the integrand, as a
   matrix over a finite point set, is a non-negative multiple of a Gaussian kernel, and Schur multipliers are closed under Riemann
   integration over a parameter and under pointwise limits.  All entries use the same parameter interval [1/(N+1), N+1]. *)
From Coq Require Import Reals Psatz.
From Coquelicot Require Import Coquelicot.
From LV Require Import Lib.RBase Lib.Gauss Gen.GenCovariance Proofs.Hadamard Proofs.Covariance Proofs.SEPsd
  Proofs.MaternMixture.
Open Scope R_scope.

Lemma is_RInt_bigsum n (f : nat -> R -> R) a b (l : nat -> R) :
  (forall k, (k < n)%nat -> is_RInt (f k) a b (l k)) ->
  is_RInt (fun s => bigsum n (fun k => f k s)) a b (bigsum n l).
Proof.
  induction n as [|n IH]; intros H; simpl.
  - evar_last. apply (@is_RInt_const R_NormedModule a b 0). unfold scal; simpl; unfold mult; simpl; lra.
  - apply (is_RInt_plus (V := R_NormedModule) (fun s => bigsum n (fun k => f k s)) (f n)).
    + apply IH. intros k Hk. apply H. lia.
    + apply H. lia.
Qed.

(* for a fixed vector the quadratic form is a FINITE sum, so it commutes with RInt by linearity, and the integral of a non-negative
   function is non-negative: no Riemann sums *)
Lemma psd_RInt n (K : R -> nat -> nat -> R) a b : a <= b ->
  (forall s, a <= s <= b -> psdR n (K s)) ->
  (forall i j, (i < n)%nat -> (j < n)%nat -> ex_RInt (fun s => K s i j) a b) ->
  psdR n (fun i j => RInt (fun s => K s i j) a b).
Proof.
  intros Hab HK Hex v.
  apply (is_RInt_ge_0 (fun s => bigsum n (fun i => bigsum n (fun j => v i * K s i j * v j))) a b); [exact Hab| |].
  - apply (is_RInt_bigsum n (fun i s => bigsum n (fun j => v i * K s i j * v j)) a b
             (fun i => bigsum n (fun j => v i * RInt (fun s => K s i j) a b * v j))).
    intros i Hi.
    apply (is_RInt_bigsum n (fun j s => v i * K s i j * v j) a b (fun j => v i * RInt (fun s => K s i j) a b * v j)).
    intros j Hj.
    apply (is_RInt_ext (fun s => scal (v i * v j) (K s i j))).
    { intros s _. unfold scal; simpl. unfold mult; simpl. lra. }
    replace (v i * RInt (fun s => K s i j) a b * v j) with (scal (v i * v j) (RInt (fun s => K s i j) a b))
      by (unfold scal; simpl; unfold mult; simpl; ring).
    apply @is_RInt_scal. apply (@RInt_correct R_CompleteNormedModule). apply Hex; assumption.
  - intros s Hs. apply HK. lra.
Qed.

Lemma schur_RInt n (A : R -> nat -> nat -> R) a b : a <= b ->
  (forall s, a <= s <= b -> schur n (A s)) ->
  (forall i j, (i < n)%nat -> (j < n)%nat -> ex_RInt (fun s => A s i j) a b) ->
  schur n (fun i j => RInt (fun s => A s i j) a b).
Proof.
  intros Hab HA Hex B HB.
  apply (psd_ext n (fun i j => RInt (fun s => A s i j * B i j) a b)).
  - intros i j Hi Hj.
    rewrite (RInt_ext _ (fun s => scal (B i j) (A s i j))) by (intros s _; unfold scal; simpl; unfold mult; simpl; ring).
    rewrite (RInt_scal (V := R_CompleteNormedModule)) by (apply Hex; assumption).
    unfold scal; simpl. unfold mult; simpl. lra.
  - apply (psd_RInt n (fun s i j => A s i j * B i j) a b Hab).
    + intros s Hs. apply HA; assumption.
    + intros i j Hi Hj. apply (ex_RInt_ext (fun s => scal (B i j) (A s i j))).
      { intros s _. unfold scal; simpl. unfold mult; simpl. lra. }
      apply @ex_RInt_scal. apply Hex; assumption.
Qed.

(* the Gaussian kernels exp(-s |u_a - u_b|^2), s >= 0 *)
Lemma gauss_scale_schur n m u s : 0 <= s -> schur n (fun a b => exp (- s * du2 m u a b)).
Proof.
  intros Hs. apply (schur_ext n (gaussu m (fun a k => sqrt (2 * s) * u a k))); [|apply gaussu_schur].
  intros a b _ _. unfold gaussu, du2. f_equal.
  rewrite (bigsum_ext m _ (fun k => (2 * s) * (u a k - u b k) ^ 2)).
  - rewrite bigsum_scal. lra.
  - intros k _. transitivity ((sqrt (2 * s) * sqrt (2 * s)) * (u a k - u b k) ^ 2); [lra|]. rewrite sqrt_sqrt by lra. reflexivity.
Qed.

(* the integrand of the mixture, as a matrix: u^k E_c(u) with c = r_ab / 2 *)
Definition cab (m : nat) (u : nat -> nat -> R) (a b : nat) : R := sqrt (du2 m u a b) / 2.

Lemma cab_double m u a b : 2 * cab m u a b = sqrt (du2 m u a b).
Proof. unfold cab. lra. Qed.

Lemma cab_sq m u a b : cab m u a b ^ 2 = du2 m u a b / 4.
Proof. unfold cab. transitivity (sqrt (du2 m u a b) * sqrt (du2 m u a b) / 4); [lra|]. rewrite sqrt_sqrt by apply du2_nonneg. reflexivity. Qed.

Lemma mix_integrand_schur n m u (k : nat) t : 0 < t -> schur n (fun a b => mk k (cab m u a b) t).
Proof.
  intros Ht.
  apply (schur_ext n (fun a b => (t ^ k * exp (- t ^ 2)) * exp (- (/ (4 * t ^ 2)) * du2 m u a b))).
  - intros a b _ _. unfold mk, Ec. rewrite cab_sq. rewrite Rmult_assoc, <- exp_plus. f_equal. f_equal. field. lra.
  - apply schur_scale.
    + apply Rmult_le_pos; [apply pow_le; lra|left; apply exp_pos].
    + apply gauss_scale_schur. left. apply Rinv_0_lt_compat. nra.
Qed.

Lemma mix_integrand_ex_RInt (k : nat) c a b : 0 < a -> 0 < b -> ex_RInt (mk k c) a b.
Proof.
  intros Ha Hb. apply ex_RInt_pos; [exact Ha|exact Hb|]. intros x Hx.
  apply (continuous_mult (fun t => t ^ k) (Ec c)).
  - apply (ex_derive_continuous (fun t => t ^ k) x). auto_derive. exact I.
  - apply Ec_cont. lra.
Qed.

(* along the sequence x = N + 1 *)
Lemma seq_of_lim (f : R -> R) (l : Rbar) : is_lim f p_infty l -> is_lim_seq (fun N => f (INR N + 1)) l.
Proof.
  intros H. apply (is_lim_comp_seq f (fun N => INR N + 1) p_infty l H).
  - exists 0%nat. intros n _. discriminate.
  - apply (is_lim_seq_ext (fun n => INR (S n))); [intros n; apply S_INR|].
    apply -> is_lim_seq_incr_1. apply is_lim_seq_INR.
Qed.

Theorem mixture_schur (k : nat) (C : R) (phi : R -> R) :
  0 < C ->
  (forall c, 0 <= c -> is_lim (fun x => RInt (mk k c) (1 / x) x) p_infty (C * phi (2 * c))) ->
  forall n m u, schur n (fun a b => phi (sqrt (du2 m u a b))).
Proof.
  intros HC Hmix n m u.
  apply (schur_ext n (fun a b => / C * (C * phi (2 * cab m u a b)))).
  { intros a b _ _. rewrite cab_double. field. lra. }
  apply schur_scale; [left; apply Rinv_0_lt_compat, HC|].
  apply (schur_lim n (fun N a b => RInt (mk k (cab m u a b)) (1 / (INR N + 1)) (INR N + 1))).
  - intros N. pose proof (pos_INR N) as HN.
    assert (H1 : 0 < 1 / (INR N + 1)) by (apply Rdiv_lt_0_compat; lra).
    assert (H2 : 1 / (INR N + 1) <= INR N + 1) by (apply Rle_div_l; nra).
    apply (schur_RInt n (fun t a b => mk k (cab m u a b) t)); [exact H2| |].
    + intros t Ht. apply mix_integrand_schur. lra.
    + intros a b _ _. apply mix_integrand_ex_RInt; lra.
  - intros a b _ _.
    apply (seq_of_lim (fun x => RInt (mk k (cab m u a b)) (1 / x) x)).
    apply Hmix. unfold cab. pose proof (sqrt_pos (du2 m u a b)). lra.
Qed.

Theorem C0_profile_schur n m u : schur n (fun a b => phiC0 (sqrt (du2 m u a b))).
Proof. apply (mixture_schur 0 (sqrt PI / 2) phiC0); [pose proof sqrtPI_pos; lra|exact moment0]. Qed.

Theorem C2_profile_schur n m u : schur n (fun a b => phiC2 (sqrt (du2 m u a b))).
Proof. apply (mixture_schur 2 (sqrt PI / 4) phiC2); [pose proof sqrtPI_pos; lra|exact moment2]. Qed.

Theorem C4_profile_schur n m u : schur n (fun a b => phiC4 (sqrt (du2 m u a b))).
Proof. apply (mixture_schur 4 (3 * sqrt PI / 8) phiC4); [pose proof sqrtPI_pos; lra|exact moment4]. Qed.

Lemma phiC4_sqrt d : 0 <= d -> (1 + sqrt d + 1 / 3 * d) * exp (- sqrt d) = phiC4 (sqrt d).
Proof. exact (valC4_profile d). Qed.

(* the generated entry points of the three kernels are radial (SEPsd.radial_kernel) *)

Lemma C0_kernel : radial_kernel phiC0 C0RadialMatern._covariance C0RadialMatern.covariance
                    C0RadialMatern.kernel_matrix_cross C0RadialMatern.kernel_matrix_sym.
Proof.
  split; intros.
  - unfold C0RadialMatern._covariance. rewrite pair_d2. reflexivity.
  - unfold C0RadialMatern.covariance. rewrite pair_d2. reflexivity.
  - unfold C0RadialMatern.kernel_matrix_cross. rewrite cross_d2. reflexivity.
  - reflexivity.
Qed.

Lemma C2_kernel : radial_kernel phiC2 C2RadialMatern._covariance C2RadialMatern.covariance
                    C2RadialMatern.kernel_matrix_cross C2RadialMatern.kernel_matrix_sym.
Proof.
  split; intros.
  - unfold C2RadialMatern._covariance. rewrite pair_d2. reflexivity.
  - unfold C2RadialMatern.covariance. rewrite pair_d2. reflexivity.
  - unfold C2RadialMatern.kernel_matrix_cross. rewrite cross_d2. reflexivity.
  - reflexivity.
Qed.

Lemma C4_kernel : radial_kernel phiC4 C4RadialMatern._covariance C4RadialMatern.covariance
                    C4RadialMatern.kernel_matrix_cross C4RadialMatern.kernel_matrix_sym.
Proof.
  split; intros.
  - unfold C4RadialMatern._covariance. rewrite pair_d2. unfold phiC4, sdist. f_equal. lra.
  - unfold C4RadialMatern.covariance. rewrite pair_d2. unfold phiC4, sdist. f_equal. f_equal. lra.
  - unfold C4RadialMatern.kernel_matrix_cross. rewrite cross_d2, phiC4_sqrt by apply sumsq_nonneg. reflexivity.
  - unfold C4RadialMatern.kernel_matrix_sym. rewrite phiC4_sqrt by apply sumsq_nonneg. reflexivity.
Qed.
