(* C12, metric normalisation (Model.Midpoint).  The constructor always returns an object, and the value map of an object is
   affine: v |-> n * s * (v - m), n = +-1 the sign of the objective, s > 0 (wf_for).  The order, inverse and variance laws are
   those of such maps; the span, lie and view laws read the min / max of the non-failed values.  Between the lie and the
   view stand the facts about sequence / map2 / select that the view (and Wiring.v, HyperOpt.v) needs; the end shows that
   the values stored with failed observations do not reach the view. *)
From Coq Require Import List Qabs Lia Lqa.
From LV Require Import Model.Midpoint.
Import ListNotations.
Open Scope Q_scope.

Lemma Qltb_true x y : Qltb x y = true <-> x < y.
Proof.
  unfold Qltb. rewrite negb_true_iff. split; intro H.
  - apply Qnot_le_lt. intro L. apply Qle_bool_iff in L. congruence.
  - destruct (Qle_bool y x) eqn:E; auto. apply Qle_bool_iff in E. lra.
Qed.
Lemma Qltb_false x y : Qltb x y = false <-> y <= x.
Proof. unfold Qltb. rewrite negb_false_iff. apply Qle_bool_iff. Qed.

Lemma Qminb_spec a b : (a <= b /\ Qminb a b = a) \/ (b < a /\ Qminb a b = b).
Proof.
  unfold Qminb. destruct (Qle_bool a b) eqn:E.
  - left. apply Qle_bool_iff in E. auto.
  - right. split; auto. apply Qltb_true. unfold Qltb. now rewrite E.
Qed.
Lemma Qmaxb_spec a b : (a <= b /\ Qmaxb a b = b) \/ (b < a /\ Qmaxb a b = a).
Proof.
  unfold Qmaxb. destruct (Qle_bool a b) eqn:E.
  - left. apply Qle_bool_iff in E. auto.
  - right. split; auto. apply Qltb_true. unfold Qltb. now rewrite E.
Qed.

Lemma Qdiv_safe_some a b q : Qdiv_safe a b = Some q -> ~ b == 0 /\ q = a / b.
Proof.
  unfold Qdiv_safe. destruct (Qeq_bool b 0) eqn:E; [discriminate|].
  intro H. injection H as <-. split; auto. intro Z. apply Qeq_bool_iff in Z. congruence.
Qed.
Lemma Qdiv_safe_ok a b : ~ b == 0 -> Qdiv_safe a b = Some (a / b).
Proof.
  intro H. unfold Qdiv_safe. destruct (Qeq_bool b 0) eqn:E; auto. apply Qeq_bool_iff in E. contradiction.
Qed.
Lemma Qdiv_safe_pos a b : 0 < b -> Qdiv_safe a b = Some (a / b).
Proof. intro H. apply Qdiv_safe_ok. intro Z. rewrite Z in H. lra. Qed.

Lemma Qdiv_pos a b : 0 < a -> 0 < b -> 0 < a / b.
Proof. intros Ha Hb. apply Qlt_shift_div_l; auto. lra. Qed.

Lemma In_select {A} (mask : list bool) (l : list A) v :
  In v (select mask l) <-> exists k, nth_error mask k = Some true /\ nth_error l k = Some v.
Proof.
  revert l. induction mask as [|b m IH]; intros l.
  - simpl. split; [tauto|]. intros [k [H _]]. destruct k; discriminate.
  - destruct l as [|x r].
    + simpl. split; [tauto|]. intros [k [_ H]]. destruct k; discriminate.
    + simpl. destruct b.
      * simpl. rewrite IH. split.
        -- intros [->|[k Hk]]; [exists O; auto | exists (S k); auto].
        -- intros [[|k] [H1 H2]]; simpl in *; [left; congruence | right; eauto].
      * rewrite IH. split.
        -- intros [k Hk]. exists (S k); auto.
        -- intros [[|k] [H1 H2]]; simpl in *; [discriminate | eauto].
Qed.

(* folding a function that picks the R-smaller of its two arguments yields an element R-below all others:
   minimum for R = <=, maximum for R = >= *)
Section FoldPick.
  Variables (f : Q -> Q -> Q) (R : Q -> Q -> Prop).
  Hypothesis Rrefl : forall a, R a a.
  Hypothesis Rtrans : forall a b c, R a b -> R b c -> R a c.
  Hypothesis pick : forall a b, (f a b = a \/ f a b = b) /\ R (f a b) a /\ R (f a b) b.

  Lemma fold_pick r : forall x, In (fold_left f r x) (x :: r) /\ forall v, In v (x :: r) -> R (fold_left f r x) v.
  Proof.
    induction r as [|y r IH]; intro x; simpl.
    - split; [auto|]. intros v [<-|[]]. apply Rrefl.
    - destruct (IH (f x y)) as [I L]. destruct (pick x y) as (E & Lx & Ly).
      pose proof (L _ (or_introl eq_refl)) as L0. split.
      + destruct I as [I|I]; [|auto]. rewrite <- I. destruct E as [-> | ->]; auto.
      + intros v [<-|[<-|Hv]]; [exact (Rtrans _ _ _ L0 Lx) | exact (Rtrans _ _ _ L0 Ly) | apply L; right; exact Hv].
  Qed.
End FoldPick.

Lemma list_min_spec x r : In (list_min x r) (x :: r) /\ forall v, In v (x :: r) -> list_min x r <= v.
Proof.
  apply (fold_pick Qminb Qle Qle_refl Qle_trans). intros a b.
  destruct (Qminb_spec a b) as [[L ->]|[L ->]]; repeat split; auto; lra.
Qed.
Lemma list_max_spec x r : In (list_max x r) (x :: r) /\ forall v, In v (x :: r) -> v <= list_max x r.
Proof.
  apply (fold_pick Qmaxb (fun a b => b <= a) Qle_refl (fun a b c H1 H2 => Qle_trans c b a H2 H1)). intros a b.
  destruct (Qmaxb_spec a b) as [[L ->]|[L ->]]; repeat split; auto; lra.
Qed.
Lemma list_min_le_max x r : list_min x r <= list_max x r.
Proof.
  apply Qle_trans with x; [apply list_min_spec | apply list_max_spec]; left; reflexivity.
Qed.

Definition nonfail (vals : list Q) (fails : list bool) : list Q := select (map negb fails) vals.

(* what each arm of the constructor leaves in the object *)
Definition arm (i : info) (x : Q) (r : list Q) : Prop :=
  let mn := list_min x r in
  let mx := list_max x r in
  (i_branch i = BRegular /\ MIN_HALF_WIDTH <= (mx - mn) * (1 # 2) /\
     i_mid i = (mx + mn) * (1 # 2) /\ i_scale i = (2 * SCALE_FACTOR) / (mx - mn)) \/
  (i_branch i = BDegenBig /\ (mx - mn) * (1 # 2) < MIN_HALF_WIDTH /\ 1 < Qminb (Qabs mx) (Qabs mn) /\
     i_mid i = mn /\ i_scale i = 1 / Qmaxb (Qabs mn) (Qabs mx)) \/
  (i_branch i = BDegenSmall /\ (mx - mn) * (1 # 2) < MIN_HALF_WIDTH /\ Qminb (Qabs mx) (Qabs mn) <= 1 /\
     i_mid i = 0 /\ i_scale i = 1).

Lemma big_pos a b : 1 < Qminb (Qabs a) (Qabs b) -> 0 < Qmaxb (Qabs b) (Qabs a).
Proof.
  intro H. destruct (Qminb_spec (Qabs a) (Qabs b)) as [[L E]|[L E]]; rewrite E in H;
  destruct (Qmaxb_spec (Qabs b) (Qabs a)) as [[L' E']|[L' E']]; rewrite E'; lra.
Qed.
Lemma wide_pos mx mn : MIN_HALF_WIDTH <= (mx - mn) * (1 # 2) -> 0 < mx - mn.
Proof. intro W. assert (0 < MIN_HALF_WIDTH) by reflexivity. lra. Qed.

(* what the constructor leaves in the object: the non-failed values, the sign, and what the arm taken computed *)
Definition constructed (vals : list Q) (fails : list bool) (o : objective) (i : info) : Prop :=
  i_nonfail i = nonfail vals fails /\ i_negate i = negate_of o /\
  match nonfail vals fails with
  | [] => i_skip i = true /\ i_branch i = BSkip
  | x :: r => i_skip i = false /\ arm i x r
  end.

(* the constructor never divides by zero, so it always returns an object *)
Lemma smmi_spec vals fails o : exists i, smmi vals fails o = Some i /\ constructed vals fails o i.
Proof.
  unfold smmi, constructed, nonfail, arm. destruct (select (map negb fails) vals) as [|x r]; [eexists; repeat split|].
  destruct (Qltb ((list_max x r - list_min x r) * (1 # 2)) MIN_HALF_WIDTH) eqn:W.
  - apply Qltb_true in W. destruct (Qltb 1 (Qminb (Qabs (list_max x r)) (Qabs (list_min x r)))) eqn:B.
    + apply Qltb_true in B. rewrite Qdiv_safe_pos by (apply big_pos; exact B).
      eexists. repeat split. right. left. auto.
    + apply Qltb_false in B. eexists. repeat split. right. right. auto.
  - apply Qltb_false in W. rewrite Qdiv_safe_pos by (apply wide_pos; exact W).
    eexists. repeat split. left. auto.
Qed.

Lemma smmi_cases vals fails o i : smmi vals fails o = Some i -> constructed vals fails o i.
Proof. intro H. destruct (smmi_spec vals fails o) as (i' & E & S). rewrite H in E. injection E as <-. exact S. Qed.

Lemma arm_scale_pos i x r : arm i x r -> 0 < i_scale i.
Proof.
  intros [(_ & W & _ & ->) | [(_ & _ & B & _ & ->) | (_ & _ & _ & _ & ->)]].
  - apply Qdiv_pos; [reflexivity | apply wide_pos; exact W].
  - apply Qdiv_pos; [reflexivity | apply big_pos; exact B].
  - reflexivity.
Qed.

Lemma negate_sq o : negate_of o * negate_of o == 1.
Proof. destruct o; reflexivity. Qed.

(* what the theorems below need of an object: its sign is the objective's and, unless it is in skip mode, its scale is
   positive.  Every constructed object is well-formed (smmi_wf, mmi_wf). *)
Definition wf_for (o : objective) (i : info) : Prop :=
  i_negate i = negate_of o /\ (i_skip i = false -> 0 < i_scale i).

Lemma smmi_wf vals fails o i : smmi vals fails o = Some i -> wf_for o i.
Proof.
  intro H. apply smmi_cases in H. destruct H as (_ & N & C). split; [exact N|].
  destruct (nonfail vals fails); [intro S; destruct C; congruence | intros _; eapply arm_scale_pos; apply C].
Qed.

Lemma set_skip_wf o b i : wf_for o i -> wf_for o (set_skip b i).
Proof.
  intros [N S]. split; simpl; auto. intro H. apply orb_false_iff in H. tauto.
Qed.

(* a is better than b in the user's sense *)
Definition better (o : objective) (a b : Q) : Prop := match o with Minimize => a < b | _ => b < a end.

Lemma better_b_iff o a b : better_b o a b = true <-> better o a b.
Proof. destruct o; simpl; apply Qltb_true. Qed.
Lemma better_sign o a b : better o a b <-> negate_of o * a < negate_of o * b.
Proof. destruct o; simpl; lra. Qed.

(* v |-> n * s * (v - m) with n * n = 1 and s > 0, and its inverse y |-> n * y / s + m: order, both inverse laws and
   the squared slope, once for all arms and objectives *)
Section Affine.
  Variables n s m : Q.
  Hypothesis Hn : n * n == 1.
  Hypothesis Hs : 0 < s.

  Lemma affine_lt a b : n * a < n * b <-> n * s * (a - m) < n * s * (b - m).
  Proof. split; intro H; nra. Qed.
  Lemma affine_undo v : n * (n * s * (v - m)) / s + m == v.
  Proof. transitivity (n * n * (v - m) + m); [field; lra | rewrite Hn; lra]. Qed.
  Lemma affine_redo y : n * s * (n * y / s + m - m) == y.
  Proof. transitivity (n * n * y); [field; lra | rewrite Hn; lra]. Qed.
  Lemma affine_sq a b :
    (n * s * (a - m) - n * s * (b - m)) * (n * s * (a - m) - n * s * (b - m)) == s * s * ((a - b) * (a - b)).
  Proof. transitivity (n * n * (s * s * ((a - b) * (a - b)))); [lra | rewrite Hn; lra]. Qed.
End Affine.

(* skip mode is slope 1 around 0 *)
Definition slope (i : info) : Q := if i_skip i then 1 else i_scale i.
Definition centre (i : info) : Q := if i_skip i then 0 else i_mid i.

Lemma rel_value_affine i v : rel_value i v == i_negate i * slope i * (v - centre i).
Proof. unfold rel_value, slope, centre. destruct (i_skip i); lra. Qed.
Lemma slope_pos o i : wf_for o i -> 0 < slope i.
Proof. intros [_ S]. unfold slope. destruct (i_skip i); [reflexivity | exact (S eq_refl)]. Qed.
Lemma undo_value_affine i y : 0 < slope i ->
  exists v, undo_value i y = Some v /\ v == i_negate i * y / slope i + centre i.
Proof.
  unfold undo_value, slope, centre. destruct (i_skip i); intro S.
  - eexists. split; [reflexivity | field].
  - rewrite Qdiv_safe_pos by exact S. eexists. split; reflexivity.
Qed.

Theorem order_law o i a b : wf_for o i -> (better o a b <-> rel_value i a < rel_value i b).
Proof.
  intro W. rewrite better_sign, !rel_value_affine, <- (proj1 W). apply affine_lt. exact (slope_pos o i W).
Qed.

Corollary order_never_flipped o i a b : wf_for o i -> better o a b -> ~ rel_value i b <= rel_value i a.
Proof.
  intros W H. apply (order_law o i a b W) in H. lra.
Qed.

Corollary equal_values_equal_scaled o i a b : wf_for o i -> a == b -> rel_value i a == rel_value i b.
Proof.
  intros _ E. rewrite !rel_value_affine, E. reflexivity.
Qed.

Theorem undo_relative_id o i v : wf_for o i -> exists v', undo_value i (rel_value i v) = Some v' /\ v' == v.
Proof.
  intro W. pose proof (slope_pos o i W) as S. destruct (undo_value_affine i (rel_value i v) S) as (v' & E & Hv').
  exists v'. split; [exact E|]. rewrite Hv', rel_value_affine, (proj1 W).
  apply affine_undo; [apply negate_sq | exact S].
Qed.

Theorem relative_undo_id o i y : wf_for o i -> exists v, undo_value i y = Some v /\ rel_value i v == y.
Proof.
  intro W. pose proof (slope_pos o i W) as S. destruct (undo_value_affine i y S) as (v & E & Hv).
  exists v. split; [exact E|]. rewrite rel_value_affine, Hv, (proj1 W).
  apply affine_redo; [apply negate_sq | exact S].
Qed.

Lemma regular_iff vals fails o i : smmi vals fails o = Some i ->
  (i_branch i = BRegular <-> exists a b, In a (nonfail vals fails) /\ In b (nonfail vals fails) /\ 2 * MIN_HALF_WIDTH <= a - b).
Proof.
  intro H. apply smmi_cases in H. destruct H as [_ [_ H]]. destruct (nonfail vals fails) as [|x r].
  - destruct H as [_ B]. split; [congruence|]. intros [a [b [[] _]]].
  - destruct H as [_ A]. destruct (list_min_spec x r) as [Imn Lmn]. destruct (list_max_spec x r) as [Imx Lmx].
    split.
    + intro B. exists (list_max x r), (list_min x r). repeat split; auto.
      destruct A as [[_ [W _]] | [[B' _] | [B' _]]]; try congruence. lra.
    + intros [a [b [Ia [Ib W]]]]. specialize (Lmx a Ia). specialize (Lmn b Ib).
      destruct A as [[B _] | [[_ [W' _]] | [_ [W' _]]]]; auto; lra.
Qed.

(* in the regular arm the value map sends [mn, mx] onto [-0.1, 0.1], reversed when the sign is -1 *)
Theorem span_exact vals fails o i : smmi vals fails o = Some i -> i_branch i = BRegular ->
  (forall v, In v (nonfail vals fails) -> -(1 # 10) <= rel_value i v <= 1 # 10) /\
  (exists lo, In lo (nonfail vals fails) /\ rel_value i lo == -(1 # 10)) /\
  (exists hi, In hi (nonfail vals fails) /\ rel_value i hi == 1 # 10).
Proof.
  intros H B. apply smmi_cases in H. destruct H as [_ [N H]]. destruct (nonfail vals fails) as [|x r].
  - destruct H as [_ B']. congruence.
  - destruct H as [K A]. destruct (list_min_spec x r) as [Imn Lmn]. destruct (list_max_spec x r) as [Imx Lmx].
    destruct A as [[_ [W [M S]]] | [[B' _] | [B' _]]]; try congruence.
    set (mn := list_min x r) in *. set (mx := list_max x r) in *. pose proof (wide_pos _ _ W) as P.
    assert (SW : i_scale i * (mx - mn) == 2 # 10) by (rewrite S; unfold SCALE_FACTOR; field; lra).
    assert (SP : 0 < i_scale i) by (rewrite S; apply Qdiv_pos; [reflexivity | exact P]).
    unfold rel_value. rewrite K, N, M. set (s := i_scale i) in *. set (m := (mx + mn) * (1 # 2)).
    (* before the sign is applied: s * (v - m) runs from -0.1 at mn to 0.1 at mx *)
    assert (Emn : s * (mn - m) == -(1 # 10)) by (unfold m; lra).
    assert (Emx : s * (mx - m) == 1 # 10) by (unfold m; lra).
    assert (Bd : forall v, In v (x :: r) -> -(1 # 10) <= s * (v - m) <= 1 # 10).
    { intros v Iv. specialize (Lmn v Iv). specialize (Lmx v Iv). split; nra. }
    clear -Emn Emx Bd Imn Imx. split; [|split].
    + intros v Iv. specialize (Bd v Iv). destruct o; cbn [negate_of]; lra.
    + destruct o; cbn [negate_of]; [exists mn | exists mx | exists mx]; (split; [assumption | lra]).
    + destruct o; cbn [negate_of]; [exists mx | exists mn | exists mn]; (split; [assumption | lra]).
Qed.

(* square of the slope of the value map, and the least variance the object reports (the max in `rel_var`) *)
Definition var_factor (i : info) : Q := if i_skip i then 1 else i_scale i * i_scale i.
Definition var_floor (i : info) : Q := if i_skip i then SKIP_VALUE_VAR else MIN_VALUE_VAR.

Lemma var_factor_slope i : var_factor i == slope i * slope i.
Proof. unfold var_factor, slope. destruct (i_skip i); reflexivity. Qed.

Theorem value_scale_squared o i a b : wf_for o i ->
  (rel_value i a - rel_value i b) * (rel_value i a - rel_value i b) == var_factor i * ((a - b) * (a - b)).
Proof.
  intros [N _]. rewrite !rel_value_affine, var_factor_slope, N. apply affine_sq. apply negate_sq.
Qed.

Theorem variance_scaling i w :
  MIN_VALUE_VAR <= rel_var i w /\ var_floor i <= rel_var i w /\ w * var_factor i <= rel_var i w /\
  (rel_var i w == w * var_factor i \/ rel_var i w == var_floor i).
Proof.
  unfold rel_var, var_factor, var_floor. assert (F : MIN_VALUE_VAR <= SKIP_VALUE_VAR) by discriminate.
  destruct (i_skip i).
  - destruct (Qmaxb_spec w SKIP_VALUE_VAR) as [[L ->]|[L ->]]; lra.
  - destruct (Qmaxb_spec (w * (i_scale i * i_scale i)) MIN_VALUE_VAR) as [[L ->]|[L ->]]; lra.
Qed.

Theorem variance_undo o i w : wf_for o i -> var_floor i <= w * var_factor i ->
  exists w', undo_var i (rel_var i w) = Some w' /\ w' == w.
Proof.
  intros [_ S]. unfold undo_var, rel_var, var_factor, var_floor. destruct (i_skip i); intro F.
  - eexists; split; [reflexivity|]. destruct (Qmaxb_spec w SKIP_VALUE_VAR) as [[L ->]|[L ->]]; lra.
  - specialize (S eq_refl). assert (Z : 0 < i_scale i * i_scale i) by nra.
    rewrite Qdiv_safe_pos by exact Z. eexists; split; [reflexivity|].
    destruct (Qmaxb_spec (w * (i_scale i * i_scale i)) MIN_VALUE_VAR) as [[L ->]|[L ->]].
    + assert (E' : w * (i_scale i * i_scale i) == MIN_VALUE_VAR) by lra. rewrite <- E'. field. lra.
    + field. lra.
Qed.

Theorem lie_is_worst vals fails o i : smmi vals fails o = Some i -> nonfail vals fails <> [] ->
  exists l, lie_value i LieMin = Some l /\ In l (nonfail vals fails) /\
    (forall v, In v (nonfail vals fails) -> ~ better o l v) /\
    (forall v, In v (nonfail vals fails) -> rel_value i v <= rel_value i l).
Proof.
  intros H NE. pose proof (smmi_wf _ _ _ _ H) as W. apply smmi_cases in H. destruct H as [NF [N _]].
  unfold lie_value. rewrite NF, N. destruct (nonfail vals fails) as [|x r]; [congruence|].
  destruct (list_min_spec x r) as [Imn Lmn]. destruct (list_max_spec x r) as [Imx Lmx].
  (* the lie is the largest value when minimising, the smallest otherwise: no value is better *)
  assert (G : exists l, Some (if Qeq_bool (negate_of o) (-1) then list_min x r else list_max x r) = Some l /\ In l (x :: r) /\
                forall v, In v (x :: r) -> ~ better o l v).
  { destruct o; simpl; eexists; (split; [reflexivity|]); (split; [eassumption|]); intros v Iv B;
      [specialize (Lmx v Iv) | specialize (Lmn v Iv) | specialize (Lmn v Iv)]; lra. }
  destruct G as (l & E & Il & Hl). exists l. repeat split; auto.
  intros v Iv. destruct (Qlt_le_dec (rel_value i l) (rel_value i v)) as [C|C]; auto.
  apply (order_law o i l v W) in C. destruct (Hl v Iv C).
Qed.

Lemma lie_default vals fails o i m : smmi vals fails o = Some i -> nonfail vals fails = [] ->
  lie_value i m = Some DEFAULT_LIE /\ i_skip i = true /\ rel_value i DEFAULT_LIE == negate_of o * DEFAULT_LIE.
Proof.
  intros H NE. apply smmi_cases in H. destruct H as [NF [N H]]. rewrite NE in *. destruct H as [K _].
  unfold lie_value, rel_value. rewrite NF, K, N. repeat split; reflexivity.
Qed.

Lemma lie_total i m : lie_value i m <> None.
Proof.
  unfold lie_value. destruct (i_nonfail i) as [|x r]; [discriminate|]. destruct m; discriminate.
Qed.

Theorem no_nan vals fails o : exists i, smmi vals fails o = Some i /\
  (forall y, undo_value i y <> None) /\ (forall w, undo_var i w <> None) /\ (forall m, lie_value i m <> None).
Proof.
  destruct (smmi_spec vals fails o) as (i & H & _). exists i. split; [exact H|].
  pose proof (smmi_wf _ _ _ _ H) as W. repeat split.
  - intro y. destruct (undo_value_affine i y (slope_pos o i W)) as (v & -> & _). discriminate.
  - intro w. unfold undo_var. destruct (i_skip i) eqn:K; [discriminate|]. pose proof (proj2 W K) as S.
    rewrite Qdiv_safe_pos by nra. discriminate.
  - apply lie_total.
Qed.

Lemma sequence_some {A} (l : list (option A)) r : sequence l = Some r -> l = map Some r.
Proof.
  revert r. induction l as [|[x|] l IH]; intros r H; simpl in H.
  - injection H as <-. reflexivity.
  - destruct (sequence l) as [r'|]; [|discriminate]. injection H as <-. simpl. f_equal. auto.
  - discriminate.
Qed.
Lemma sequence_map_Some {A B} (g : A -> B) l : sequence (map (fun x => Some (g x)) l) = Some (map g l).
Proof. induction l as [|x l IH]; simpl; [reflexivity | now rewrite IH]. Qed.

Lemma length_map2 {A B C} (f : A -> B -> C) a : forall b, length (map2 f a b) = Nat.min (length a) (length b).
Proof. induction a as [|x a IH]; intros [|y b]; simpl; auto. Qed.
Lemma nth_map2 {A B C} (f : A -> B -> C) a : forall b k da db dc, (k < length a)%nat -> (k < length b)%nat ->
  nth k (map2 f a b) dc = f (nth k a da) (nth k b db).
Proof.
  induction a as [|x a IH]; intros [|y b] [|k] da db dc Ha Hb; simpl in *; try lia; auto.
  apply IH; lia.
Qed.
Lemma nth_map' {A B} (f : A -> B) l k da db : (k < length l)%nat -> nth k (map f l) db = f (nth k l da).
Proof. intro H. rewrite (nth_indep _ db (f da)) by (rewrite map_length; auto). apply map_nth. Qed.

Lemma select_map {A B} (f : A -> B) mask : forall l, select mask (map f l) = map f (select mask l).
Proof.
  induction mask as [|b m IH]; intros [|x l]; simpl; auto. destruct b; simpl; rewrite IH; auto.
Qed.

Lemma existsb_const {A} (f : A -> bool) l b a : (forall x, In x l -> f x = b) -> In a l -> existsb f l = b.
Proof.
  intros H Ha. destruct b; [apply existsb_exists; eauto|].
  destruct (existsb f l) eqn:E; [|reflexivity]. apply existsb_exists in E. destruct E as (x & Hx & Fx).
  rewrite (H x Hx) in Fx. discriminate.
Qed.

Lemma length_pick {A} (d : A) ix l : length (pick d ix l) = length ix.
Proof. apply map_length. Qed.
Lemma nth_pick {A} (d : A) ix l j : (j < length ix)%nat -> nth j (pick d ix l) d = nth (nth j ix O) l d.
Proof. apply (nth_map' (fun k => nth k l d)). Qed.
Lemma column_pick ix vals j : (j < length ix)%nat -> column j (map (pick 0 ix) vals) = column (nth j ix O) vals.
Proof.
  intro H. unfold column. rewrite map_map. apply map_ext. intro r. apply nth_pick. exact H.
Qed.

Definition dinfo : info := mkinfo true BSkip 1 0 1 [].

(* the object the constructor returns, and its constant-liar-min lie: both always exist *)
Definition info_of (vals : list Q) (fails : list bool) (o : objective) : info :=
  match smmi vals fails o with Some i => i | None => dinfo end.
Definition lie_of (i : info) : Q := match lie_value i LieMin with Some l => l | None => 0 end.

Lemma smmi_info_of vals fails o : smmi vals fails o = Some (info_of vals fails o).
Proof. unfold info_of. destruct (smmi_spec vals fails o) as (i & -> & _). reflexivity. Qed.
Lemma lie_value_lie_of i : lie_value i LieMin = Some (lie_of i).
Proof. unfold lie_of. destruct (lie_value i LieMin) eqn:E; [reflexivity | destruct (lie_total _ _ E)]. Qed.
Lemma lie_row_min infos : lie_row infos LieMin = Some (map lie_of infos).
Proof.
  unfold lie_row. rewrite (map_ext _ (fun i => Some (lie_of i))) by exact lie_value_lie_of. apply sequence_map_Some.
Qed.

(* the skip flag of a column's object depends on the failure mask only *)
Lemma column_skip k vals fails o i : smmi (column k vals) fails o = Some i ->
  i_skip i = match select (map negb fails) vals with [] => true | _ => false end.
Proof.
  intro H. apply smmi_cases in H. destruct H as (_ & _ & H). unfold nonfail, column in H. rewrite select_map in H.
  destruct (select (map negb fails) vals); apply H.
Qed.

Lemma set_skip_same i : set_skip (i_skip i) i = i.
Proof. destruct i as [s b n m c nf]. unfold set_skip. simpl. now rewrite orb_diag. Qed.

(* The multi-metric object is exactly the tuple of single-metric objects of its columns: all metrics see the same
   failures, so they are in skip mode together and the force_skip synchronisation changes nothing. *)
Theorem mmi_is_columnwise m vals fails objs :
  exists infos, mmi m vals fails objs = Some infos /\ length infos = m /\
    forall k, (k < m)%nat ->
      smmi (column k vals) fails (obj_at objs k) = Some (nth k infos dinfo) /\
      i_skip (nth k infos dinfo) = m_skip infos.
Proof.
  set (g := fun k => info_of (column k vals) fails (obj_at objs k)). set (infos := map g (seq 0 m)).
  set (b := match select (map negb fails) vals with [] => true | _ => false end).
  assert (ALL : forall i, In i infos -> i_skip i = b).
  { intros i Hi. apply in_map_iff in Hi. destruct Hi as (k & <- & _).
    exact (column_skip k vals fails _ _ (smmi_info_of _ _ _)). }
  assert (EX : forall i, In i infos -> existsb i_skip infos = i_skip i).
  { intros i Hi. rewrite (ALL i Hi). exact (existsb_const i_skip infos b i ALL Hi). }
  assert (L : length infos = m) by (unfold infos; rewrite map_length; apply seq_length).
  exists infos. split; [|split; [exact L|]].
  - unfold mmi. rewrite (map_ext _ (fun k => Some (g k))) by (intro k; apply smmi_info_of).
    rewrite sequence_map_Some. fold infos. f_equal. rewrite <- (map_id infos) at 3. apply map_ext_in.
    intros a Ha. rewrite (EX a Ha). apply set_skip_same.
  - intros k Hk. split; [|symmetry; apply EX, nth_In; congruence].
    unfold infos. rewrite (nth_map' g _ k O) by (rewrite seq_length; exact Hk). rewrite seq_nth by exact Hk.
    apply smmi_info_of.
Qed.

Corollary mmi_wf m vals fails objs infos k : mmi m vals fails objs = Some infos -> (k < m)%nat ->
  wf_for (obj_at objs k) (nth k infos dinfo).
Proof.
  intros H Hk. destruct (mmi_is_columnwise m vals fails objs) as [infos' [H' [_ K]]].
  rewrite H in H'. injection H' as <-. destruct (K k Hk) as [S _]. eapply smmi_wf; eauto.
Qed.

Lemma obj_at_some l j : obj_at (Some l) j = nth j l NoObjective.
Proof. destruct l; simpl; auto. destruct j; auto. Qed.

(* a row that did not fail contributes its entry of column c to that column's non-failed values *)
Lemma nth_nonfail_column c vals fails r : (r < length vals)%nat -> length fails = length vals ->
  nth r fails false = false -> In (nth c (nth r vals []) 0) (nonfail (column c vals) fails).
Proof.
  intros Hr L F. apply In_select. exists r. split.
  - rewrite (nth_error_nth' (map negb fails) true) by (rewrite map_length; lia).
    rewrite (nth_map' negb fails r false true) by congruence. now rewrite F.
  - unfold column. rewrite (nth_error_nth' _ 0) by (rewrite map_length; exact Hr).
    f_equal. apply (nth_map' (fun r0 => nth c r0 0)). exact Hr.
Qed.

Theorem view_law ix vals vars fails objs thr : length fails = length vals ->
  exists out, preprocess ix vals vars fails objs thr = Some out /\
    length (v_lie out) = length ix /\ length (v_values out) = length vals /\
    forall j, (j < length ix)%nat ->
      let c := nth j ix O in
      exists i l,
        smmi (column c vals) fails (nth c objs NoObjective) = Some i /\
        lie_value i LieMin = Some l /\
        nth j (v_lie out) 0 = rel_value i l /\
        (forall r, (r < length vals)%nat ->
           nth j (nth r (v_values out) []) 0 =
           if nth r fails false then rel_value i l else rel_value i (nth c (nth r vals []) 0)) /\
        (forall r, (r < length vals)%nat -> nth j (nth r (v_values out) []) 0 <= nth j (v_lie out) 0) /\
        nth j (v_thresholds out) None = option_map (rel_value i) (nth c thr None).
Proof.
  intro LF. unfold preprocess.
  destruct (mmi_is_columnwise (length ix) (map (pick 0 ix) vals) fails (Some (pick NoObjective ix objs)))
    as [infos [-> [LI K]]].
  rewrite lie_row_min. eexists. split; [reflexivity|]. cbn [v_lie v_values v_vars v_thresholds].
  set (slie := rel_row infos (map lie_of infos)). set (rows := map2 _ fails _).
  split; [unfold slie, rel_row; rewrite length_map2, map_length; lia|].
  split; [unfold rows; rewrite length_map2, map_length; lia|].
  intros j Hj. set (c := nth j ix O). set (i := nth j infos dinfo). exists i, (lie_of i).
  assert (S : smmi (column c vals) fails (nth c objs NoObjective) = Some i).
  { destruct (K j Hj) as [S _]. rewrite column_pick, obj_at_some, nth_pick in S by exact Hj. exact S. }
  assert (RV : forall r, length r = length ix -> nth j (rel_row infos r) 0 = rel_value i (nth j r 0)).
  { intros r Lr. apply nth_map2; congruence. }
  assert (SL : nth j slie 0 = rel_value i (lie_of i)).
  { unfold slie. rewrite RV by (rewrite map_length; exact LI). f_equal. apply nth_map'. congruence. }
  assert (ROW : forall r, (r < length vals)%nat ->
            nth j (nth r rows []) 0 = if nth r fails false then rel_value i (lie_of i) else rel_value i (nth c (nth r vals []) 0)).
  { intros r Hr. unfold rows. rewrite (nth_map2 _ fails (map (pick 0 ix) vals) r false [] []) by (rewrite ?map_length; lia).
    destruct (nth r fails false); [exact SL|].
    rewrite (nth_map' (pick 0 ix) vals r [] []) by exact Hr. rewrite RV by apply length_pick.
    f_equal. apply nth_pick. exact Hj. }
  split; [exact S|]. split; [apply lie_value_lie_of|]. split; [exact SL|]. split; [exact ROW|]. split.
  - intros r Hr. rewrite ROW, SL by exact Hr. destruct (nth r fails false) eqn:F; [lra|].
    pose proof (nth_nonfail_column c vals fails r Hr LF F) as I.
    destruct (lie_is_worst _ _ _ _ S) as (l & Hl & _ & _ & W); [intro E; rewrite E in I; destruct I|].
    rewrite lie_value_lie_of in Hl. injection Hl as <-. apply W. exact I.
  - rewrite (nth_map2 _ infos (pick None ix thr) j dinfo None None) by (rewrite ?length_pick; lia).
    fold i. f_equal. apply nth_pick. exact Hj.
Qed.

(* the decidable specifications evaluated on the implementation's outputs mean what the theorems say *)
Lemma order_spec_b_iff o vals scaled : order_spec_b o vals scaled = true <->
  forall p q, In p (combine vals scaled) -> In q (combine vals scaled) -> (better o (fst p) (fst q) <-> snd p < snd q).
Proof.
  unfold order_spec_b. rewrite forallb_forall. split.
  - intros H p q Hp Hq. specialize (H p Hp). rewrite forallb_forall in H. specialize (H q Hq).
    apply eqb_prop in H. rewrite <- better_b_iff, <- Qltb_true. rewrite H. tauto.
  - intros H p Hp. rewrite forallb_forall. intros q Hq. specialize (H p q Hp Hq).
    rewrite <- better_b_iff, <- Qltb_true in H.
    destruct (better_b o (fst p) (fst q)), (Qltb (snd p) (snd q)); simpl; auto; destruct H; auto.
Qed.

Lemma lie_spec_b_iff o nf l : lie_spec_b o nf l = true <->
  (exists v, In v nf /\ v == l) /\ forall v, In v nf -> ~ better o l v.
Proof.
  unfold lie_spec_b. rewrite andb_true_iff, existsb_exists, forallb_forall. split.
  - intros [[v [Hv E]] H]. split.
    + exists v. split; auto. now apply Qeq_bool_iff.
    + intros w Hw B. apply better_b_iff in B. specialize (H w Hw). rewrite B in H. discriminate.
  - intros [[v [Hv E]] H]. split.
    + exists v. split; auto. now apply Qeq_bool_iff.
    + intros w Hw. destruct (better_b o l w) eqn:B; auto. apply better_b_iff in B. exfalso. eapply H; eauto.
Qed.

(* `_c`: the laws for a constructed object, `wf_for` discharged by `smmi_wf` *)
Theorem order_law_c vals fails o i a b : smmi vals fails o = Some i ->
  (better o a b <-> rel_value i a < rel_value i b).
Proof. intro H. apply order_law. eapply smmi_wf; eauto. Qed.

Theorem variance_law_c vals fails o i w a b : smmi vals fails o = Some i ->
  (rel_value i a - rel_value i b) * (rel_value i a - rel_value i b) == var_factor i * ((a - b) * (a - b)) /\
  MIN_VALUE_VAR <= rel_var i w /\ var_floor i <= rel_var i w /\ w * var_factor i <= rel_var i w /\
  (rel_var i w == w * var_factor i \/ rel_var i w == var_floor i) /\
  (var_floor i <= w * var_factor i -> exists w', undo_var i (rel_var i w) = Some w' /\ w' == w).
Proof.
  intro H. pose proof (smmi_wf _ _ _ _ H) as W. split; [exact (value_scale_squared o i a b W)|].
  destruct (variance_scaling i w) as (A & B & C & D). repeat split; auto. exact (variance_undo o i w W).
Qed.

Theorem degenerate_c vals fails o i : smmi vals fails o = Some i ->
  (nonfail vals fails = [] -> i_skip i = true /\ forall v, rel_value i v == negate_of o * v) /\
  (i_skip i = false -> 0 < i_scale i) /\
  (forall x, (forall v, In v (nonfail vals fails) -> v == x) -> nonfail vals fails <> [] ->
     i_skip i = false /\ (i_branch i = BDegenBig \/ i_branch i = BDegenSmall)).
Proof.
  intro H. pose proof (smmi_wf _ _ _ _ H) as [_ S]. pose proof (smmi_cases _ _ _ _ H) as (_ & N & C).
  split; [|split; [exact S|]].
  - intro E. rewrite E in C. destruct C as [K _]. split; [exact K|]. intro v. unfold rel_value. rewrite K, N. reflexivity.
  - intros x Hx NE. destruct (nonfail vals fails) as [|y r]; [congruence|]. destruct C as [K A]. split; [exact K|].
    destruct (list_min_spec y r) as [Imn _]. destruct (list_max_spec y r) as [Imx _].
    pose proof (Hx _ Imn) as E1. pose proof (Hx _ Imx) as E2.
    destruct A as [(_ & W & _) | [(B & _) | (B & _)]]; auto. apply wide_pos in W. lra.
Qed.

Lemma overwrite_failed_length {A} : forall fails (vals junk : list A), length (overwrite_failed fails vals junk) = length vals.
Proof.
  induction fails as [|f fs IH]; intros vals junk; [reflexivity|].
  destruct vals as [|v vs]; [reflexivity|]. cbn [overwrite_failed length]. f_equal. apply IH.
Qed.

(* the value stored with a failed observation is never read: the scaling object sees the values through
   `select (map negb fails)`, the view replaces them by the lie *)
Lemma select_overwrite_failed {A} : forall fails (vals junk : list A),
  select (map negb fails) (overwrite_failed fails vals junk) = select (map negb fails) vals.
Proof.
  induction fails as [|f fs IH]; intros vals junk; [reflexivity|].
  destruct vals as [|v vs]; [reflexivity|]. cbn [overwrite_failed map select]. destruct f; cbn [negb]; rewrite IH; reflexivity.
Qed.

Lemma map_overwrite_failed {A B} (g : A -> B) : forall fails (vals junk : list A),
  map g (overwrite_failed fails vals junk) = overwrite_failed fails (map g vals) (map g junk).
Proof.
  induction fails as [|f fs IH]; intros vals junk; [reflexivity|].
  destruct vals as [|v vs]; [reflexivity|]. cbn [overwrite_failed map]. rewrite IH. f_equal.
  - destruct f; [|reflexivity]. destruct junk; reflexivity.
  - destruct junk; reflexivity.
Qed.

Lemma map2_overwrite_failed {A C} (g : bool -> A -> C) : (forall x y, g true x = g true y) ->
  forall fails (vals junk : list A), map2 g fails (overwrite_failed fails vals junk) = map2 g fails vals.
Proof.
  intros Hg. induction fails as [|f fs IH]; intros vals junk; [reflexivity|].
  destruct vals as [|v vs]; [reflexivity|]. cbn [overwrite_failed map2]. rewrite IH. f_equal.
  destruct f; [apply Hg|reflexivity].
Qed.

(* scale, midpoint, sign, branch, skip flag and the non-failed values: the whole scaling object *)
Theorem smmi_overwrite_failed vals fails junk o : smmi (overwrite_failed fails vals junk) fails o = smmi vals fails o.
Proof. unfold smmi. rewrite select_overwrite_failed. reflexivity. Qed.

Theorem mmi_overwrite_failed m vals fails junk objs :
  mmi m (overwrite_failed fails vals junk) fails objs = mmi m vals fails objs.
Proof.
  unfold mmi. rewrite (map_ext _ (fun k => smmi (column k vals) fails (obj_at objs k))); [reflexivity|].
  intro k. unfold column. rewrite map_overwrite_failed. apply smmi_overwrite_failed.
Qed.

(* the view: scaled values (failed rows hold the lie), lies, variances and thresholds *)
Theorem preprocess_overwrite_failed ix vals vars fails objs thr junk :
  preprocess ix (overwrite_failed fails vals junk) vars fails objs thr = preprocess ix vals vars fails objs thr.
Proof.
  unfold preprocess. rewrite map_overwrite_failed. rewrite mmi_overwrite_failed.
  destruct (mmi (length ix) (map (pick 0 ix) vals) fails (Some (pick NoObjective ix objs))) as [infos|]; [|reflexivity].
  destruct (lie_row infos LieMin) as [lie|]; [|reflexivity].
  rewrite map2_overwrite_failed; [reflexivity|]. intros x y. reflexivity.
Qed.
