(* Proofs for C07 about Model.Multistart.  The file first defines the words in which Props/C07.v speaks of
   MultistartOptimizer.optimize: the row recorded for a run (`ms_row`, `ms_rows`), the rows that count (`good_row`,
   `first_max_success`, `no_good_row`), the starts walked through (`ms_all_starts`, `ms_num_runs`).  The loop keeps
   (best_point, best_function_value) as the selection `ms_sel` among the rows recorded so far; the clauses about the
   result are read off that invariant.  The closed runs at the end are the witnesses Props/C07.v cites. *)
From Coq Require Import List QArith Lia.
From LV Require Import Model.Optim Model.Multistart Proofs.Optim.
Import ListNotations.
Open Scope Q_scope.

Section MSProofs.
  Variable acc : point -> bool.
  Variable run : nat -> point -> outcome.
  Variable gen : nat -> batch.

  Lemma ms_record_success p o fv : ms_record acc p o = (fv, true) -> acc (end_of p o) = true.
  Proof. unfold ms_record. destruct (acc (end_of p o)); [reflexivity | intro H; discriminate]. Qed.

  (* what the code records for one run: start, end point, function value (None = NaN), success *)
  Record ms_row := mkrow { r_start : point; r_end : point; r_val : option Q; r_succ : bool }.
  Definition ms_row_of (k : nat) (p : point) : ms_row :=
    let o := run k p in mkrow p (end_of p o) (fst (ms_record acc p o)) (snd (ms_record acc p o)).
  (* the rows of the runs number k, k+1, ... started at the given points *)
  Fixpoint ms_rows (k : nat) (ps : batch) : list ms_row :=
    match ps with [] => [] | p :: r => ms_row_of k p :: ms_rows (S k) r end.

  (* a run counts when it is recorded as successful (so its end point is acceptable) with a real value *)
  Definition good_row (r : ms_row) : Prop := r_succ r = true /\ exists v, r_val r = Some v.
  (* e is the end point and v the value of the FIRST row that counts and has maximal value among the rows that count *)
  Definition first_max_success (rows : list ms_row) (e : point) (v : Q) : Prop :=
    exists pre r post, rows = pre ++ r :: post /\ r_succ r = true /\ r_val r = Some v /\ r_end r = e /\
      (forall r' w, In r' pre -> r_succ r' = true -> r_val r' = Some w -> w < v) /\
      (forall r' w, In r' post -> r_succ r' = true -> r_val r' = Some w -> w <= v).
  Definition no_good_row (rows : list ms_row) : Prop := forall r, In r rows -> r_succ r = true -> r_val r = None.

  Lemma first_max_success_all_le rows e v : first_max_success rows e v ->
    forall r' w, In r' rows -> r_succ r' = true -> r_val r' = Some w -> w <= v.
  Proof.
    intros (pre & r & post & -> & Hs & Hv & _ & Hpre & Hpost) r' w Hin Hs' Hw.
    apply in_app_or in Hin. destruct Hin as [Hin | [<- | Hin]].
    - apply Qlt_le_weak. eapply Hpre; eauto.
    - rewrite Hv in Hw. injection Hw as <-. apply Qle_refl.
    - eapply Hpost; eauto.
  Qed.

  Lemma first_max_success_good rows e v : first_max_success rows e v -> exists r, In r rows /\ good_row r.
  Proof.
    intros (pre & r & post & -> & Hs & Hv & _). exists r. split; [apply in_or_app; right; left; reflexivity|].
    split; [exact Hs | eauto].
  Qed.

  Lemma ms_row_of_acceptable k p : r_succ (ms_row_of k p) = true -> acc (r_end (ms_row_of k p)) = true.
  Proof.
    unfold ms_row_of. cbn [r_succ r_end]. destruct (ms_record acc p (run k p)) as [fv sc] eqn:E. cbn [snd].
    intros ->. exact (ms_record_success _ _ _ E).
  Qed.

  Lemma ms_rows_acceptable ps : forall k r, In r (ms_rows k ps) -> r_succ r = true -> acc (r_end r) = true.
  Proof.
    induction ps as [|p ps IH]; intros k r Hin Hs; simpl in Hin; [contradiction|].
    destruct Hin as [<- | Hin]; [apply ms_row_of_acceptable; exact Hs | eapply IH; eauto].
  Qed.

  Lemma first_max_success_acceptable k ps e v : first_max_success (ms_rows k ps) e v -> acc e = true.
  Proof.
    intros (pre & r & post & E & Hs & _ & <- & _). apply (ms_rows_acceptable ps k); [|exact Hs].
    rewrite E. apply in_or_app. right. left. reflexivity.
  Qed.

  Lemma ms_rows_app ps qs : forall k, ms_rows k (ps ++ qs) = ms_rows k ps ++ ms_rows (k + length ps) qs.
  Proof.
    induction ps as [|p ps IH]; intro k; simpl; [rewrite Nat.add_0_r; reflexivity|].
    rewrite IH. rewrite <- plus_n_Sm. reflexivity.
  Qed.

  Lemma ms_rows_length ps : forall k, length (ms_rows k ps) = length ps.
  Proof. induction ps as [|p ps IH]; intro k; simpl; [reflexivity | rewrite IH; reflexivity]. Qed.

  Lemma ms_rows_starts ps : forall k, map r_start (ms_rows k ps) = ps.
  Proof. induction ps as [|p ps IH]; intro k; simpl; [reflexivity | rewrite IH; reflexivity]. Qed.

  (* appending a row to the rows seen so far: the incumbent stays when the row does not beat it ... *)
  Lemma first_max_success_snoc_keep done row e v :
    first_max_success done e v -> (forall w, r_succ row = true -> r_val row = Some w -> w <= v) ->
    first_max_success (done ++ [row]) e v.
  Proof.
    intros (pre & r & post & E & Hs & Hv & He & Hpre & Hpost) Hrow.
    exists pre, r, (post ++ [row]). split; [rewrite E, <- app_assoc; reflexivity|].
    repeat split; try assumption.
    intros r' w Hin Hs' Hw. apply in_app_or in Hin. destruct Hin as [Hin | [<- | []]]; [eapply Hpost; eauto|].
    apply Hrow; assumption.
  Qed.
  (* ... and a row that counts and beats every earlier one becomes the incumbent *)
  Lemma first_max_success_snoc_new done row v :
    (forall r' w, In r' done -> r_succ r' = true -> r_val r' = Some w -> w < v) ->
    r_succ row = true -> r_val row = Some v -> first_max_success (done ++ [row]) (r_end row) v.
  Proof. intros Hlt Hs Hv. exists done, row, []. repeat split; try assumption. intros r' w []. Qed.
  Lemma no_good_row_snoc done row :
    no_good_row done -> (r_succ row = true -> r_val row = None) -> no_good_row (done ++ [row]).
  Proof.
    intros Hno Hrow r Hin Hs. apply in_app_or in Hin. destruct Hin as [Hin | [<- | []]]; [apply Hno; assumption|].
    apply Hrow. exact Hs.
  Qed.

  (* what one pass through the loop body does to (best_point, best_function_value), given the row it records *)
  Definition ms_pick (row : ms_row) (b : option point) (bv : option Q) : option point * option Q :=
    if is_none b || (r_succ row && gtv (r_val row) bv) then
      if is_none b && negb (r_succ row) then (Some (r_start row), bv)
      else (Some (r_end row), match r_val row with None => bv | Some f => Some f end)
    else (b, bv).
  Definition ms_push (row : ms_row) (st : ms_state) : ms_state :=
    let (b, bv) := ms_pick row (ms_best st) (ms_bestv st) in
    mkms b bv (ms_starts st ++ [r_start row]) (ms_ends st ++ [r_end row]) (ms_vals st ++ [r_val row]) (ms_succ st ++ [r_succ row]).
  (* the stopping test of the loop after n recorded runs *)
  Definition ms_stop (nm nsel n : nat) : bool := if Nat.eqb nm 0 then Nat.eqb n nsel else (nm <=? n)%nat.

  Lemma ms_loop_unfold nm nsel k p r st :
    ms_loop acc run nm nsel k (p :: r) st =
    let st2 := ms_push (ms_row_of k p) st in
    if ms_stop nm nsel (length (ms_vals st2)) then Ok st2 else ms_loop acc run nm nsel (S k) r st2.
  Proof.
    unfold ms_push, ms_pick, ms_row_of. simpl.
    case (ms_record acc p (run k p)) as [fv sc]. simpl.
    case (is_none (ms_best st) || sc && gtv fv (ms_bestv st)); [case (is_none (ms_best st) && negb sc)|]; reflexivity.
  Qed.

  Lemma ms_push_count row st : length (ms_vals (ms_push row st)) = S (length (ms_vals st)).
  Proof. unfold ms_push. destruct (ms_pick row _ _). cbn [ms_vals]. rewrite app_length, Nat.add_1_r. reflexivity. Qed.

  (* the loop invariant: `done` are the rows of the runs made so far, and (best_point, best_function_value) select among them *)
  Definition ms_sel (done : list ms_row) (b : option point) (bv : option Q) : Prop :=
    match done with
    | [] => b = None /\ bv = None
    | r1 :: _ =>
        match bv with
        | Some v => exists e, b = Some e /\ first_max_success done e v
        | None => no_good_row done /\ b = Some (if r_succ r1 then r_end r1 else r_start r1)
        end
    end.
  Definition ms_inv (done : list ms_row) (st : ms_state) : Prop :=
    ms_starts st = map r_start done /\ ms_ends st = map r_end done /\
    ms_vals st = map r_val done /\ ms_succ st = map r_succ done /\ ms_sel done (ms_best st) (ms_bestv st).

  Lemma ms_inv_init : ms_inv [] ms_init.
  Proof. repeat split. Qed.

  Lemma ms_pick_sel done row b bv :
    ms_sel done b bv -> ms_sel (done ++ [row]) (fst (ms_pick row b bv)) (snd (ms_pick row b bv)).
  Proof.
    unfold ms_pick. destruct done as [|r1 done']; cbn [ms_sel app].
    - (* first run: taken whatever it is *)
      intros (-> & ->). cbn [is_none orb andb]. destruct (r_succ row) eqn:Es; cbn [negb fst snd].
      + destruct (r_val row) as [f|] eqn:Ev.
        * exists (r_end row). split; [reflexivity|]. apply (first_max_success_snoc_new [] row f); [intros r' w []|assumption..].
        * split; [|reflexivity]. intros r [<- | []] _. exact Ev.
      + split; [|reflexivity]. intros r [<- | []] Hs. congruence.
    - (* later runs: there is an incumbent, replaced exactly when the row counts and is strictly better *)
      change (r1 :: done' ++ [row]) with ((r1 :: done') ++ [row]).
      destruct bv as [v|].
      + intros (e & -> & Hfm). cbn [is_none orb andb].
        destruct (r_succ row && gtv (r_val row) (Some v)) eqn:Et; cbn [fst snd].
        * apply andb_true_iff in Et. destruct Et as [Es Eg]. destruct (r_val row) as [f|] eqn:Ev; [|discriminate].
          apply Qltb_true in Eg. exists (r_end row). split; [reflexivity|].
          apply first_max_success_snoc_new; [|assumption..]. intros r' w Hin Hs Hw.
          apply (Qle_lt_trans _ v); [exact (first_max_success_all_le _ _ _ Hfm r' w Hin Hs Hw)|exact Eg].
        * exists e. split; [reflexivity|]. apply first_max_success_snoc_keep; [exact Hfm|].
          intros w Hs Hw. rewrite Hs, Hw in Et. apply Qltb_false, Et.
      + intros (Hno & ->). cbn [is_none orb andb].
        destruct (r_succ row && gtv (r_val row) None) eqn:Et; cbn [fst snd].
        * apply andb_true_iff in Et. destruct Et as [Es Eg]. destruct (r_val row) as [f|] eqn:Ev; [|discriminate].
          exists (r_end row). split; [reflexivity|].
          apply first_max_success_snoc_new; [|assumption..]. intros r' w Hin Hs Hw.
          rewrite (Hno r' Hin Hs) in Hw. discriminate.
        * split; [|reflexivity]. apply no_good_row_snoc; [exact Hno|].
          intros Hs. rewrite Hs in Et. destruct (r_val row); [discriminate|reflexivity].
  Qed.

  Lemma ms_push_inv done row st : ms_inv done st -> ms_inv (done ++ [row]) (ms_push row st).
  Proof.
    intros (Hst & Hen & Hva & Hsu & Hsel). apply (ms_pick_sel done row) in Hsel.
    unfold ms_inv, ms_push. destruct (ms_pick row (ms_best st) (ms_bestv st)) as [b bv].
    cbn [ms_starts ms_ends ms_vals ms_succ ms_best ms_bestv]. rewrite !map_app, Hst, Hen, Hva, Hsu. repeat split. exact Hsel.
  Qed.

  Lemma ms_loop_spec nm nsel : forall todo k st st' done,
    ms_inv done st -> ms_loop acc run nm nsel k todo st = Ok st' ->
    exists ran rest, todo = ran ++ rest /\ ran <> [] /\ ms_inv (done ++ ms_rows k ran) st'.
  Proof.
    induction todo as [|p r IH]; intros k st st' done Hinv Hl; [discriminate|].
    rewrite ms_loop_unfold in Hl. cbv zeta in Hl.
    pose proof (ms_push_inv done (ms_row_of k p) st Hinv) as Hinv2.
    destruct (ms_stop nm nsel _).
    - injection Hl as <-. exists [p], r. split; [reflexivity|]. split; [discriminate|exact Hinv2].
    - destruct (IH _ _ _ _ Hinv2 Hl) as (ran & rest & -> & _ & Hinv').
      exists (p :: ran), rest. split; [reflexivity|]. split; [discriminate|].
      cbn [ms_rows]. rewrite <- app_assoc in Hinv'. exact Hinv'.
  Qed.

  (* the loop returns after exactly len(selected_starts) runs when num_multistarts = 0, resp. num_multistarts runs *)
  Lemma ms_loop_count nm nsel : forall todo k st st',
    nm = 0%nat \/ (length (ms_vals st) < nm)%nat -> ms_loop acc run nm nsel k todo st = Ok st' ->
    length (ms_vals st') = if Nat.eqb nm 0 then nsel else nm.
  Proof.
    induction todo as [|p r IH]; intros k st st' Hn Hl; [discriminate|].
    rewrite ms_loop_unfold in Hl. cbv zeta in Hl. pose proof (ms_push_count (ms_row_of k p) st) as Hc.
    set (st2 := ms_push (ms_row_of k p) st) in *. unfold ms_stop in Hl. destruct (Nat.eqb nm 0) eqn:E0.
    - destruct (Nat.eqb (length (ms_vals st2)) nsel) eqn:E; [injection Hl as <-; apply Nat.eqb_eq, E|].
      exact (IH _ _ _ (or_introl (proj1 (Nat.eqb_eq _ _) E0)) Hl).
    - apply Nat.eqb_neq in E0. destruct (nm <=? length (ms_vals st2))%nat eqn:E.
      + injection Hl as <-. apply Nat.leb_le in E. destruct Hn; [contradiction|lia].
      + apply Nat.leb_gt in E. exact (IH _ _ _ (or_intror E) Hl).
  Qed.

  (* the starts the loop walks through *)
  Definition ms_all_starts (nm : nat) (selected : option batch) : batch :=
    let sel := match selected with None => [] | Some s => s end in
    (if (nm <=? length sel)%nat then sel else sel ++ gen (nm - length sel)) ++ gen NUM_BACKUP.
  Definition ms_num_runs (nm : nat) (selected : option batch) : nat :=
    if Nat.eqb nm 0 then length (match selected with None => [] | Some s => s end) else nm.

  (* whenever MultistartOptimizer.optimize returns, it has run the first `ms_num_runs` starts of all_starts (at least one) *)
  Lemma ms_optimize_inv nm selected st :
    ms_optimize acc run gen nm selected = Ok st ->
    exists p1 ran' rest, ms_all_starts nm selected = (p1 :: ran') ++ rest /\
      length (p1 :: ran') = ms_num_runs nm selected /\ ms_inv (ms_rows 0 (p1 :: ran')) st.
  Proof.
    unfold ms_optimize. fold (ms_all_starts nm selected). unfold ms_num_runs.
    set (sel := match selected with Some s => s | None => [] end). intro H.
    assert (Hl : ms_loop acc run nm (length sel) 0 (ms_all_starts nm selected) ms_init = Ok st /\ (nm = 0 \/ 0 < nm)%nat).
    { destruct selected; [split; [exact H|lia]|]. destruct (nm <? 1)%nat eqn:E; [discriminate|].
      apply Nat.ltb_ge in E. split; [exact H|right; exact E]. }
    destruct Hl as [Hl Hnm]. pose proof (ms_loop_count _ _ _ _ ms_init _ Hnm Hl) as Hc.
    destruct (ms_loop_spec _ _ _ _ _ _ _ ms_inv_init Hl) as ([|p1 ran'] & rest & Eall & Hne & Hinv); [congruence|].
    exists p1, ran', rest. split; [exact Eall|]. split; [|exact Hinv].
    destruct Hinv as (_ & _ & Hva & _). rewrite <- Hc, Hva, map_length. apply eq_sym, ms_rows_length.
  Qed.

  Theorem ms_optimize_best_successful nm selected st :
    ms_optimize acc run gen nm selected = Ok st ->
    exists p1 ran' rest,
      (* the starts that were run are the first `ms_num_runs` of all_starts; there is at least one *)
      ms_all_starts nm selected = (p1 :: ran') ++ rest /\ length (p1 :: ran') = ms_num_runs nm selected /\
      let rows := ms_rows 0 (p1 :: ran') in
      let row1 := ms_row_of 0 p1 in
      (* (a) the reported lists are the rows of these runs, in order *)
      ms_starts st = p1 :: ran' /\ ms_ends st = map r_end rows /\ ms_vals st = map r_val rows /\ ms_succ st = map r_succ rows /\
      (* (b) some run counts: first successful end point of maximal value, with that value; it is acceptable *)
      ((exists r, In r rows /\ good_row r) ->
         exists e v, ms_best st = Some e /\ ms_bestv st = Some v /\ first_max_success rows e v /\ acc e = true) /\
      (* (c) no run counts: the first start -- unless the first run is recorded as successful (with a NaN value), then
         its acceptable end point *)
      (no_good_row rows ->
         ms_bestv st = None /\
         ms_best st = Some (if r_succ row1 then r_end row1 else p1) /\
         (r_succ row1 = true -> acc (r_end row1) = true) /\
         ((forall r, In r rows -> r_succ r = false) -> ms_best st = Some p1)).
  Proof.
    intro H. destruct (ms_optimize_inv _ _ _ H) as (p1 & ran' & rest & Eall & Hlen & Hinv).
    exists p1, ran', rest. split; [exact Eall|]. split; [exact Hlen|].
    cbv zeta.
    destruct Hinv as (Hst & Hen & Hva & Hsu & Hbest).
    split; [rewrite Hst; apply ms_rows_starts|]. split; [exact Hen|]. split; [exact Hva|]. split; [exact Hsu|].
    cbn [ms_rows] in Hbest |- *. destruct (ms_bestv st) as [v|] eqn:Ebv.
    - destruct Hbest as (e & Hb & Hfm). split.
      + intros _. exists e, v. repeat split; try assumption.
        exact (first_max_success_acceptable 0 (p1 :: ran') e v Hfm).
      + intro Hno. exfalso. destruct (first_max_success_good _ _ _ Hfm) as (r & Hin & Hs & w & Hw).
        rewrite (Hno r Hin Hs) in Hw. discriminate.
    - destruct Hbest as (Hno & Hb). split.
      + intros (r & Hin & Hs & w & Hw). exfalso. rewrite (Hno r Hin Hs) in Hw. discriminate.
      + intros _. split; [reflexivity|]. split; [exact Hb|]. split; [apply ms_row_of_acceptable|].
        intro Hall. rewrite Hb. rewrite (Hall (ms_row_of 0 p1) (or_introl eq_refl)). reflexivity.
  Qed.

  (* every row either counts or not, so (b) and (c) cover all returns *)
  Lemma good_row_dec rows : (exists r, In r rows /\ good_row r) \/ no_good_row rows.
  Proof.
    induction rows as [|r rows IH]; [right; intros r []|].
    destruct IH as [(r' & Hin & Hg) | Hno]; [left; exists r'; split; [right; exact Hin | exact Hg]|].
    destruct (r_succ r) eqn:Es.
    - destruct (r_val r) as [v|] eqn:Ev.
      + left. exists r. split; [left; reflexivity | split; eauto].
      + right. intros r' [<- | Hin] Hs; [exact Ev | apply Hno; assumption].
    - right. intros r' [<- | Hin] Hs; [congruence | apply Hno; assumption].
  Qed.
  Lemma ms_all_starts_in nm selected p : In p (ms_all_starts nm selected) ->
    In p (match selected with Some s => s | None => [] end) \/ exists k, In p (gen k).
  Proof.
    unfold ms_all_starts. intro H. apply in_app_or in H. destruct H as [H|H]; [|right; eauto].
    destruct (nm <=? _)%nat; [left; exact H|]. apply in_app_or in H. destruct H; [left; assumption|right; eauto].
  Qed.

  (* in short: the returned point is an acceptable end point of a successful run, or one of the starting points (only the
     very first start can be taken, when its run failed) *)
  Theorem ms_optimize_acceptable nm selected st :
    ms_optimize acc run gen nm selected = Ok st ->
    exists p, ms_best st = Some p /\
      (acc p = true \/ In p (match selected with Some s => s | None => [] end) \/ exists k, In p (gen k)).
  Proof.
    intro H. destruct (ms_optimize_inv _ _ _ H) as (p1 & ran' & rest & Eall & _ & (_ & _ & _ & _ & Hsel)).
    cbn [ms_rows ms_sel] in Hsel. destruct (ms_bestv st) as [v|].
    - destruct Hsel as (e & Eb & Hfm). exists e. split; [exact Eb|left].
      exact (first_max_success_acceptable 0 (p1 :: ran') e v Hfm).
    - destruct Hsel as (_ & Eb). eexists. split; [exact Eb|].
      destruct (r_succ (ms_row_of 0 p1)) eqn:Es; [left; apply ms_row_of_acceptable, Es|right].
      apply (ms_all_starts_in nm). rewrite Eall. left. reflexivity.
  Qed.

  (* while enough starts remain the loop returns (no RuntimeError) after exactly len(selected_starts) runs when
     num_multistarts = 0, resp. num_multistarts runs, whatever the outcomes are.
     (Before /repo 6bdaffc a failing first run skipped the stopping test, and this failed for num_multistarts = 0 with
     one failing start.) *)
  Lemma ms_loop_stops nm nsel : forall todo k st,
    (length (ms_vals st) < (if Nat.eqb nm 0 then nsel else nm))%nat ->
    ((if Nat.eqb nm 0 then nsel else nm) <= length (ms_vals st) + length todo)%nat ->
    exists st', ms_loop acc run nm nsel k todo st = Ok st' /\ length (ms_vals st') = (if Nat.eqb nm 0 then nsel else nm).
  Proof.
    induction todo as [|p r IH]; intros k st Hlt Hge; simpl in Hge; [lia|].
    rewrite ms_loop_unfold. cbv zeta. pose proof (ms_push_count (ms_row_of k p) st) as Hn.
    set (st2 := ms_push (ms_row_of k p) st) in *. unfold ms_stop. destruct (Nat.eqb nm 0).
    - destruct (Nat.eqb (length (ms_vals st2)) nsel) eqn:E1; [|apply Nat.eqb_neq in E1; apply IH; lia].
      exists st2. split; [reflexivity|apply Nat.eqb_eq, E1].
    - destruct (nm <=? length (ms_vals st2))%nat eqn:E1; [|apply Nat.leb_gt in E1; apply IH; lia].
      exists st2. split; [reflexivity|]. apply Nat.leb_le in E1. lia.
  Qed.
End MSProofs.

(* num_multistarts = 0 and one selected start whose run fails: the stopping test is reached (/repo 6bdaffc) and that start
   is returned *)
Lemma ms_single_failing_start_returns :
  exists st, ms_optimize (fun _ => true) (fun _ p => mkoc false false p None) (fun k => repeat [0] k) 0 (Some [[0]]) = Ok st
             /\ ms_best st = Some [0] /\ ms_vals st = [None].
Proof. eexists. vm_compute. repeat split. Qed.

(* The literal reading of the fall-back clause ("no successful in-domain run with a real value => the first starting point
   is returned") is FALSE for the code: a first run that reports success with a NaN value (and an acceptable end point)
   makes its end point the result.  One start [0], the run ends at [1] with success = True and fun = NaN: the loop
   returns [1].  (Replayed on MultistartOptimizer in /repo: best_point = [1.], function_values = [nan].) *)
Lemma ms_first_start_fallback_refuted :
  exists acc run gen nm selected st p1,
    ms_optimize acc run gen nm selected = Ok st /\ ms_starts st = [p1] /\
    no_good_row (ms_rows acc run 0 [p1]) /\ ms_best st <> Some p1.
Proof.
  exists (fun _ => true), (fun _ _ => mkoc false true [1] None), (fun k => repeat [2] k), 1%nat, (Some [[0]]).
  eexists. exists [0]. split; [vm_compute; reflexivity|]. split; [reflexivity|]. split.
  - intros r [<- | []] _. reflexivity.
  - vm_compute. intro H. discriminate.
Qed.

(* a run with several starts: the second run raises (its start is recorded as end point, NaN), the fourth ends outside the
   domain [0,4] (NaN, its huge value is ignored), the third and fifth tie for the best value 5: the third is kept *)
Definition ms_example_acc (p : point) : bool := Qle_bool 0 (nth 0 p 0) && Qle_bool (nth 0 p 0) 4.
Definition ms_example_run (k : nat) (_ : point) : outcome :=
  nth k [mkoc false true [1] (Some 3); mkoc true false [0] None; mkoc false true [3] (Some 5);
         mkoc false true [9] (Some 100); mkoc false true [2] (Some 5)] (mkoc false false [] None).
Lemma ms_example_run_result :
  exists st, ms_optimize ms_example_acc ms_example_run (fun k => repeat [2] k) 5 (Some [[0]; [1]]) = Ok st /\
    ms_best st = Some [3] /\ ms_bestv st = Some 5 /\
    ms_starts st = [[0]; [1]; [2]; [2]; [2]] /\ ms_ends st = [[1]; [1]; [3]; [9]; [2]] /\
    ms_vals st = [Some 3; None; Some 5; None; Some 5] /\ ms_succ st = [true; false; true; false; true] /\
    first_max_success (ms_rows ms_example_acc ms_example_run 0 (ms_starts st)) [3] 5.
Proof.
  eexists. split; [vm_compute; reflexivity|]. cbn [ms_best ms_bestv ms_starts ms_ends ms_vals ms_succ].
  repeat (split; [reflexivity|]).
  exists [ms_row_of ms_example_acc ms_example_run 0 [0]; ms_row_of ms_example_acc ms_example_run 1 [1]],
         (ms_row_of ms_example_acc ms_example_run 2 [2]),
         [ms_row_of ms_example_acc ms_example_run 3 [2]; ms_row_of ms_example_acc ms_example_run 4 [2]].
  split; [reflexivity|]. split; [reflexivity|]. split; [reflexivity|]. split; [reflexivity|]. split.
  - intros r' w [<- | [<- | []]] Hs Hw; vm_compute in Hs, Hw; try discriminate. injection Hw as <-. reflexivity.
  - intros r' w [<- | [<- | []]] Hs Hw; vm_compute in Hs, Hw; try discriminate. injection Hw as <-. discriminate.
Qed.
