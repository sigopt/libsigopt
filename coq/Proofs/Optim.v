(* Proofs for C07 about Model.Optim: the monitoring invariant (incumbent = first maximum of everything evaluated) and what
   it gives for differential evolution and for Adam's bookkeeping; box / fixed-index restriction. *)
From Coq Require Import List Lia Lqa Qabs.
From LV Require Import Model.Optim.
Import ListNotations.
Open Scope Q_scope.

Lemma Qltb_true x y : Qltb x y = true <-> x < y.
Proof.
  unfold Qltb. rewrite negb_true_iff, <- not_true_iff_false, Qle_bool_iff. split; [apply Qnot_le_lt|apply Qlt_not_le].
Qed.
Lemma Qltb_false x y : Qltb x y = false <-> y <= x.
Proof. unfold Qltb. rewrite negb_false_iff. apply Qle_bool_iff. Qed.

Lemma Forall2_imp_in {A B} (P Q : A -> B -> Prop) l l' :
  (forall a b, In a l -> In b l' -> P a b -> Q a b) -> Forall2 P l l' -> Forall2 Q l l'.
Proof.
  intros H F. induction F as [|a b l l' Hab F IH]; constructor.
  - apply H; [left; reflexivity..|exact Hab].
  - apply IH. intros a' b' Ha Hb. apply H; right; assumption.
Qed.

Lemma guard_ok {A} (b : bool) e (r : result A) a : (if b then Err e else r) = Ok a -> b = false /\ r = Ok a.
Proof. destruct b; [discriminate|auto]. Qed.
Lemma bind_ok {A B} (r : result A) (f : A -> result B) b :
  bind r f = Ok b -> exists a, r = Ok a /\ f a = Ok b.
Proof. destruct r; simpl; intro H; [eauto | discriminate]. Qed.

Section OptProofs.
  Variable af : point -> option Q.
  Variable restrict : nat -> batch -> batch.
  Variable gen : nat -> batch.
  Variable dom : point -> Prop.
  Hypothesis restrict_dom : forall k b, Forall dom (restrict k b).
  Hypothesis restrict_len : forall k b, length (restrict k b) = length b.

  (* p is the first element of flat whose value is defined and maximal among the defined values: its value is v, every
     defined value before it is smaller, every defined value after it is not larger (None = NaN takes no part) *)
  Definition first_max (flat : batch) (p : point) (v : Q) : Prop :=
    af p = Some v /\ exists l1 l2, flat = l1 ++ p :: l2 /\
      (forall q w, In q l1 -> af q = Some w -> w < v) /\ (forall q w, In q l2 -> af q = Some w -> w <= v).
  Definition best_spec (flat : batch) (b : option (point * Q)) : Prop :=
    match b with None => flat = [] | Some (p, v) => first_max flat p v end.
  (* what a nanargmax scan holds after having seen flat *)
  Definition scan_spec (flat : batch) (c : option (point * Q)) : Prop :=
    match c with None => forall q, In q flat -> af q = None | Some (p, v) => first_max flat p v end.

  Lemma first_max_all_le flat p v : first_max flat p v -> forall q w, In q flat -> af q = Some w -> w <= v.
  Proof.
    intros [Hv (l1 & l2 & E & H1 & H2)] q w Hq Hw. subst flat.
    apply in_app_or in Hq. destruct Hq as [Hq | [Hq | Hq]].
    - apply Qlt_le_weak. eauto.
    - subst q. rewrite Hv in Hw. injection Hw as <-. apply Qle_refl.
    - eauto.
  Qed.
  Lemma first_max_in flat p v : first_max flat p v -> In p flat.
  Proof. intros [_ (l1 & l2 & E & _)]. subst. apply in_or_app. right. left. reflexivity. Qed.
  Lemma first_max_defined flat p v : first_max flat p v -> af p = Some v.
  Proof. intros [H _]. exact H. Qed.

  Lemma first_max_app_old flat pts p v :
    first_max flat p v -> (forall q w, In q pts -> af q = Some w -> w <= v) -> first_max (flat ++ pts) p v.
  Proof.
    intros [Hv (l1 & l2 & E & H1 & H2)] Hp. split; [exact Hv|].
    exists l1, (l2 ++ pts). split; [subst flat; rewrite <- app_assoc; reflexivity|]. split; [exact H1|].
    intros q w Hq. apply in_app_or in Hq. destruct Hq; eauto.
  Qed.
  Lemma first_max_app_new flat pts p v :
    (forall q w, In q flat -> af q = Some w -> w < v) -> first_max pts p v -> first_max (flat ++ pts) p v.
  Proof.
    intros Hf [Hv (l1 & l2 & E & H1 & H2)]. split; [exact Hv|].
    exists (flat ++ l1), l2. split; [subst pts; rewrite <- app_assoc; reflexivity|]. split; [|exact H2].
    intros q w Hq. apply in_app_or in Hq. destruct Hq; eauto.
  Qed.
  Lemma first_max_single x v : af x = Some v -> first_max [x] x v.
  Proof. intro H. split; [exact H|]. exists [], []. repeat split; intros q w []. Qed.
  (* of two lists with a first maximum each, the later one's prevails exactly when it is strictly larger *)
  Lemma first_max_app flat pts bp bv p v : first_max flat bp bv -> first_max pts p v ->
    (bv < v -> first_max (flat ++ pts) p v) /\ (v <= bv -> first_max (flat ++ pts) bp bv).
  Proof.
    intros Hf Hp. split; intro Hc.
    - apply first_max_app_new; [|exact Hp]. intros q w Hq Hw. pose proof (first_max_all_le _ _ _ Hf q w Hq Hw). lra.
    - apply first_max_app_old; [exact Hf|]. intros q w Hq Hw. pose proof (first_max_all_le _ _ _ Hp q w Hq Hw). lra.
  Qed.

  Lemma nanargmax_from_spec l : forall pre c,
    scan_spec pre c -> scan_spec (pre ++ l) (nanargmax_from af c l).
  Proof.
    induction l as [|x l IH]; intros pre c Hc; simpl; [rewrite app_nil_r; exact Hc|].
    replace (pre ++ x :: l) with ((pre ++ [x]) ++ l) by (rewrite <- app_assoc; reflexivity).
    destruct (af x) as [v|] eqn:Ex; [destruct c as [[bp bv]|]; [destruct (Qltb bv v) eqn:E|]|]; apply IH.
    - apply (first_max_app _ _ _ _ _ _ Hc (first_max_single x v Ex)), Qltb_true, E.
    - apply (first_max_app _ _ _ _ _ _ Hc (first_max_single x v Ex)), Qltb_false, E.
    - (* the first value at all *)
      apply first_max_app_new; [|apply first_max_single; exact Ex].
      intros q w Hq Hw. rewrite (Hc q Hq) in Hw. discriminate.
    - (* no value at x: the scan state is kept *)
      destruct c as [[bp bv]|]; simpl in *.
      + apply first_max_app_old; [exact Hc|]. intros q w [<- | []] Hw. congruence.
      + intros q Hq. apply in_app_or in Hq. destruct Hq as [Hq | [<- | []]]; [auto | exact Ex].
  Qed.

  Lemma nanargmax_spec pts : scan_spec pts (nanargmax_from af None pts).
  Proof. apply (nanargmax_from_spec pts [] None). intros q []. Qed.

  Lemma concat_snoc (l : list batch) (b : batch) : concat (l ++ [b]) = concat l ++ b.
  Proof. rewrite concat_app. simpl. rewrite app_nil_r. reflexivity. Qed.

  Lemma monitor_spec s pts s' :
    best_spec (concat (evals s)) (best s) -> monitor af s pts = Ok s' ->
    best_spec (concat (evals s')) (best s') /\ evals s' = evals s ++ [pts] /\ exists p v, best s' = Some (p, v).
  Proof.
    intros Hs Hm. unfold monitor in Hm. destruct pts as [|x r]; [discriminate|].
    pose proof (nanargmax_spec (x :: r)) as Hnow.
    destruct (nanargmax_from af None (x :: r)) as [[p v]|]; [|discriminate].
    injection Hm as <-. cbn [best evals rins snd scan_spec] in *.
    split; [|split; [reflexivity|]].
    - rewrite concat_snoc. destruct (best s) as [[bp bv]|]; cbn [best_spec] in *.
      + destruct (first_max_app _ _ _ _ _ _ Hs Hnow) as [Hlt Hge].
        destruct (Qltb bv v) eqn:E; [apply Hlt, Qltb_true, E|apply Hge, Qltb_false, E].
      + rewrite Hs. exact Hnow.
    - destruct (best s) as [[bp bv]|]; [destruct (Qltb bv v)|]; eauto.
  Qed.
  Lemma monitor_best_mono s pts s' p v :
    best_spec (concat (evals s)) (best s) -> monitor af s pts = Ok s' -> best s = Some (p, v) ->
    exists p' v', best s' = Some (p', v') /\ v <= v'.
  Proof.
    intros Hs Hm Eb. destruct (monitor_spec _ _ _ Hs Hm) as (Hs' & Ee & p' & v' & Eb').
    exists p', v'. split; [exact Eb'|]. rewrite Eb in Hs. rewrite Eb' in Hs'.
    apply (first_max_all_le _ _ _ Hs' p); [|apply Hs]. rewrite Ee, concat_snoc. apply in_or_app. left. exact (first_max_in _ _ _ Hs).
  Qed.

  (* evaluate_and_monitor fails only on a batch (possibly empty) whose values are all NaN; one defined value makes it succeed *)
  Lemma monitor_err s pts e :
    monitor af s pts = Err e -> e = ValueError /\ forall q, In q pts -> af q = None.
  Proof.
    unfold monitor. destruct pts as [|x r]; [intro H; injection H as <-; split; [reflexivity | intros q []]|].
    pose proof (nanargmax_spec (x :: r)) as Hnow.
    destruct (nanargmax_from af None (x :: r)) as [now|]; [discriminate|].
    intro H. injection H as <-. split; [reflexivity | exact Hnow].
  Qed.
  Lemma monitor_defined s pts q w :
    In q pts -> af q = Some w -> exists s', monitor af s pts = Ok s'.
  Proof.
    intros Hq Hw. destruct (monitor af s pts) as [s'|e] eqn:E; [eauto|].
    destruct (monitor_err _ _ _ E) as [_ Hall]. rewrite (Hall q Hq) in Hw. discriminate.
  Qed.

  (* the bookkeeping both optimisers keep: the incumbent is the first maximum of everything evaluated so far, and only
     domain points were evaluated *)
  Definition Good (s : state) : Prop := best_spec (concat (evals s)) (best s) /\ Forall (Forall dom) (evals s).
  (* a DE population lies in the domain and has been evaluated *)
  Definition Inv (s : state) (pop : batch) : Prop := Good s /\ Forall dom pop /\ incl pop (concat (evals s)).

  Lemma init_spec : best_spec (concat (evals init)) (best init).
  Proof. reflexivity. Qed.

  Lemma monitor_good s pts s' : Good s -> Forall dom pts -> monitor af s pts = Ok s' ->
    Good s' /\ evals s' = evals s ++ [pts] /\ exists p v, best s' = Some (p, v).
  Proof.
    intros (Hb & He) Hp Hm. destruct (monitor_spec _ _ _ Hb Hm) as (Hb' & Ee & Hbest).
    split; [split; [exact Hb'|]|split; [exact Ee|exact Hbest]].
    rewrite Ee. apply Forall_app. split; [exact He|]. constructor; [exact Hp|constructor].
  Qed.

  (* the start both optimisers make: nothing evaluated yet, the restricted starting points pending *)
  Lemma start_good starting : Good (fst (do_restrict restrict init starting)) /\ Forall dom (snd (do_restrict restrict init starting)).
  Proof. split; [split; [reflexivity|constructor]|apply restrict_dom]. Qed.

  (* the full statement about one run of DEOptimizer.optimize / AdamOptimizer.optimize *)
  Definition run_ok (starting : batch) (o : output) : Prop :=
    let s := o_state o in
    (* every batch handed to the acquisition function lies in the domain *)
    Forall (Forall dom) (evals s) /\
    (* the returned point is the first evaluated point of maximal value, and its reported value is reproducible *)
    (exists p v, best s = Some (p, v) /\ first_max (concat (evals s)) p v /\
       (* never lower than the value at any domain-restricted starting point *)
       (forall q w, In q (restrict 0 starting) -> af q = Some w -> w <= v)) /\
    (* OptimizationResults *)
    o_start o = starting /\ o_vals o = map af (o_end o) /\ Forall dom (o_end o) /\
    exists pre, evals s = pre ++ [o_end o].

  (* how a run ends: the final batch is monitored and reported *)
  Lemma run_ok_finish starting s pts s' :
    Good s -> Forall dom pts -> (exists later, evals s ++ [pts] = restrict 0 starting :: later) ->
    monitor af s pts = Ok s' -> run_ok starting (mkout s' starting pts (map af pts)).
  Proof.
    intros HG Hp [later Efirst] Hm. destruct (monitor_good _ _ _ HG Hp Hm) as ((Hb & He) & Ee & p & v & Eb).
    unfold run_ok. cbn [o_state o_start o_end o_vals].
    split; [exact He|]. split; [|repeat split; eauto].
    exists p, v. split; [exact Eb|]. rewrite Eb in Hb. split; [exact Hb|].
    intros q w Hq. apply (first_max_all_le _ _ _ Hb). rewrite Ee, Efirst. apply in_or_app. left. exact Hq.
  Qed.

  Lemma replace_in bv : forall pop r q, In q (replace af bv pop r) -> In q pop \/ In q r.
  Proof.
    induction pop as [|p pop IH]; intros [|t r] q Hq; simpl in Hq; try contradiction.
    destruct Hq as [Hq | Hq].
    - destruct (af t) as [w|]; [destruct (Qle_bool bv w)|]; subst q; [right|left|left]; left; reflexivity.
    - destruct (IH _ _ Hq); [left|right]; right; assumption.
  Qed.
  Lemma replace_spec bv : forall pop r, length r = length pop ->
    Forall2 (fun old new => new = old \/ exists w, af new = Some w /\ bv <= w) pop (replace af bv pop r).
  Proof.
    induction pop as [|p pop IH]; intros [|t r] Hl; simpl in *; try discriminate; constructor.
    - destruct (af t) as [w|] eqn:Et; [|left; reflexivity].
      destruct (Qle_bool bv w) eqn:E; [right|left; reflexivity].
      apply Qle_bool_iff in E. exists w. split; [exact Et | exact E].
    - apply IH. injection Hl as Hl. exact Hl.
  Qed.

  Lemma map3_length {A B C D} (f : A -> B -> C -> D) : forall a b c n,
    length a = n -> length b = n -> length c = n -> length (map3 f a b c) = n.
  Proof.
    induction a as [|x a IH]; intros [|y b] [|z c] n Ha Hb Hc; simpl in *; try congruence.
    destruct n; [discriminate|]. f_equal. apply IH; congruence.
  Qed.
  Lemma mapi_from_length {A B} (f : nat -> A -> B) : forall l i, length (mapi_from f i l) = length l.
  Proof. induction l; intros; simpl; [reflexivity | f_equal; auto]. Qed.

  (* what a generation that does not raise has done: n trials, restricted, monitored; members replaced against the
     best value after monitoring *)
  Lemma de_step_ok P s pop d s' pop' :
    de_step af restrict P (s, pop) d = Ok (s', pop') ->
    exists trials bv, length trials = length pop /\ length pop = de_n P /\
      monitor af (mkst (best s) (evals s) (rins s ++ [trials])) (restrict (length (rins s)) trials) = Ok s' /\
      option_map snd (best s') = Some bv /\ pop' = replace af bv pop (restrict (length (rins s)) trials).
  Proof.
    unfold de_step, do_restrict. destruct d as [sel us]. intro H.
    (* the generation proper gets a name while the argument checks are peeled off: each inversion would copy it *)
    set (body := match best s with None => _ | Some _ => _ end) in H.
    apply guard_ok in H. destruct H as [_ H].
    apply guard_ok in H. destruct H as [Esel H]. apply guard_ok in H. destruct H as [Eus H].
    apply guard_ok in H. destruct H as [Elen H]. apply negb_false_iff in Esel, Eus, Elen.
    unfold body in H. clear body. destruct (best s) as [[bl bv0]|]; [|discriminate].
    apply bind_ok in H. destruct H as (s2 & Hm & H).
    destruct (best s2) as [[bp bv]|] eqn:Eb2; [|discriminate]. injection H as <- <-.
    apply Nat.eqb_eq in Elen. apply andb_true_iff in Esel, Eus. destruct Esel as [Esel _], Eus as [Eus _].
    apply Nat.eqb_eq in Esel, Eus.
    exists (map3 (cross (de_CR P)) us (mapi_from (mutant P bl pop) 0 sel) pop), bv.
    split; [|split; [exact Elen|split; [exact Hm|split; [rewrite Eb2; reflexivity|reflexivity]]]].
    rewrite Elen. apply map3_length; [exact Eus | rewrite mapi_from_length; exact Esel | exact Elen].
  Qed.

  (* one DE generation: the invariant is kept, and a member is replaced only by its restricted trial, whose value
     is the (new) best value, hence at least the old member's value *)
  Lemma de_step_spec P s pop d s' pop' :
    Inv s pop -> de_step af restrict P (s, pop) d = Ok (s', pop') ->
    Inv s' pop' /\ (exists r, evals s' = evals s ++ [r]) /\ length pop = de_n P /\
    exists bv, option_map snd (best s') = Some bv /\
      Forall2 (fun old new => new = old \/
                 exists w, af new = Some w /\ w == bv /\ forall u, af old = Some u -> u <= w) pop pop'.
  Proof.
    intros (HG & Hp & Hi) Hstep.
    destruct (de_step_ok _ _ _ _ _ _ Hstep) as (trials & bv & Hrl & Hn & Hm & Eb & ->).
    set (r := restrict (length (rins s)) trials) in *. rewrite <- (restrict_len (length (rins s))) in Hrl. fold r in Hrl.
    assert (Hrd : Forall dom r) by apply restrict_dom.
    destruct (monitor_good (mkst (best s) (evals s) (rins s ++ [trials])) _ _ HG Hrd Hm) as (HG' & Ee & _). cbn [evals] in Ee.
    assert (Hev : forall q, In q pop \/ In q r -> In q (concat (evals s'))).
    { intros q Hq. rewrite Ee, concat_snoc. apply in_or_app. destruct Hq; [left; apply Hi|right]; assumption. }
    split; [|split; [exists r; exact Ee|split; [exact Hn|exists bv; split; [exact Eb|]]]].
    - split; [exact HG'|]. split.
      + apply Forall_forall. intros q Hq. apply replace_in in Hq. rewrite Forall_forall in Hp, Hrd. destruct Hq; auto.
      + intros q Hq. apply Hev, (replace_in bv), Hq.
    - (* bv is the maximum of everything evaluated, old members and trials included *)
      destruct HG' as [Hb' _]. destruct (best s') as [[bp bv']|]; [|discriminate]. injection Eb as ->.
      pose proof (first_max_all_le _ _ _ Hb') as Hmax.
      eapply Forall2_imp_in; [|exact (replace_spec bv pop r Hrl)]. cbv beta.
      intros old new Hold Hnew [H | (w & Hw & Hle)]; [left; exact H|right].
      pose proof (Hmax new w (Hev _ (replace_in _ _ _ _ Hnew)) Hw).
      exists w. split; [exact Hw|]. split; [lra|].
      intros u Hu. pose proof (Hmax old u (Hev _ (or_introl Hold)) Hu). lra.
  Qed.

  Lemma de_loop_spec P : forall ds s pop s' pop',
    Inv s pop -> de_loop af restrict P ds (s, pop) = Ok (s', pop') ->
    Inv s' pop' /\ exists ext, evals s' = evals s ++ ext.
  Proof.
    induction ds as [|d ds IH]; intros s pop s' pop' HI Hl; cbn [de_loop] in Hl.
    - injection Hl as -> ->. split; [exact HI | exists []; rewrite app_nil_r; reflexivity].
    - apply bind_ok in Hl. destruct Hl as ([s1 pop1] & Hstep & Hl).
      destruct (de_step_spec _ _ _ _ _ _ HI Hstep) as (HI1 & (r & Ee) & _).
      destruct (IH _ _ _ _ HI1 Hl) as (HI' & ext & Eext).
      split; [exact HI'|]. exists (r :: ext). rewrite Eext, Ee, <- app_assoc. reflexivity.
  Qed.

  (* the start of a DE run: the restricted starting points, evaluated *)
  Lemma de_start_inv starting s1 :
    monitor af (fst (do_restrict restrict init starting)) (snd (do_restrict restrict init starting)) = Ok s1 ->
    Inv s1 (snd (do_restrict restrict init starting)) /\ evals s1 = [restrict 0 starting].
  Proof.
    intro Hm. destruct (start_good starting) as [HG Hp]. destruct (monitor_good _ _ _ HG Hp Hm) as (HG1 & Ee & _).
    split; [|exact Ee]. split; [exact HG1|]. split; [exact Hp|]. rewrite Ee. cbn. rewrite app_nil_r. apply incl_refl.
  Qed.

  Theorem de_optimize_ok P maxiter selected ds o :
    de_optimize af restrict gen P maxiter selected ds = Ok o ->
    run_ok (starting_points gen (de_n P) selected) o.
  Proof.
    unfold de_optimize. set (starting := starting_points gen (de_n P) selected).
    pose proof (de_start_inv starting) as Hstart. destruct (do_restrict restrict init starting) as [s0 pop0].
    cbn [fst snd] in Hstart.
    destruct (length ds <? maxiter)%nat; [discriminate|]. intro H.
    apply bind_ok in H. destruct H as (s1 & Hm1 & H).
    apply bind_ok in H. destruct H as ([s2 pop] & Hloop & H).
    apply bind_ok in H. destruct H as (s3 & Hm3 & H). injection H as <-. cbn [fst snd] in *.
    destruct (Hstart s1 Hm1) as (HI1 & Ee1).
    destruct (de_loop_spec _ _ _ _ _ _ HI1 Hloop) as ((HG2 & Hp2 & _) & ext & Eext).
    apply (run_ok_finish starting s2 pop s3 HG2 Hp2); [|exact Hm3].
    rewrite Eext, Ee1. exists (ext ++ [pop]). reflexivity.
  Qed.

  (* the replacement rule, along any run: after any number of generations, the next one replaces a member only by
     a trial at least as good (indeed of the best value seen), and the population stays in the domain *)
  Theorem de_no_worse_replacement P selected ds1 d s1 s pop s' pop' :
    monitor af (fst (do_restrict restrict init (starting_points gen (de_n P) selected)))
               (snd (do_restrict restrict init (starting_points gen (de_n P) selected))) = Ok s1 ->
    de_loop af restrict P ds1 (s1, snd (do_restrict restrict init (starting_points gen (de_n P) selected))) = Ok (s, pop) ->
    de_step af restrict P (s, pop) d = Ok (s', pop') ->
    Forall dom pop /\ Forall dom pop' /\ length pop = de_n P /\
    exists bv, option_map snd (best s') = Some bv /\
      Forall2 (fun old new => new = old \/
                 exists w, af new = Some w /\ w == bv /\ forall u, af old = Some u -> u <= w) pop pop'.
  Proof.
    intros Hm1 Hloop Hstep. destruct (de_start_inv _ _ Hm1) as (HI1 & _).
    destruct (de_loop_spec _ _ _ _ _ _ HI1 Hloop) as (HI & _).
    destruct (de_step_spec _ _ _ _ _ _ HI Hstep) as (HI' & _ & Hn & HF).
    split; [apply HI|]. split; [apply HI'|]. split; [exact Hn|exact HF].
  Qed.

  (* the batch in hand is evaluated at the next pass (or by the final monitoring) *)
  Lemma adam_loop_spec : forall ups s pts s' pts',
    Good s -> Forall dom pts -> adam_loop af restrict ups (s, pts) = Ok (s', pts') ->
    Good s' /\ Forall dom pts' /\ exists ext, evals s' ++ [pts'] = evals s ++ [pts] ++ ext.
  Proof.
    induction ups as [|u ups IH]; intros s pts s' pts' HG Hp Hl; cbn [adam_loop] in Hl.
    - injection Hl as -> ->. split; [exact HG|]. split; [exact Hp|]. exists []. rewrite app_nil_r. reflexivity.
    - apply bind_ok in Hl. destruct Hl as (s1 & Hm & Hl).
      destruct (same_shape pts u); [|discriminate]. cbn [negb] in Hl.
      destruct (monitor_good _ _ _ HG Hp Hm) as (HG1 & Ee1 & _).
      apply IH in Hl; [|exact HG1|apply restrict_dom]. destruct Hl as (HG' & Hp' & ext & Eext).
      split; [exact HG'|]. split; [exact Hp'|]. eexists (_ :: ext). rewrite Eext. cbn [evals]. rewrite Ee1, <- !app_assoc. reflexivity.
  Qed.

  Theorem adam_optimize_ok n maxiter selected ups o :
    adam_optimize af restrict gen n maxiter selected ups = Ok o ->
    run_ok (starting_points gen n selected) o.
  Proof.
    unfold adam_optimize. set (starting := starting_points gen n selected).
    destruct (start_good starting) as [HG0 Hp0]. unfold do_restrict in *. cbn [fst snd rins init length] in *.
    destruct (length ups <? maxiter - 1)%nat; [discriminate|]. intro H.
    apply bind_ok in H. destruct H as ([s1 p] & Hloop & H).
    apply bind_ok in H. destruct H as (s2 & Hm & H). injection H as <-. cbn [fst snd] in *.
    destruct (adam_loop_spec _ _ _ _ _ HG0 Hp0 Hloop) as (HG1 & Hp1 & ext & Eext).
    apply (run_ok_finish starting s1 p s2 HG1 Hp1); [|exact Hm].
    exists ext. exact Eext.
  Qed.
End OptProofs.

Lemma mapi_from_nth {A B} (f : nat -> A -> B) d d' : forall l k i,
  (i < length l)%nat -> nth i (mapi_from f k l) d = f (k + i)%nat (nth i l d').
Proof.
  induction l as [|x l IH]; intros k i Hi; simpl in *; [lia|].
  destruct i as [|i]; [rewrite Nat.add_0_r; reflexivity|].
  rewrite IH by lia. replace (S k + i)%nat with (k + S i)%nat by lia. reflexivity.
Qed.
Lemma fix_point_length fixed p : length (fix_point fixed p) = length p.
Proof. unfold fix_point. apply mapi_from_length. Qed.

Theorem fix_point_fixed fixed p k v d :
  lookup k fixed = Some v -> (k < length p)%nat -> nth k (fix_point fixed p) d = v.
Proof. intros Hl Hk. unfold fix_point. rewrite (mapi_from_nth _ d 0) by exact Hk. simpl. rewrite Hl. reflexivity. Qed.
Theorem fix_point_free fixed p k d :
  lookup k fixed = None -> (k < length p)%nat -> nth k (fix_point fixed p) d = nth k p d.
Proof. intros Hl Hk. unfold fix_point. rewrite (mapi_from_nth _ d d) by exact Hk. simpl. rewrite Hl. reflexivity. Qed.

(* every row returned by the box restriction of a fixed-index domain carries the fixed values *)
Theorem restrict_box_fixed lb ub fixed b q k v d :
  In q (restrict_box lb ub fixed b) -> lookup k fixed = Some v -> (k < length q)%nat -> nth k q d = v.
Proof.
  unfold restrict_box. intros Hq Hl Hk. apply in_map_iff in Hq. destruct Hq as (p & <- & _).
  rewrite fix_point_length in Hk. apply fix_point_fixed; assumption.
Qed.

Lemma clip_range lo hi x : lo <= hi -> lo <= clip lo hi x /\ clip lo hi x <= hi.
Proof.
  intro H. unfold clip. destruct (Qle_bool lo x) eqn:E1.
  - apply Qle_bool_iff in E1. destruct (Qle_bool x hi) eqn:E2.
    + apply Qle_bool_iff in E2. split; assumption.
    + split; [exact H | apply Qle_refl].
  - destruct (Qle_bool lo hi) eqn:E2; [split; [apply Qle_refl | exact H]|].
    apply Qle_bool_iff in H. congruence.
Qed.
