(* Proofs for C07 about the Adam moment formulas of Model.Optim, coordinate by coordinate in exact arithmetic, the square
   root an oracle with the contract  0 <= s, s * s == v; the inner product of the first update vector with the gradient. *)
From Coq Require Import List Lia Lqa Qabs.
From LV Require Import Model.Optim.
Import ListNotations.
Open Scope Q_scope.

Lemma sqrt_sq_abs g s : 0 <= s -> s * s == g * g -> s == Qabs g.
Proof. intros Hs H. apply Qabs_case; intros Hg; nra. Qed.

Lemma Qdiv_nonneg a b : 0 <= a -> 0 < b -> 0 <= a / b.
Proof. intros Ha Hb. unfold Qdiv. apply Qmult_le_0_compat; [exact Ha | apply Qlt_le_weak, Qinv_lt_0_compat, Hb]. Qed.
Lemma Qdiv_pos a b : 0 < a -> 0 < b -> 0 < a / b.
Proof. intros Ha Hb. unfold Qdiv. apply Qmult_lt_0_compat; [exact Ha | apply Qinv_lt_0_compat, Hb]. Qed.

(* bias correction at step 1 of a moment started at 0 returns the fresh term *)
Lemma unbias_first b x : ~ b == 1 -> (b * 0 + (1 - b) * x) / (1 - b * 1) == x.
Proof. intro H. setoid_replace (b * 0 + (1 - b) * x) with (x * (1 - b * 1)) by lra. apply Qdiv_mult_l. lra. Qed.

Lemma adam_first_step b1 b2 lr eps g s :
  ~ b1 == 1 -> 0 <= s -> s * s == a_vhat (adam_coord b1 b2 lr eps 1 0 0 g s) -> ~ b2 == 1 ->
  a_upd (adam_coord b1 b2 lr eps 1 0 0 g s) == adam_first lr eps g.
Proof.
  intros H1 Hs Hv H2. unfold adam_coord, adam_first in *. cbn [a_upd a_vhat qpow] in *.
  rewrite (unbias_first b2 _ H2) in Hv.
  assert (Es : s == Qabs g) by (apply sqrt_sq_abs; [exact Hs|lra]).
  rewrite (unbias_first b1 _ H1), Es. unfold Qdiv. lra.
Qed.

Lemma adam_first_times_g lr eps g : adam_first lr eps g * g == lr * (g * g) / (Qabs g + eps).
Proof. unfold adam_first, Qdiv. lra. Qed.

(* it never points against the gradient, and points along it unless the gradient (or the learning rate) is zero *)
Lemma adam_first_ascent lr eps g : 0 <= lr -> 0 < Qabs g + eps -> 0 <= adam_first lr eps g * g.
Proof. intros Hl Hd. rewrite adam_first_times_g. apply Qdiv_nonneg; [nra | exact Hd]. Qed.
Lemma adam_first_ascent_strict lr eps g : 0 < lr -> 0 < Qabs g + eps -> ~ g == 0 -> 0 < adam_first lr eps g * g.
Proof.
  intros Hl Hd Hg. rewrite adam_first_times_g. apply Qdiv_pos; [|exact Hd].
  assert (0 < g * g) by (destruct (Q_dec g 0) as [[L|L]|E]; [nra|nra|contradiction]).
  nra.
Qed.

(* the whole first update vector has a non-negative inner product with the gradient *)
Lemma adam_first_inner lr eps : forall g, 0 <= lr -> 0 < eps -> 0 <= dot (map (adam_first lr eps) g) g.
Proof.
  induction g as [|x g IH]; intros Hl He; simpl; [lra|].
  assert (0 < Qabs x + eps) by (pose proof (Qabs_nonneg x); lra).
  pose proof (adam_first_ascent lr eps x Hl H). specialize (IH Hl He). lra.
Qed.

Lemma qpow_range b : 0 < b -> b < 1 -> forall i, (1 <= i)%nat -> 0 < qpow b i /\ qpow b i < 1.
Proof.
  intros H0 H1 i Hi. induction i as [|i IH]; [lia|].
  destruct i as [|i].
  - simpl. lra.
  - assert (Hi' : (1 <= S i)%nat) by lia. specialize (IH Hi'). change (qpow b (S (S i))) with (b * qpow b (S i)). nra.
Qed.

(* one step with a gradient of sign sg (sg = 1: non-negative, sg = -1: non-positive) keeps the first moment on the
   opposite side and produces an update of the gradient's sign *)
Lemma adam_coord_sign sg b1 b2 lr eps i m v g s :
  0 < b1 -> b1 < 1 -> 0 <= lr -> 0 < s + eps -> (1 <= i)%nat -> sg * m <= 0 -> 0 <= sg * g ->
  sg * a_m (adam_coord b1 b2 lr eps i m v g s) <= 0 /\ 0 <= sg * a_upd (adam_coord b1 b2 lr eps i m v g s).
Proof.
  intros Hb0 Hb1 Hl Hd Hi Hm Hg. unfold adam_coord. cbn [a_m a_upd].
  destruct (qpow_range b1 Hb0 Hb1 i Hi) as [Hp0 Hp1].
  set (m' := b1 * m + (1 - b1) * - g).
  assert (Hm' : sg * m' <= 0) by (unfold m'; nra).
  split; [exact Hm'|].
  assert (E : sg * (- lr * (m' / (1 - qpow b1 i)) / (s + eps)) == (lr * (- (sg * m'))) / ((1 - qpow b1 i) * (s + eps))) by (unfold Qdiv; rewrite Qinv_mult_distr; lra).
  rewrite E. apply Qdiv_nonneg; nra.
Qed.

Lemma adam_run_sign sg b1 b2 lr eps : 0 < b1 -> b1 < 1 -> 0 <= lr ->
  forall gs ss i m v, (1 <= i)%nat -> sg * m <= 0 ->
  Forall (fun g => 0 <= sg * g) gs -> Forall (fun s => 0 < s + eps) ss ->
  Forall (fun o => 0 <= sg * a_upd o) (adam_coord_run b1 b2 lr eps i m v gs ss).
Proof.
  intros Hb0 Hb1 Hl. induction gs as [|g gs IH]; intros [|s ss] i m v Hi Hm Hg Hs; simpl; try constructor.
  - inversion Hg; subst. inversion Hs; subst.
    apply (adam_coord_sign sg b1 b2 lr eps i m v g s); assumption.
  - inversion Hg; subst. inversion Hs; subst.
    apply IH; [lia | | assumption | assumption].
    apply (adam_coord_sign sg b1 b2 lr eps i m v g s); assumption.
Qed.

(* while the gradient of a coordinate keeps one sign, every Adam update of that coordinate has that sign *)
Theorem adam_constant_sign_ascent b1 b2 lr eps gs ss :
  0 < b1 -> b1 < 1 -> 0 <= lr -> Forall (fun s => 0 < s + eps) ss ->
  (Forall (fun g => 0 <= g) gs -> Forall (fun o => 0 <= a_upd o) (adam_coord_run b1 b2 lr eps 1 0 0 gs ss)) /\
  (Forall (fun g => g <= 0) gs -> Forall (fun o => a_upd o <= 0) (adam_coord_run b1 b2 lr eps 1 0 0 gs ss)).
Proof.
  intros Hb0 Hb1 Hl Hs. split; intro Hg.
  - pose proof (adam_run_sign 1 b1 b2 lr eps Hb0 Hb1 Hl gs ss 1%nat 0 0 (le_n 1)) as H.
    assert (H' : Forall (fun o => 0 <= 1 * a_upd o) (adam_coord_run b1 b2 lr eps 1 0 0 gs ss)).
    { apply H; [lra | | exact Hs]. eapply Forall_impl; [|exact Hg]. intros a Ha. cbv beta in *. lra. }
    eapply Forall_impl; [|exact H']. intros a Ha. cbv beta in *. lra.
  - pose proof (adam_run_sign (-1) b1 b2 lr eps Hb0 Hb1 Hl gs ss 1%nat 0 0 (le_n 1)) as H.
    assert (H' : Forall (fun o => 0 <= (-1) * a_upd o) (adam_coord_run b1 b2 lr eps 1 0 0 gs ss)).
    { apply H; [lra | | exact Hs]. eapply Forall_impl; [|exact Hg]. intros a Ha. cbv beta in *. lra. }
    eapply Forall_impl; [|exact H']. intros a Ha. cbv beta in *. lra.
Qed.
