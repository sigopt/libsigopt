(* Proofs about Model.ParallelEI (Monte-Carlo parallel expected improvement, C05).
   The array program is read through `tform`: a (c, n, b) array given by its entries.  What does not depend on the estimator - arrays
   given entry by entry, the two slice updates, the loop over blocks of draws, the batches of the public entry point - is stated over
   variables and used again by Proofs.ParallelEIF for the estimator with failure models (whose model file holds `blocks`, the cutting
   of the executed draws into the passes of the loop). *)
From Coq Require Import List QArith Lia Lqa.
From LV Require Import Model.ParallelEI Model.ParallelEIF.
Import ListNotations.
Open Scope Q_scope.

Lemma map2_map_same {A B C D} (f : B -> C -> D) (F : A -> B) (G : A -> C) (l : list A) :
  map2 f (map F l) (map G l) = map (fun x => f (F x) (G x)) l.
Proof. induction l as [|x l IH]; [reflexivity|]. cbn [map map2]. rewrite IH. reflexivity. Qed.

Lemma map2_length {A B C} (f : A -> B -> C) : forall a b, length (map2 f a b) = Nat.min (length a) (length b).
Proof. induction a as [|x a IH]; intros [|y b]; cbn [map2 length]; try reflexivity. rewrite IH. reflexivity. Qed.

Lemma map2_plus_nonneg : forall a b, Forall (fun x => 0 <= x) a -> Forall (fun x => 0 <= x) b -> Forall (fun x => 0 <= x) (map2 Qplus a b).
Proof.
  induction a as [|x a IH]; intros b Ha Hb; [constructor|]. destruct b as [|y b]; [constructor|]. cbn [map2].
  inversion Ha; subst. inversion Hb; subst. constructor; [lra|]. apply IH; assumption.
Qed.

Lemma nth_map_lt {A B} (g : A -> B) (l : list A) (k : nat) (d : B) (d' : A) :
  (k < length l)%nat -> nth k (map g l) d = g (nth k l d').
Proof.
  intros H. rewrite (nth_indep (map g l) d (g d')); [|rewrite map_length; exact H]. apply map_nth.
Qed.

Lemma nth_map_seq {B} (g : nat -> B) (s n k : nat) (d : B) : (k < n)%nat -> nth k (map g (seq s n)) d = g (s + k)%nat.
Proof.
  intros H. rewrite (nth_map_lt g (seq s n) k d O); [|rewrite seq_length; exact H]. rewrite seq_nth; [reflexivity|exact H].
Qed.

Lemma map_nth_seq0 {A B} (f : A -> B) (d : A) (l : list A) : map (fun i => f (nth i l d)) (seq 0 (length l)) = map f l.
Proof.
  induction l as [|x l IH]; [reflexivity|]. cbn [length seq map nth]. f_equal. rewrite <- seq_shift, map_map. exact IH.
Qed.

Lemma map2_map_seq_r {B C D} (f : B -> C -> D) (F : nat -> B) (l : list C) (d : C) : forall s,
  map2 f (map F (seq s (length l))) l = map (fun j => f (F j) (nth (j - s) l d)) (seq s (length l)).
Proof.
  induction l as [|x l IH]; intros s; [reflexivity|]. cbn [length seq map map2]. rewrite Nat.sub_diag. cbn [nth]. f_equal.
  rewrite IH. apply map_ext_in. intros i Hi. apply in_seq in Hi. replace (i - s)%nat with (S (i - S s)) by lia. reflexivity.
Qed.

Lemma seq_nonempty s c : (0 < c)%nat -> seq s c <> [].
Proof. destruct c; [lia|discriminate]. Qed.

Lemma firstn_app_len {A} (a b : list A) n : length a = n -> firstn n (a ++ b) = a.
Proof. intros <-. induction a as [|x a IH]; [reflexivity|]. cbn [length app firstn]. rewrite IH. reflexivity. Qed.

Lemma skipn_app_len {A} (a b : list A) n : length a = n -> skipn n (a ++ b) = b.
Proof. intros <-. induction a as [|x a IH]; [reflexivity|]. exact IH. Qed.

Lemma skipn_add {A} : forall (a b : nat) (l : list A), skipn (a + b) l = skipn b (skipn a l).
Proof.
  induction a as [|a IH]; intros b l; [reflexivity|]. destruct l as [|x l]; [cbn; destruct b; reflexivity|]. cbn [plus skipn]. apply IH.
Qed.

Lemma firstn_add {A} : forall (a b : nat) (l : list A), firstn (a + b) l = firstn a l ++ firstn b (skipn a l).
Proof.
  induction a as [|a IH]; intros b l; [reflexivity|]. destruct l as [|x l]; [cbn; destruct b; reflexivity|]. cbn [plus firstn skipn app]. rewrite IH. reflexivity.
Qed.

Lemma nth_firstn_lt {A} (d : A) : forall (n i : nat) (l : list A), (i < n)%nat -> nth i (firstn n l) d = nth i l d.
Proof.
  induction n as [|n IH]; intros i l H; [lia|]. destruct l as [|x l]; [reflexivity|]. destruct i as [|i]; [reflexivity|].
  cbn [firstn nth]. apply IH. lia.
Qed.

Lemma nth_skipn {A} (d : A) : forall (n i : nat) (l : list A), nth i (skipn n l) d = nth (n + i) l d.
Proof.
  induction n as [|n IH]; intros i l; [reflexivity|]. destruct l as [|x l]; [cbn; destruct i; reflexivity|]. cbn [skipn plus nth]. apply IH.
Qed.

Lemma app_nth2_len {A} (l l' : list A) (d : A) n i : length l = n -> nth (n + i) (l ++ l') d = nth i l' d.
Proof. intros <-. apply app_nth2_plus. Qed.

Lemma In_firstn_skipn {A} (x : A) n m l : In x (firstn n (skipn m l)) -> In x l.
Proof.
  intros H. rewrite <- (firstn_skipn m l). apply in_or_app. right.
  rewrite <- (firstn_skipn n (skipn m l)). apply in_or_app. left. exact H.
Qed.

Lemma repeat_map_seq {A} (x : A) n : repeat x n = map (fun _ => x) (seq 0 n).
Proof.
  generalize 0%nat. induction n as [|n IH]; intros s; [reflexivity|]. cbn [repeat seq map]. rewrite <- IH. reflexivity.
Qed.

Lemma rows_length w : forall r v, length (rows w r v) = r.
Proof. induction r as [|r IH]; intros v; [reflexivity|]. cbn [rows length]. rewrite IH. reflexivity. Qed.

Lemma rows_add w : forall r1 r2 v, rows w (r1 + r2) v = rows w r1 v ++ rows w r2 (skipn (r1 * w) v).
Proof.
  induction r1 as [|r1 IH]; intros r2 v; [reflexivity|]. cbn [plus rows app mult]. rewrite IH, skipn_add. reflexivity.
Qed.

Lemma rows_firstn w : forall r v, rows w r (firstn (r * w) v) = rows w r v.
Proof.
  induction r as [|r IH]; intros v; [reflexivity|]. cbn [rows mult].
  rewrite firstn_firstn, Nat.min_l by lia. f_equal. rewrite <- firstn_skipn_comm. apply IH.
Qed.

Lemma rows_map (f : Q -> Q) w : forall r v, rows w r (map f v) = map (map f) (rows w r v).
Proof.
  induction r as [|r IH]; intros v; [reflexivity|]. cbn [rows map]. rewrite firstn_map, skipn_map, IH. reflexivity.
Qed.

Lemma rows_concat (q : nat) : forall (ms : list vec), (forall m, In m ms -> length m = q) -> rows q (length ms) (concat ms) = ms.
Proof.
  induction ms as [|m ms IH]; intros H; [reflexivity|]. cbn [length concat rows].
  assert (Hm : length m = q) by (apply H; left; reflexivity).
  rewrite (firstn_app_len _ _ _ Hm), (skipn_app_len _ _ _ Hm), IH; [reflexivity|]. intros m' Hm'. apply H. right. exact Hm'.
Qed.

Lemma rows_concat_prefix c : forall r v, (r * c <= length v)%nat ->
  concat (rows c r v) = firstn (r * c) v /\ Forall (fun z => length z = c) (rows c r v).
Proof.
  induction r as [|r IH]; intros v H; [split; [reflexivity|constructor]|]. cbn [rows concat mult] in *.
  destruct (IH (skipn c v)) as (I1 & I2); [rewrite skipn_length; lia|]. split.
  - rewrite I1. symmetry. apply firstn_add.
  - constructor; [apply firstn_length_le; lia|exact I2].
Qed.

Lemma blocks_concat c b : forall t stream, concat (blocks c b t stream) = rows c (t * b) stream.
Proof.
  induction t as [|t IH]; intros stream; [reflexivity|]. cbn [blocks concat mult]. rewrite IH, rows_add. reflexivity.
Qed.

Lemma blocks_length c b : forall t stream, length (blocks c b t stream) = t.
Proof. induction t as [|t IH]; intros stream; [reflexivity|]. cbn [blocks length]. rewrite IH. reflexivity. Qed.

Lemma blocks_each c b : forall t stream blk, In blk (blocks c b t stream) -> length blk = b.
Proof.
  induction t as [|t IH]; intros stream blk H; [destruct H|]. destruct H as [<-|H]; [apply rows_length|]. apply (IH _ _ H).
Qed.

Lemma sumQ_app a b : sumQ (a ++ b) == sumQ a + sumQ b.
Proof. unfold sumQ. induction a as [|x a IH]; cbn [app fold_right]; [lra|]. rewrite IH. lra. Qed.

Lemma sumQ_map_ext {A} (f g : A -> Q) (l : list A) : (forall x, In x l -> f x == g x) -> sumQ (map f l) == sumQ (map g l).
Proof.
  unfold sumQ. induction l as [|x l IH]; intros H; [reflexivity|]. cbn [map fold_right].
  rewrite IH; [|intros y Hy; apply H; right; exact Hy]. rewrite (H x); [reflexivity|left; reflexivity].
Qed.

Lemma sumQ_map_le {A} (f g : A -> Q) (l : list A) : (forall x, In x l -> f x <= g x) -> sumQ (map f l) <= sumQ (map g l).
Proof.
  unfold sumQ. induction l as [|x l IH]; intros H; [cbn; lra|]. cbn [map fold_right].
  assert (f x <= g x) by (apply H; left; reflexivity).
  assert (fold_right Qplus 0 (map f l) <= fold_right Qplus 0 (map g l)) by (apply IH; intros y Hy; apply H; right; exact Hy). lra.
Qed.

Lemma sumQ_concat_map {A} (f : A -> Q) (ls : list (list A)) : sumQ (map (fun l => sumQ (map f l)) ls) == sumQ (map f (concat ls)).
Proof.
  induction ls as [|l ls IH]; [reflexivity|]. cbn [map concat]. rewrite map_app, sumQ_app, <- IH. reflexivity.
Qed.

Lemma sumQ_nonneg l : Forall (fun x => 0 <= x) l -> 0 <= sumQ l.
Proof.
  unfold sumQ. induction 1 as [|x l Hx _ IH]; cbn [fold_right]; lra.
Qed.

Lemma fold_left_Qplus l : forall a, fold_left Qplus l a == a + sumQ l.
Proof. unfold sumQ. induction l as [|x l IH]; intros a; cbn [fold_left fold_right]; [lra|]. rewrite IH. lra. Qed.

Lemma qmax_cases a b : (qmax a b == a /\ b <= a) \/ (qmax a b == b /\ a <= b).
Proof.
  unfold qmax. destruct (Qle_bool a b) eqn:E.
  - right. apply Qle_bool_iff in E. split; [reflexivity|exact E].
  - left. assert (~ a <= b) by (rewrite <- Qle_bool_iff; congruence). split; [reflexivity|lra].
Qed.

Lemma qmin_cases a b : (qmin a b == a /\ a <= b) \/ (qmin a b == b /\ b <= a).
Proof.
  unfold qmin. destruct (Qle_bool a b) eqn:E.
  - left. apply Qle_bool_iff in E. split; [reflexivity|exact E].
  - right. assert (~ a <= b) by (rewrite <- Qle_bool_iff; congruence). split; [reflexivity|lra].
Qed.

Lemma qmax_compat a a' b b' : a == a' -> b == b' -> qmax a b == qmax a' b'.
Proof. intros Ha Hb. destruct (qmax_cases a b) as [[? ?]|[? ?]]; destruct (qmax_cases a' b') as [[? ?]|[? ?]]; lra. Qed.

Lemma qmin_compat a a' b b' : a == a' -> b == b' -> qmin a b == qmin a' b'.
Proof. intros Ha Hb. destruct (qmin_cases a b) as [[? ?]|[? ?]]; destruct (qmin_cases a' b') as [[? ?]|[? ?]]; lra. Qed.

Lemma qmax_le_compat a a' b b' : a <= a' -> b <= b' -> qmax a b <= qmax a' b'.
Proof. intros Ha Hb. destruct (qmax_cases a b) as [[? ?]|[? ?]]; destruct (qmax_cases a' b') as [[? ?]|[? ?]]; lra. Qed.

Lemma qmax_ub_l a b : a <= qmax a b.
Proof. destruct (qmax_cases a b) as [[? ?]|[? ?]]; lra. Qed.

Lemma qmax_ub_r a b : b <= qmax a b.
Proof. destruct (qmax_cases a b) as [[? ?]|[? ?]]; lra. Qed.

Lemma qmax_lub a b x : a <= x -> b <= x -> qmax a b <= x.
Proof. intros Ha Hb. destruct (qmax_cases a b) as [[? ?]|[? ?]]; lra. Qed.

Lemma qmax0_nonneg x : 0 <= qmax 0 x.
Proof. apply qmax_ub_l. Qed.

Lemma improvement_nonneg best ys : 0 <= improvement best ys.
Proof. apply qmax0_nonneg. Qed.

Lemma qmax_best_minus best x y : qmax (best - x) (best - y) == best - qmin x y.
Proof. destruct (qmax_cases (best - x) (best - y)) as [[? ?]|[? ?]]; destruct (qmin_cases x y) as [[? ?]|[? ?]]; lra. Qed.

Lemma amax_map_ext {A} (f g : A -> Q) (l : list A) : (forall x, In x l -> f x == g x) -> amax (map f l) == amax (map g l).
Proof.
  induction l as [|x l IH]; intros H; [reflexivity|]. destruct l as [|x' l].
  - apply H. left. reflexivity.
  - change (qmax (f x) (amax (map f (x' :: l))) == qmax (g x) (amax (map g (x' :: l)))).
    apply qmax_compat; [apply H; left; reflexivity|]. apply IH. intros y Hy. apply H. right. exact Hy.
Qed.

Lemma amin_map_ext {A} (f g : A -> Q) (l : list A) : (forall x, In x l -> f x == g x) -> amin (map f l) == amin (map g l).
Proof.
  induction l as [|x l IH]; intros H; [reflexivity|]. destruct l as [|x' l].
  - apply H. left. reflexivity.
  - change (qmin (f x) (amin (map f (x' :: l))) == qmin (g x) (amin (map g (x' :: l)))).
    apply qmin_compat; [apply H; left; reflexivity|]. apply IH. intros y Hy. apply H. right. exact Hy.
Qed.

Lemma amax_best_minus {A} (best : Q) (y : A -> Q) : forall js : list A, js <> [] ->
  amax (map (fun j => best - y j) js) == best - amin (map y js).
Proof.
  induction js as [|j js IH]; intros H; [congruence|]. destruct js as [|j' js]; [reflexivity|].
  change (qmax (best - y j) (amax (map (fun j => best - y j) (j' :: js))) == best - qmin (y j) (amin (map y (j' :: js)))).
  rewrite <- qmax_best_minus. apply qmax_compat; [reflexivity|]. apply IH. congruence.
Qed.

Lemma Lz_opp c L z j : Lz c L (map Qopp z) j == - Lz c L z j.
Proof.
  unfold Lz, sumQ. induction (seq 0 c) as [|l ls IH]; cbn [map fold_right]; [lra|]. rewrite IH.
  change 0 with (- 0) at 1. rewrite (map_nth Qopp z 0 l). lra.
Qed.

Lemma ofnat_nonneg n : 0 <= ofnat n.
Proof. unfold ofnat. change 0 with (inject_Z 0). rewrite <- Zle_Qle. lia. Qed.

Lemma div_nonneg a b : 0 <= a -> 0 <= b -> 0 <= a / b.
Proof. intros Ha Hb. apply Qmult_le_0_compat; [exact Ha|apply Qinv_le_0_compat, Hb]. Qed.

Definition tform (c n : nat) (normals : mat) (F : nat -> nat -> vec -> Q) : list mat :=
  map (fun j => map (fun k => map (F j k) normals) (seq 0 n)) (seq 0 c).

Lemma tform_ext c n normals F G : (forall j k z, F j k z = G j k z) -> tform c n normals F = tform c n normals G.
Proof. intros H. unfold tform. apply map_ext. intros j. apply map_ext. intros k. apply map_ext. apply H. Qed.

Lemma tensordot_chol c sets normals :
  tensordot c (length sets) (chol_tensor c sets) normals = tform c (length sets) normals (fun j k z => Lz c (snd (nth k sets dcset)) z j).
Proof.
  unfold tensordot, chol_tensor, tform. rewrite map_map. apply map_ext_in. intros j Hj. apply map_ext_in. intros k Hk.
  apply map_ext. intros z. unfold Lz. f_equal. apply map_ext_in. intros l Hl. f_equal.
  apply in_seq in Hl. apply in_seq in Hk. unfold entry at 1.
  rewrite (nth_map_seq _ 0 c l []) by lia. rewrite (nth_map_lt _ sets k 0 dcset) by lia. reflexivity.
Qed.

Lemma mean_to_evaluate_eq q sets : (forall s, In s sets -> length (fst s) = q) ->
  mean_to_evaluate q sets = map (fun j => map (fun k => nth j (fst (nth k sets dcset)) 0) (seq 0 (length sets))) (seq 0 q).
Proof.
  intros Hwf. unfold mean_to_evaluate, mean_flat, transpose.
  assert (Hr : rows q (length sets) (concat (map fst sets)) = map fst sets).
  { rewrite <- (map_length fst sets). apply rows_concat.
    intros m Hm. apply in_map_iff in Hm. destruct Hm as (s & <- & Hs). apply Hwf. exact Hs. }
  rewrite Hr. apply map_ext. intros j. rewrite map_map. symmetry. apply (map_nth_seq0 (fun s => nth j (fst s) 0) dcset sets).
Qed.

(* The two slice updates `pp[:q] += f(mean_to_evaluate)`, `pp[-p:] += f(mean_being_sampled)`, over the operation h that combines an
   entry with the mean of its point: the model's add_first / add_last unfold to upd_first / upd_last at h x m = x + (best - m), and
   addm_first / addm_last (failure models) at h x m = x + m. *)
Definition upd_first (h : Q -> Q -> Q) (q : nat) (pp : list mat) (mte : mat) : list mat :=
  map2 (fun ppj mj => map2 (fun ppjk mjk => map (fun x => h x mjk) ppjk) ppj mj) (firstn q pp) mte ++ skipn q pp.
Definition upd_last (h : Q -> Q -> Q) (p : nat) (pp : list mat) (mbs : vec) : list mat :=
  let hd := (length pp - p)%nat in
  firstn hd pp ++ map2 (fun ppj m => map (map (fun x => h x m)) ppj) (skipn hd pp) mbs.

Lemma upd_first_app h q (A rest : list mat) mte : length A = q -> upd_first h q (A ++ rest) mte
  = map2 (fun ppj mj => map2 (fun ppjk mjk => map (fun x => h x mjk) ppjk) ppj mj) A mte ++ rest.
Proof. intros H. unfold upd_first. rewrite (firstn_app_len A rest q H), (skipn_app_len A rest q H). reflexivity. Qed.

Lemma upd_last_app h p (A rest : list mat) mbs : length rest = p -> upd_last h p (A ++ rest) mbs
  = A ++ map2 (fun ppj m => map (map (fun x => h x m)) ppj) rest mbs.
Proof.
  intros <-. unfold upd_last. rewrite app_length, Nat.add_sub, (firstn_app_len A rest _ eq_refl), (skipn_app_len A rest _ eq_refl). reflexivity.
Qed.

(* together they combine entry [j][k][.] with the j-th of (means of set k) ++ (pending means) *)
Lemma slice_updates h q sets mbs normals X : (forall s, In s sets -> length (fst s) = q) ->
  let c := (q + length mbs)%nat in
  let pp1 := upd_first h q (tform c (length sets) normals X) (mean_to_evaluate q sets) in
  (if (length mbs =? 0)%nat then pp1 else upd_last h (length mbs) pp1 mbs)
  = tform c (length sets) normals (fun j k z => h (X j k z) (nth j (fst (nth k sets dcset) ++ mbs) 0)).
Proof.
  intros Hwf c pp1. subst pp1. rewrite (mean_to_evaluate_eq q sets Hwf). unfold tform, c. rewrite seq_app, !map_app. cbn [plus].
  set (n := length sets). set (p := length mbs).
  set (row' := fun j => map (fun k => map (fun z => h (X j k z) (nth j (fst (nth k sets dcset) ++ mbs) 0)) normals) (seq 0 n)).
  assert (Hmeans : forall k, (k < n)%nat -> length (fst (nth k sets dcset)) = q) by (intros k Hk; apply Hwf, nth_In, Hk).
  assert (Hlen : forall (l : nat -> mat) s m, length (map l (seq s m)) = m) by (intros l s m; rewrite map_length; apply seq_length).
  rewrite upd_first_app, !map2_map_same by apply Hlen.
  replace (map _ (seq 0 q)) with (map row' (seq 0 q)).
  - destruct (p =? 0)%nat eqn:Ep; [apply Nat.eqb_eq in Ep; rewrite Ep; reflexivity|].
    rewrite upd_last_app by apply Hlen. f_equal. unfold p. rewrite (map2_map_seq_r _ _ mbs 0 q).
    apply map_ext_in. intros j Hj. apply in_seq in Hj.
    rewrite map_map. apply map_ext_in. intros k Hk. apply in_seq in Hk. rewrite map_map. apply map_ext. intros z.
    rewrite app_nth2; rewrite (Hmeans k) by apply Hk; [reflexivity|lia].
  - apply map_ext_in. intros j Hj. apply in_seq in Hj.
    rewrite map2_map_same. apply map_ext_in. intros k Hk. apply in_seq in Hk. rewrite map_map. apply map_ext. intros z.
    rewrite app_nth1; [reflexivity|]. rewrite (Hmeans k) by apply Hk. lia.
Qed.

Lemma amax0_tform c n normals F :
  amax0 n (length normals) (tform c n normals F) = map (fun k => map (fun z => amax (map (fun j => F j k z) (seq 0 c))) normals) (seq 0 n).
Proof.
  unfold amax0. apply map_ext_in. intros k Hk. apply in_seq in Hk.
  rewrite <- (map_nth_seq0 (fun z => amax (map (fun j => F j k z) (seq 0 c))) [] normals).
  apply map_ext_in. intros i Hi. apply in_seq in Hi. f_equal. unfold tform. rewrite map_map. apply map_ext. intros j. unfold entry.
  rewrite (nth_map_seq _ 0 n k []) by lia. rewrite (nth_map_lt _ normals i 0 []) by lia. reflexivity.
Qed.

Lemma sum_fmax_nonneg (M : mat) : Forall (fun x => 0 <= x) (map (fun row => sumQ (map (qmax 0) row)) M).
Proof. apply Forall_map, Forall_forall. intros row _. apply sumQ_nonneg, Forall_map, Forall_forall. intros x _. apply qmax0_nonneg. Qed.

(* the contribution of one draw z to candidate set s, in the code's own expression *)
Definition gain (c : nat) (s : cset) (mp : vec) (best : Q) (z : vec) : Q :=
  qmax 0 (amax (map (fun j => Lz c (snd s) z j + (best - nth j (fst s ++ mp) 0)) (seq 0 c))).

Lemma gain_improvement c s mp best z : (0 < c)%nat -> gain c s mp best z == improvement best (sample c (fst s ++ mp) (snd s) z).
Proof.
  intros Hc. unfold gain, improvement, sample. apply qmax_compat; [reflexivity|].
  rewrite <- (amax_best_minus best (fun j => nth j (fst s ++ mp) 0 - Lz c (snd s) z j)) by (apply seq_nonempty; exact Hc).
  apply amax_map_ext. intros j _. lra.
Qed.

Lemma block_contribution_eq q sets mp best normals : (forall s, In s sets -> length (fst s) = q) ->
  block_contribution q sets mp best normals =
  map (fun k => sumQ (map (gain (q + length mp) (nth k sets dcset) mp best) normals)) (seq 0 (length sets)).
Proof.
  intros Hwf. unfold block_contribution. rewrite tensordot_chol.
  rewrite (slice_updates (fun x m => x + (best - m)) q sets mp normals _ Hwf
           : (if (length mp =? 0)%nat then add_first q _ best _ else add_last (length mp) (add_first q _ best _) best mp) = _).
  rewrite amax0_tform, map_map. apply map_ext. intros k. rewrite map_map. reflexivity.
Qed.

Lemma passes_done N b fuel executed : (N <= executed)%nat -> passes N b fuel executed = 0%nat.
Proof. intros H. destruct fuel; [reflexivity|]. cbn [passes]. apply Nat.ltb_ge in H. rewrite H. reflexivity. Qed.

Lemma passes_bounds N b : (0 < b)%nat -> forall fuel executed, (executed < N <= executed + fuel)%nat ->
  (N <= executed + passes N b fuel executed * b < N + b)%nat.
Proof.
  intros Hb. induction fuel as [|fuel IH]; intros executed H; [lia|]. cbn [passes].
  destruct (Nat.ltb_spec executed N) as [_|Hge]; [|lia]. cbn [mult].
  destruct (Nat.lt_ge_cases (executed + b) N) as [Hlt|Hge].
  - specialize (IH (executed + b)%nat). lia.
  - rewrite (passes_done N b fuel _ Hge). lia.
Qed.

Theorem n_exec_spec N B : (0 < N)%nat -> (0 < B)%nat ->
  let b := Nat.min B N in
  (N <= n_exec N B)%nat /\ (n_exec N B < N + b)%nat /\ exists t, n_exec N B = (t * b)%nat.
Proof.
  intros HN HB b. destruct (passes_bounds N b (Nat.min_glb_lt _ _ _ HB HN) N 0%nat) as (H1 & H2); [lia|].
  split; [exact H1|]. split; [exact H2|]. exists (passes N b N 0). reflexivity.
Qed.

Lemma executed_draws_length N B c stream : length (executed_draws N B c stream) = n_exec N B.
Proof. apply rows_length. Qed.

Lemma executed_draws_opp N B c stream : executed_draws N B c (map Qopp stream) = map (map Qopp) (executed_draws N B c stream).
Proof. apply rows_map. Qed.

Theorem executed_draws_spec N B c stream : (n_exec N B * c <= length stream)%nat ->
  length (executed_draws N B c stream) = n_exec N B /\
  Forall (fun z => length z = c) (executed_draws N B c stream) /\
  concat (executed_draws N B c stream) = firstn (n_exec N B * c) stream.
Proof.
  intros H. destruct (rows_concat_prefix c (n_exec N B) stream H) as (H1 & H2).
  split; [apply executed_draws_length|]. split; assumption.
Qed.

Lemma executed_blocks_concat N B c stream : concat (executed_blocks N B c stream) = executed_draws N B c stream.
Proof. apply blocks_concat. Qed.

Lemma mc_loop_blocks (contrib : mat -> vec) (g : nat -> mat -> Q) (n N b c : nat) :
  (forall normals, contrib normals = map (fun k => g k normals) (seq 0 n)) ->
  forall fuel executed stream (A : nat -> Q),
  mc_loop contrib N b c fuel executed stream (map A (seq 0 n)) =
  (map (fun k => fold_left Qplus (map (g k) (blocks c b (passes N b fuel executed) stream)) (A k)) (seq 0 n),
   (executed + passes N b fuel executed * b)%nat).
Proof.
  intros Hc. induction fuel as [|fuel IH]; intros executed stream A; cbn [mc_loop passes].
  - cbn [blocks map fold_left mult]. rewrite Nat.add_0_r. reflexivity.
  - destruct (executed <? N)%nat.
    + rewrite Hc, map2_map_same, IH, rows_firstn. cbn [blocks map fold_left mult]. f_equal. lia.
    + cbn [blocks map fold_left mult]. rewrite Nat.add_0_r. reflexivity.
Qed.

Lemma mc_loop_invariant (P : vec -> Prop) (contrib : mat -> vec) (N b c : nat) :
  (forall r normals, P r -> P (map2 Qplus r (contrib normals))) ->
  forall fuel executed stream r, P r -> P (fst (mc_loop contrib N b c fuel executed stream r)).
Proof.
  intros Hstep. induction fuel as [|fuel IH]; intros executed stream r Hr; cbn [mc_loop]; [exact Hr|].
  destruct (executed <? N)%nat; [|exact Hr]. apply IH, Hstep, Hr.
Qed.

(* both estimators are this function of their block contribution *)
Definition mc_estimate (contrib : mat -> vec) (n c N B : nat) (stream : vec) : vec :=
  let '(result, executed) := mc_loop contrib N (Nat.min B N) c N 0 stream (repeat 0 n) in
  map (fun r => r / ofnat executed) result.

Lemma mc_estimate_length contrib n c N B stream : (forall normals, length (contrib normals) = n) ->
  length (mc_estimate contrib n c N B stream) = n.
Proof.
  intros Hc. unfold mc_estimate.
  assert (H : length (fst (mc_loop contrib N (Nat.min B N) c N 0 stream (repeat 0 n))) = n).
  { apply (mc_loop_invariant (fun r => length r = n)); [|apply repeat_length].
    intros r normals Hr. rewrite map2_length, Hr, Hc. apply Nat.min_id. }
  destruct (mc_loop _ _ _ _ _ _ _ _) as (result, executed). rewrite map_length. exact H.
Qed.

Lemma mc_estimate_nonneg contrib n c N B stream : (forall normals, Forall (fun x => 0 <= x) (contrib normals)) ->
  Forall (fun e => 0 <= e) (mc_estimate contrib n c N B stream).
Proof.
  intros Hc. unfold mc_estimate.
  assert (H : Forall (fun x => 0 <= x) (fst (mc_loop contrib N (Nat.min B N) c N 0 stream (repeat 0 n)))).
  { apply mc_loop_invariant; [intros r normals Hr; apply map2_plus_nonneg; [exact Hr|apply Hc]|].
    apply Forall_forall. intros x Hx. apply repeat_spec in Hx. subst x. apply Qle_refl. }
  destruct (mc_loop _ _ _ _ _ _ _ _) as (result, executed). apply Forall_map. refine (Forall_impl _ _ H).
  intros r Hr. apply div_nonneg; [exact Hr|apply ofnat_nonneg].
Qed.

Lemma mc_estimate_nth contrib (g : nat -> mat -> Q) n c N B stream k :
  (forall normals, contrib normals = map (fun k => g k normals) (seq 0 n)) -> (k < n)%nat ->
  nth k (mc_estimate contrib n c N B stream) 0 == sumQ (map (g k) (executed_blocks N B c stream)) / ofnat (n_exec N B).
Proof.
  intros Hc Hk. unfold mc_estimate. rewrite repeat_map_seq, (mc_loop_blocks contrib g n _ _ _ Hc), map_map.
  rewrite (nth_map_seq _ 0 n k 0 Hk), fold_left_Qplus. unfold executed_blocks, n_exec. cbn [plus]. apply Qdiv_comp; [lra|reflexivity].
Qed.

Lemma qei_mc_estimate q sets mp best N B stream :
  qei q sets mp best N B stream = mc_estimate (block_contribution q sets mp best) (length sets) (q + length mp) N B stream.
Proof. reflexivity. Qed.

Lemma qei_length q sets mp best N B stream : length (qei q sets mp best N B stream) = length sets.
Proof.
  rewrite qei_mc_estimate. apply mc_estimate_length. intros normals. unfold block_contribution, amax0. rewrite !map_length. apply seq_length.
Qed.

Theorem qei_nonneg q sets mp best N B stream : Forall (fun e => 0 <= e) (qei q sets mp best N B stream).
Proof. rewrite qei_mc_estimate. apply mc_estimate_nonneg. intros normals. apply sum_fmax_nonneg. Qed.

(* the estimate of candidate set k is the arithmetic mean, over the executed draws z, of max(0, best - min_j y_j), y = m - L z *)
Theorem qei_estimate_is_sample_mean q sets mp best N B stream k :
  (forall s, In s sets -> length (fst s) = q) -> (0 < q + length mp)%nat -> (k < length sets)%nat ->
  nth k (qei q sets mp best N B stream) 0 ==
  set_estimate (q + length mp) (nth k sets dcset) mp best (executed_draws N B (q + length mp) stream).
Proof.
  intros Hwf Hc Hk. rewrite qei_mc_estimate.
  rewrite (mc_estimate_nth _ _ _ _ _ _ _ k (fun normals => block_contribution_eq q sets mp best normals Hwf) Hk).
  rewrite sumQ_concat_map, executed_blocks_concat. unfold set_estimate, mean_list. rewrite map_length, executed_draws_length.
  apply Qdiv_comp; [|reflexivity]. apply sumQ_map_ext. intros z _. apply gain_improvement. exact Hc.
Qed.

Theorem qei_set_independent q sets sets' mp best N B stream k k' :
  (forall s, In s sets -> length (fst s) = q) -> (forall s, In s sets' -> length (fst s) = q) ->
  (0 < q + length mp)%nat -> (k < length sets)%nat -> (k' < length sets')%nat -> nth k sets dcset = nth k' sets' dcset ->
  nth k (qei q sets mp best N B stream) 0 == nth k' (qei q sets' mp best N B stream) 0.
Proof.
  intros Hwf Hwf' Hc Hk Hk' E.
  rewrite (qei_estimate_is_sample_mean q sets mp best N B stream k Hwf Hc Hk).
  rewrite (qei_estimate_is_sample_mean q sets' mp best N B stream k' Hwf' Hc Hk'). rewrite E. reflexivity.
Qed.

Corollary qei_set_alone q sets mp best N B stream k :
  (forall s, In s sets -> length (fst s) = q) -> (0 < q + length mp)%nat -> (k < length sets)%nat ->
  nth k (qei q sets mp best N B stream) 0 == nth 0 (qei q [nth k sets dcset] mp best N B stream) 0.
Proof.
  intros Hwf Hc Hk.
  apply (qei_set_independent q sets [nth k sets dcset] mp best N B stream k 0); try assumption.
  - intros s [<-|[]]. apply Hwf. apply nth_In. exact Hk.
  - cbn. lia.
  - reflexivity.
Qed.

Theorem qei_single_point sets best N B stream k m L :
  (forall s, In s sets -> length (fst s) = 1%nat) -> (k < length sets)%nat ->
  nth k sets dcset = ([m], L) ->
  nth k (qei 1 sets [] best N B stream) 0 ==
  mean_list (map (fun z => qmax 0 (best - (m - entry L 0 0 * nth 0 z 0))) (executed_draws N B 1 stream)).
Proof.
  intros Hwf Hk E.
  rewrite (qei_estimate_is_sample_mean 1 sets [] best N B stream k Hwf (le_n 1) Hk).
  rewrite E. unfold set_estimate, mean_list. rewrite !map_length. apply Qdiv_comp; [|reflexivity].
  apply sumQ_map_ext. intros z _. unfold improvement, sample, Lz, sumQ.
  cbn [plus length seq map amin app nth fold_right fst snd]. apply qmax_compat; [reflexivity|lra].
Qed.

Theorem qei_estimate_is_sample_mean_explicit q sets mp best N B stream k mk Lk :
  (forall s, In s sets -> length (fst s) = q) -> (0 < q + length mp)%nat -> (k < length sets)%nat -> nth k sets dcset = (mk, Lk) ->
  let c := (q + length mp)%nat in
  let m := mk ++ mp in
  let y := fun z : vec => map (fun j => nth j m 0 - Lz c Lk z j) (seq 0 c) in
  let zs := executed_draws N B c stream in
  nth k (qei q sets mp best N B stream) 0 == sumQ (map (fun z => qmax 0 (best - amin (y z))) zs) / ofnat (length zs).
Proof.
  intros Hwf Hc Hk E c m y zs.
  rewrite (qei_estimate_is_sample_mean q sets mp best N B stream k Hwf Hc Hk). rewrite E.
  unfold set_estimate, mean_list. rewrite map_length. reflexivity.
Qed.

(* The Python method evaluate_at_point_list of both estimators (`bat`: qei_batched, qeif_batched) runs the estimator f of one vectorised
   call over successive slices of bs sets, the stream moving on by `step` entries per call: entry t * bs + r of the result is entry r of
   call t *)
Section Batches.
Variables (T : Type) (f : list T -> vec -> vec) (bat : nat -> list T -> vec -> vec) (bs step : nat).
Hypothesis Hlen : forall sets stream, length (f sets stream) = length sets.
Hypothesis Hbat : forall fuel s sets stream,
  bat (S fuel) (s :: sets) stream = f (firstn bs (s :: sets)) stream ++ bat fuel (skipn bs (s :: sets)) (skipn step stream).

Lemma batched_nth_at : forall t r fuel sets stream, (r < bs)%nat -> (length sets <= fuel)%nat -> (t * bs + r < length sets)%nat ->
  nth (t * bs + r) (bat fuel sets stream) 0 = nth r (f (firstn bs (skipn (t * bs) sets)) (skipn (t * step) stream)) 0.
Proof.
  induction t as [|t IH]; intros r fuel sets stream Hr Hf Hk.
  all: destruct sets as [|s sets]; [cbn in Hk; lia|]; destruct fuel as [|fuel]; [cbn in Hf; lia|]; rewrite Hbat.
  - cbn [mult plus skipn] in *. apply app_nth1. rewrite Hlen, firstn_length. lia.
  - assert (Hl : length (f (firstn bs (s :: sets)) stream) = bs) by (rewrite Hlen; apply firstn_length_le; cbn [mult] in Hk; lia).
    cbn [mult]. rewrite <- Nat.add_assoc, (app_nth2_len _ _ _ _ _ Hl), !skipn_add.
    apply IH; [exact Hr|rewrite skipn_length; cbn [length] in *; lia|rewrite skipn_length; cbn [mult] in Hk; lia].
Qed.

Lemma batched_nth (d : T) sets stream k : (0 < bs)%nat -> (k < length sets)%nat ->
  let batch := firstn bs (skipn (k / bs * bs) sets) in
  (k mod bs < length batch)%nat /\ nth (k mod bs) batch d = nth k sets d /\
  nth k (bat (length sets) sets stream) 0 = nth (k mod bs) (f batch (skipn (k / bs * step) stream)) 0.
Proof.
  intros Hbs Hk batch.
  assert (E : (k / bs * bs + k mod bs = k)%nat) by (pose proof (Nat.div_mod k bs); lia).
  assert (Hmod : (k mod bs < bs)%nat) by (apply Nat.mod_upper_bound; lia).
  split; [unfold batch; rewrite firstn_length, skipn_length; lia|]. split.
  - unfold batch. rewrite nth_firstn_lt by exact Hmod. rewrite nth_skipn, E. reflexivity.
  - pose proof (batched_nth_at (k / bs) (k mod bs) (length sets) sets stream Hmod (le_n _)) as H. rewrite E in H. apply H, Hk.
Qed.
End Batches.

(* batch_size = batch_size or len(points) *)
Lemma batch_size_pos (batch : option nat) n : (0 < n)%nat ->
  (0 < match batch with Some b0 => if (b0 =? 0)%nat then n else b0 | None => n end)%nat.
Proof. intros Hn. destruct batch as [b0|]; [|exact Hn]. destruct (Nat.eqb_spec b0 0); lia. Qed.

(* evaluate_at_point_list(points, batch_size): the estimate of candidate set k is the estimate of that set evaluated alone on the
   draws of its own batch (the stream moved on by the draws of the batches before it) *)
Theorem qei_public_estimate batch q sets mp best N B stream k :
  (forall s, In s sets -> length (fst s) = q) -> (0 < q + length mp)%nat -> (k < length sets)%nat ->
  let bs := match batch with Some b0 => if (b0 =? 0)%nat then length sets else b0 | None => length sets end in
  let c := (q + length mp)%nat in
  nth k (qei_public batch q sets mp best N B stream) 0 ==
  set_estimate c (nth k sets dcset) mp best (executed_draws N B c (skipn ((k / bs) * (n_exec N B * c)) stream)).
Proof.
  intros Hwf Hc Hk bs c. unfold qei_public. fold bs.
  destruct (batched_nth _ (fun sets => qei q sets mp best N B) (fun fuel sets => qei_batched fuel bs q sets mp best N B) bs (n_exec N B * c)
              (fun sets => qei_length q sets mp best N B) (fun _ _ _ _ => eq_refl) dcset sets stream k) as (Hlen & Hnth & E);
    [apply batch_size_pos; lia|exact Hk|].
  cbv beta in E. rewrite E, qei_estimate_is_sample_mean; try assumption.
  - fold c. rewrite Hnth. reflexivity.
  - intros s Hs. apply Hwf. exact (In_firstn_skipn _ _ _ _ Hs).
Qed.
