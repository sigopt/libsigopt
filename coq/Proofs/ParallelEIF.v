(* Proofs about Model.ParallelEIF (Monte-Carlo parallel expected improvement with failure models, C05).
   One pass of the loop is first rewritten, by equalities, into the code's own expression per candidate set and draw (arrays given
   entry by entry as in Proofs.ParallelEI); this is then read, up to ==, as the masked improvement and the fallback term of the
   statements: both sides are brought to the form `pmax`, max(0, max_j g_j) as a fold.  The loop and the batches are those of
   Proofs.ParallelEI.  After the estimate itself come its special cases (no fallback, a set alone), the comparison with the plain
   estimator on the negated draws, and the statements of that kind that are false of the code, each with its witness. *)
From Coq Require Import List QArith Lia Lqa.
From LV Require Import Model.ParallelEI Model.ParallelEIF Proofs.ParallelEI.
Import ListNotations.
Open Scope Q_scope.

Lemma forallb_map {A B} (f : B -> bool) (g : A -> B) l : forallb f (map g l) = forallb (fun x => f (g x)) l.
Proof. induction l as [|x l IH]; [reflexivity|]. cbn [map forallb]. rewrite IH. reflexivity. Qed.

Lemma forallb_ext_in {A} (f g : A -> bool) l : (forall x, In x l -> f x = g x) -> forallb f l = forallb g l.
Proof.
  induction l as [|x l IH]; intros H; [reflexivity|]. cbn [forallb]. rewrite (H x) by (left; reflexivity). rewrite IH; [reflexivity|].
  intros y Hy. apply H. right. exact Hy.
Qed.

Lemma forallb_nth_seq {A} (P : A -> bool) (d : A) l : forallb (fun k => P (nth k l d)) (seq 0 (length l)) = forallb P l.
Proof.
  induction l as [|x l IH]; [reflexivity|]. cbn [length seq forallb nth]. f_equal. rewrite <- seq_shift, forallb_map. exact IH.
Qed.

Lemma filter_all {A} (f : A -> bool) l : forallb f l = true -> filter f l = l.
Proof.
  induction l as [|x l IH]; intros H; [reflexivity|]. cbn [forallb] in H. apply andb_prop in H. destruct H as (Hx & Hl).
  cbn [filter]. rewrite Hx, (IH Hl). reflexivity.
Qed.

Lemma tmap_tform f c n normals F : tmap f (tform c n normals F) = tform c n normals (fun j k z => f (F j k z)).
Proof.
  unfold tmap, tform. rewrite map_map. apply map_ext. intros j. rewrite map_map. apply map_ext. intros k. apply map_map.
Qed.

Lemma tmap2_tform f c n normals F G :
  tmap2 f (tform c n normals F) (tform c n normals G) = tform c n normals (fun j k z => f (F j k z) (G j k z)).
Proof.
  unfold tmap2, tform. rewrite map2_map_same. apply map_ext. intros j. rewrite map2_map_same. apply map_ext. intros k.
  apply map2_map_same.
Qed.

(* T * w[None, :, None] *)
Lemma scale_tform {A} (w : A -> Q) (d : A) (l : list A) c normals F :
  map (fun Tj => map2 (fun row s => map (fun x => x * s) row) Tj (map w l)) (tform c (length l) normals F)
  = tform c (length l) normals (fun j k z => F j k z * w (nth k l d)).
Proof.
  unfold tform. rewrite map_map. apply map_ext. intros j.
  rewrite <- (map_nth_seq0 w d l), map2_map_same. apply map_ext. intros k. apply map_map.
Qed.

Lemma max_improvement_tform c n normals F :
  max_improvement n (length normals) (tform c n normals F)
  = map (fun k => map (fun z => qmax 0 (amax (map (fun j => F j k z) (seq 0 c)))) normals) (seq 0 n).
Proof. unfold max_improvement. rewrite amax0_tform, map_map. apply map_ext. intros k. apply map_map. Qed.

(* the sampled value of one model at point j, in the order the code adds it up: (L z)_j + m_j *)
Definition Yc (c : nat) (s : cset) (mbs : vec) (z : vec) (j : nat) : Q := Lz c (snd s) z j + nth j (fst s ++ mbs) 0.

(* the candidate sets one model sees are a projection of the sets of the call: s_obj for the objective, the i-th of s_fail for
   failure model i *)
Lemma predictions_tform {A} (proj : A -> cset) (d : A) (l : list A) q p mbs normals :
  proj d = dcset -> length mbs = p -> (forall s, In s l -> length (fst (proj s)) = q) ->
  predictions q p (map proj l) mbs normals = tform (q + p) (length l) normals (fun j k z => Yc (q + p) (proj (nth k l d)) mbs z j).
Proof.
  intros Hd <- Hwf. unfold predictions. rewrite tensordot_chol.
  assert (Hwf' : forall s, In s (map proj l) -> length (fst s) = q).
  { intros s Hs. apply in_map_iff in Hs. destruct Hs as (x & <- & Hx). apply Hwf. exact Hx. }
  rewrite (slice_updates (fun x m => x + m) q (map proj l) mbs normals _ Hwf'
           : (if (length mbs =? 0)%nat then addm_first q _ _ else addm_last (length mbs) (addm_first q _ _) mbs) = _).
  rewrite map_length. apply tform_ext. intros j k z. unfold Yc. rewrite <- Hd, map_nth. reflexivity.
Qed.

(* one pass in the code's own expressions, per candidate set s, draw z and point j: the product of the indicator arrays (each entry
   is 1 or 0, so the running product is the indicator of the conjunction), and the entry of max_improvement before (gain_m) and
   after (gain_f) the replacement *)
Definition feasc (c : nat) (s : fset) (fms : list fmod) (z : vec) (j : nat) (ixs : list nat) : bool :=
  forallb (fun i => qltb (Yc c (nth i (s_fail s) dcset) (fst (nth i fms dfmod)) z j) (snd (nth i fms dfmod))) ixs.
Definition gain_m (c : nat) (s : fset) (fms : list fmod) (mp : vec) (best : Q) (z : vec) : Q :=
  qmax 0 (amax (map (fun j => (best - Yc c (s_obj s) mp z j) * (if feasc c s fms z j (seq 0 (length fms)) then 1 else 0)) (seq 0 c))).
Definition gain_f (c : nat) (s : fset) (mp : vec) (best : Q) (z : vec) : Q :=
  qmax 0 (amax (map (fun j => (best - Yc c (s_obj s) mp z j) * prodQ (s_probs s)) (seq 0 c))).

(* the contribution of one block to candidate set k; the test sums max_improvement, [k][d], over all sets and draws *)
Definition block_code (c : nat) (fsets : list fset) (fms : list fmod) (mp : vec) (best : Q) (k : nat) (normals : mat) : Q :=
  if Qeq_bool (sumQ (map sumQ (map (fun k' => map (gain_m c (nth k' fsets dfset) fms mp best) normals) (seq 0 (length fsets))))) 0
  then sumQ (map (gain_f c (nth k fsets dfset) mp best) normals)
  else sumQ (map (gain_m c (nth k fsets dfset) fms mp best) normals).

Lemma obj_sets_wf q fsets fms mp : qeif_wf q fsets fms mp -> forall s, In s fsets -> length (fst (s_obj s)) = q.
Proof. intros (Hs & _) s Hin. exact (proj1 (Hs s Hin)). Qed.

Lemma fm_sets_length i fsets : length (fm_sets i fsets) = length fsets.
Proof. apply map_length. Qed.

Lemma nth_fm_sets i fsets k : nth k (fm_sets i fsets) dcset = nth i (s_fail (nth k fsets dfset)) dcset.
Proof. destruct i; exact (map_nth (fun s : fset => nth _ (s_fail s) dcset) fsets dfset k). Qed.

(* posterior_predictions_failures_product *= posterior_predictions_failures[i] < threshold, on indicator arrays *)
Lemma mask_step_tform c n normals (M : nat -> nat -> vec -> bool) Y t :
  mask_step (tform c n normals (fun j k z => if M j k z then 1 else 0)) (tform c n normals Y, t)
  = tform c n normals (fun j k z => if M j k z && qltb (Y j k z) t then 1 else 0).
Proof.
  unfold mask_step. cbn [fst snd]. rewrite tmap_tform, tmap2_tform. apply tform_ext. intros j k z.
  destruct (M j k z), (qltb (Y j k z) t); reflexivity.
Qed.

Lemma fold_mask q fsets fms mp normals : qeif_wf q fsets fms mp ->
  forall (ixs : list nat) (M : nat -> nat -> vec -> bool), (forall i, In i ixs -> (i < length fms)%nat) ->
  fold_left mask_step
    (map (fun i => (predictions q (length mp) (fm_sets i fsets) (fst (nth i fms dfmod)) normals, snd (nth i fms dfmod))) ixs)
    (tform (q + length mp) (length fsets) normals (fun j k z => if M j k z then 1 else 0))
  = tform (q + length mp) (length fsets) normals
      (fun j k z => if M j k z && feasc (q + length mp) (nth k fsets dfset) fms z j ixs then 1 else 0).
Proof.
  intros (Hs & Hm). induction ixs as [|i ixs IH]; intros M Hix.
  { apply tform_ext. intros j k z. rewrite andb_true_r. reflexivity. }
  assert (Hi : (i < length fms)%nat) by (apply Hix; left; reflexivity). cbn [map fold_left]. unfold fm_sets.
  rewrite (predictions_tform (fun s : fset => nth i (s_fail s) dcset) dfset fsets q (length mp)).
  - rewrite mask_step_tform, IH by (intros i' Hi'; apply Hix; right; exact Hi').
    apply tform_ext. intros j k z. rewrite <- andb_assoc. reflexivity.
  - destruct i; reflexivity.
  - apply Hm, nth_In, Hi.
  - intros s Hin. destruct (Hs s Hin) as (_ & Hl & Hq & _). apply Hq, nth_In. rewrite Hl. exact Hi.
Qed.

Lemma fblock_contribution_code q fsets fms mp best normals : qeif_wf q fsets fms mp ->
  fblock_contribution q fsets fms mp best normals =
  map (fun k => block_code (q + length mp) fsets fms mp best k normals) (seq 0 (length fsets)).
Proof.
  intros Hwf. unfold fblock_contribution.
  rewrite (predictions_tform s_obj dfset fsets q (length mp) mp normals eq_refl eq_refl (obj_sets_wf q fsets fms mp Hwf)).
  rewrite !tmap_tform, (fold_mask q fsets fms mp normals Hwf (seq 0 (length fms)) (fun _ _ _ => true)) by (intros i Hi; apply in_seq in Hi; lia).
  rewrite tmap2_tform, (scale_tform (fun s => prodQ (s_probs s)) dfset fsets), !max_improvement_tform.
  unfold block_code, gain_m, gain_f. destruct (Qeq_bool _ 0); apply map_map.
Qed.

Lemma qltb_compat a a' b b' : a == a' -> b == b' -> qltb a b = qltb a' b'.
Proof.
  intros Ha Hb. unfold qltb. f_equal. apply Qleb_comp; assumption.
Qed.

Lemma qltb_lt a b : qltb a b = true <-> a < b.
Proof.
  unfold qltb. rewrite Bool.negb_true_iff. split.
  - intros H. assert (~ b <= a) by (rewrite <- Qle_bool_iff; congruence). lra.
  - intros H. destruct (Qle_bool b a) eqn:E; [|reflexivity]. apply Qle_bool_iff in E. lra.
Qed.

(* qmax is the least upper bound, so nested maxima may be reordered *)
Lemma qmax_left_comm a b c : qmax a (qmax b c) == qmax b (qmax a c).
Proof.
  assert (H : forall a b c, qmax a (qmax b c) <= qmax b (qmax a c)).
  { clear. intros a b c. apply qmax_lub; [|apply qmax_le_compat; [apply Qle_refl|apply qmax_ub_r]].
    apply Qle_trans with (qmax a c); [apply qmax_ub_l|apply qmax_ub_r]. }
  apply Qle_antisym; apply H.
Qed.

(* max(0, max_j g_j) as a fold: 0 on the empty list *)
Definition pmax {A} (g : A -> Q) (js : list A) : Q := fold_right (fun j a => qmax (g j) a) 0 js.

Lemma pmax_nonneg {A} (g : A -> Q) js : 0 <= pmax g js.
Proof. induction js as [|j js IH]; [apply Qle_refl|]. apply Qle_trans with (pmax g js); [exact IH|apply qmax_ub_r]. Qed.

Lemma qmax0_amax_pmax {A} (g : A -> Q) : forall js, qmax 0 (amax (map g js)) == pmax g js.
Proof.
  induction js as [|j js IH]; [reflexivity|]. destruct js as [|j' js].
  - cbn [map amax pmax fold_right]. apply Qle_antisym; (apply qmax_lub; [apply qmax_ub_r|apply qmax_ub_l]).
  - change (qmax 0 (qmax (g j) (amax (map g (j' :: js)))) == qmax (g j) (pmax g (j' :: js))).
    rewrite qmax_left_comm. apply qmax_compat; [reflexivity|exact IH].
Qed.

Lemma pmax_ext {A} (f g : A -> Q) js : (forall j, In j js -> f j == g j) -> pmax f js == pmax g js.
Proof.
  induction js as [|j js IH]; intros H; [reflexivity|].
  apply qmax_compat; [apply H; left; reflexivity|]. apply IH. intros j' Hj'. apply H. right. exact Hj'.
Qed.

Lemma pmax_best_minus {A} (best : Q) (y : A -> Q) js : js <> [] -> pmax (fun j => best - y j) js == qmax 0 (best - amin (map y js)).
Proof. intros H. rewrite <- qmax0_amax_pmax. apply qmax_compat; [reflexivity|]. apply amax_best_minus. exact H. Qed.

Lemma pmax_mask {A} (imp : A -> Q) (feas : A -> bool) js :
  pmax (fun j => imp j * (if feas j then 1 else 0)) js == pmax imp (filter feas js).
Proof.
  induction js as [|j js IH]; [reflexivity|]. cbn [pmax fold_right filter].
  fold (pmax (fun j => imp j * (if feas j then 1 else 0)) js). destruct (feas j).
  - apply qmax_compat; [lra|exact IH].
  - fold (pmax imp (filter feas js)). assert (Hn := pmax_nonneg imp (filter feas js)).
    destruct (qmax_cases (imp j * 0) (pmax (fun j => imp j * (if feas j then 1 else 0)) js)) as [[? ?]|[? ?]]; lra.
Qed.

Lemma pmax_filter_le {A} (imp : A -> Q) (feas : A -> bool) js : pmax imp (filter feas js) <= pmax imp js.
Proof.
  induction js as [|j js IH]; [apply Qle_refl|]. cbn [filter]. destruct (feas j).
  - apply qmax_le_compat; [apply Qle_refl|exact IH].
  - apply Qle_trans with (pmax imp js); [exact IH|apply qmax_ub_r].
Qed.

Lemma pmax_scale {A} (g : A -> Q) (sp : Q) js : 0 <= sp -> pmax (fun j => g j * sp) js == sp * pmax g js.
Proof.
  intros Hs. induction js as [|j js IH]; [cbn; lra|]. cbn [pmax fold_right]. fold (pmax (fun j => g j * sp) js) (pmax g js).
  set (t := pmax g js) in *. set (u := pmax (fun j => g j * sp) js) in *.
  destruct (qmax_cases (g j) t) as [[E Ht]|[E Ht]]; rewrite E.
  - assert (0 <= sp * (g j - t)) by (apply Qmult_le_0_compat; lra).
    destruct (qmax_cases (g j * sp) u) as [[? ?]|[? ?]]; lra.
  - assert (0 <= sp * (t - g j)) by (apply Qmult_le_0_compat; lra).
    destruct (qmax_cases (g j * sp) u) as [[? ?]|[? ?]]; lra.
Qed.

Lemma fsample_nth c s mbs z j : (j < c)%nat -> nth j (fsample c s mbs z) 0 = nth j (fst s ++ mbs) 0 + Lz c (snd s) z j.
Proof. intros H. unfold fsample. rewrite (nth_map_seq _ 0 c j 0 H). reflexivity. Qed.

Lemma fsample_nonempty c s mbs z : (0 < c)%nat -> fsample c s mbs z <> [].
Proof. intros H E. apply map_eq_nil in E. exact (seq_nonempty 0 c H E). Qed.

Lemma fsample_nths c s mbs z : map (fun j => nth j (fsample c s mbs z) 0) (seq 0 c) = fsample c s mbs z.
Proof. unfold fsample at 2. apply map_ext_in. intros j Hj. apply in_seq in Hj. apply fsample_nth. lia. Qed.

Lemma Yc_fsample c s mbs z j : (j < c)%nat -> Yc c s mbs z j == nth j (fsample c s mbs z) 0.
Proof. intros H. rewrite fsample_nth by exact H. unfold Yc. lra. Qed.

Lemma masked_improvement_pmax c s fms mp best z :
  masked_improvement c s fms mp best z == pmax (fun j => best - nth j (fsample c (s_obj s) mp z) 0) (feasible_points c s fms z).
Proof.
  unfold masked_improvement. destruct (feasible_points c s fms z) as [|j0 js]; [reflexivity|]. symmetry. apply pmax_best_minus. discriminate.
Qed.

Lemma improvement_pmax_list best ys : ys <> [] -> improvement best ys == pmax (fun y => best - y) ys.
Proof. intros H. rewrite (pmax_best_minus best (fun y => y) ys H), map_id. reflexivity. Qed.

Lemma improvement_pmax c s mbs best z : (0 < c)%nat ->
  improvement best (fsample c s mbs z) == pmax (fun j => best - nth j (fsample c s mbs z) 0) (seq 0 c).
Proof.
  intros Hc. rewrite (pmax_best_minus best (fun j => nth j (fsample c s mbs z) 0)) by (apply seq_nonempty; exact Hc).
  rewrite fsample_nths. reflexivity.
Qed.

Lemma gain_m_reading c s fms mp best z : gain_m c s fms mp best z == masked_improvement c s fms mp best z.
Proof.
  unfold gain_m. rewrite qmax0_amax_pmax, masked_improvement_pmax. unfold feasible_points. rewrite <- pmax_mask.
  apply pmax_ext. intros j Hj. apply in_seq in Hj. rewrite (Yc_fsample c (s_obj s) mp z j) by lia.
  replace (feasc c s fms z j (seq 0 (length fms))) with (feasible c s fms z j); [reflexivity|].
  apply forallb_ext_in. intros i _. apply qltb_compat; [symmetry; apply Yc_fsample; lia|reflexivity].
Qed.

Lemma gain_f_reading c s mp best z : gain_f c s mp best z == fallback_gain c s mp best z.
Proof.
  unfold gain_f, fallback_gain, fsample. rewrite map_map. apply qmax_compat; [reflexivity|]. apply amax_map_ext. intros j _. unfold Yc. lra.
Qed.

Lemma fallback_gain_weighted c s mp best z : (0 < c)%nat -> 0 <= prodQ (s_probs s) ->
  fallback_gain c s mp best z == weighted_improvement c s mp best z.
Proof.
  intros Hc Hs. unfold fallback_gain, weighted_improvement.
  rewrite qmax0_amax_pmax, (improvement_pmax_list best _ (fsample_nonempty c (s_obj s) mp z Hc)). apply pmax_scale. exact Hs.
Qed.

Lemma masked_improvement_nonneg c s fms mp best z : 0 <= masked_improvement c s fms mp best z.
Proof. rewrite masked_improvement_pmax. apply pmax_nonneg. Qed.

Lemma masked_le_improvement c s fms mp best z : (0 < c)%nat ->
  masked_improvement c s fms mp best z <= improvement best (fsample c (s_obj s) mp z).
Proof. intros Hc. rewrite masked_improvement_pmax, (improvement_pmax _ _ _ _ _ Hc). apply pmax_filter_le. Qed.

Lemma masked_all_feasible c s fms mp best z : (0 < c)%nat -> forallb (feasible c s fms z) (seq 0 c) = true ->
  masked_improvement c s fms mp best z == improvement best (fsample c (s_obj s) mp z).
Proof.
  intros Hc H. rewrite masked_improvement_pmax, (improvement_pmax _ _ _ _ _ Hc). unfold feasible_points. rewrite (filter_all _ _ H). reflexivity.
Qed.

(* the masked improvement over any other way of writing the feasibility test and the objective sample of the points j < c *)
Lemma masked_improvement_ext c s fms mp best z (feas' : nat -> bool) (y' : nat -> Q) :
  (forall j, (j < c)%nat -> feasible c s fms z j = feas' j) -> (forall j, (j < c)%nat -> nth j (fsample c (s_obj s) mp z) 0 = y' j) ->
  masked_improvement c s fms mp best z = match filter feas' (seq 0 c) with [] => 0 | js => qmax 0 (best - amin (map y' js)) end.
Proof.
  intros Hf Hy. unfold masked_improvement, feasible_points.
  rewrite (filter_ext_in _ feas' (seq 0 c)) by (intros j Hj; apply in_seq in Hj; apply Hf, Hj).
  assert (Em : map (fun j => nth j (fsample c (s_obj s) mp z) 0) (filter feas' (seq 0 c)) = map y' (filter feas' (seq 0 c))).
  { apply map_ext_in. intros j Hj. apply filter_In, proj1, in_seq in Hj. apply Hy, Hj. }
  destruct (filter feas' (seq 0 c)); [reflexivity|]. rewrite Em. reflexivity.
Qed.

Theorem masked_improvement_explicit c mk Lk fails probs fms mp best z :
  masked_improvement c ((mk, Lk), fails, probs) fms mp best z =
  match filter (fun j => forallb (fun i => qltb (nth j (fst (nth i fails dcset) ++ fst (nth i fms dfmod)) 0 + Lz c (snd (nth i fails dcset)) z j)
                                              (snd (nth i fms dfmod))) (seq 0 (length fms))) (seq 0 c) with
  | [] => 0
  | js => qmax 0 (best - amin (map (fun j => nth j (mk ++ mp) 0 + Lz c Lk z j) js))
  end.
Proof.
  apply masked_improvement_ext; intros j Hj; [unfold feasible; apply forallb_ext_in; intros i _|]; rewrite fsample_nth by exact Hj; reflexivity.
Qed.

Lemma sum_zero_b {A} (f : A -> Q) (l : list A) : (forall x, 0 <= f x) ->
  Qeq_bool (sumQ (map f l)) 0 = forallb (fun x => Qeq_bool (f x) 0) l.
Proof.
  intros Hf. induction l as [|x l IH]; [reflexivity|]. cbn [map forallb]. rewrite <- IH.
  assert (Hs : 0 <= sumQ (map f l)) by (apply sumQ_nonneg, Forall_map, Forall_forall; intros y _; apply Hf).
  specialize (Hf x). apply Bool.eq_iff_eq_true. rewrite andb_true_iff, !Qeq_bool_iff. unfold sumQ in *. cbn [fold_right].
  split; [intros H; split; lra|intros (H1 & H2); lra].
Qed.

Lemma block_falls_back_zero c fsets fms mp best blk s z : block_falls_back c fsets fms mp best blk = true -> In s fsets -> In z blk ->
  Qeq_bool (masked_improvement c s fms mp best z) 0 = true.
Proof.
  unfold block_falls_back. rewrite forallb_forall. intros H Hs Hz. specialize (H s Hs). rewrite forallb_forall in H. exact (H z Hz).
Qed.

Lemma cond_falls_back c fsets fms mp best normals :
  Qeq_bool (sumQ (map sumQ (map (fun k => map (gain_m c (nth k fsets dfset) fms mp best) normals) (seq 0 (length fsets))))) 0
  = block_falls_back c fsets fms mp best normals.
Proof.
  unfold block_falls_back. rewrite map_map.
  rewrite (sum_zero_b (fun k => sumQ (map (gain_m c (nth k fsets dfset) fms mp best) normals)))
    by (intros k; apply sumQ_nonneg, Forall_map, Forall_forall; intros z _; apply qmax0_nonneg).
  rewrite <- (forallb_nth_seq (fun s => forallb (fun z => Qeq_bool (masked_improvement c s fms mp best z) 0) normals) dfset fsets).
  apply forallb_ext_in. intros k _. rewrite sum_zero_b by (intros z; apply qmax0_nonneg).
  apply forallb_ext_in. intros z _. apply Qeqb_comp; [apply gain_m_reading|reflexivity].
Qed.

Lemma block_code_term c fsets fms mp best k normals :
  block_code c fsets fms mp best k normals == block_term c fsets fms mp best (nth k fsets dfset) normals.
Proof.
  unfold block_code, block_term. rewrite cond_falls_back. destruct (block_falls_back c fsets fms mp best normals).
  - apply sumQ_map_ext. intros z _. apply gain_f_reading.
  - apply sumQ_map_ext. intros z _. apply gain_m_reading.
Qed.

Lemma block_term_weighted c fsets fms mp best s blk : (0 < c)%nat -> 0 <= prodQ (s_probs s) ->
  block_term c fsets fms mp best s blk == block_term_w c fsets fms mp best s blk.
Proof.
  intros Hc Hs. unfold block_term, block_term_w. destruct (block_falls_back c fsets fms mp best blk); [|reflexivity].
  apply sumQ_map_ext. intros z _. apply fallback_gain_weighted; assumption.
Qed.

Lemma qeif_mc_estimate q fsets fms mp best N B stream :
  qeif q fsets fms mp best N B stream = mc_estimate (fblock_contribution q fsets fms mp best) (length fsets) (q + length mp) N B stream.
Proof. reflexivity. Qed.

(* whichever way the test goes, a pass yields one sum of values fmax(0, .) per candidate set *)
Lemma sums_of_max_improvement (fell_back : bool) n b T T' :
  let r := map sumQ (if fell_back then max_improvement n b T' else max_improvement n b T) in
  length r = n /\ Forall (fun x => 0 <= x) r.
Proof.
  cbv zeta. unfold max_improvement, amax0. destruct fell_back; rewrite map_map.
  all: split; [rewrite !map_length; apply seq_length|apply sum_fmax_nonneg].
Qed.

Lemma qeif_length q fsets fms mp best N B stream : length (qeif q fsets fms mp best N B stream) = length fsets.
Proof. rewrite qeif_mc_estimate. apply mc_estimate_length. intros normals. apply sums_of_max_improvement. Qed.

Theorem qeif_nonneg q fsets fms mp best N B stream : Forall (fun e => 0 <= e) (qeif q fsets fms mp best N B stream).
Proof. rewrite qeif_mc_estimate. apply mc_estimate_nonneg. intros normals. apply sums_of_max_improvement. Qed.

(* the estimate of candidate set k: the blocks of the call, each contributing the masked improvements of its draws, or - when
   these vanish for every set of the call at every draw of the block - the fallback terms; divided by the number of executed draws *)
Theorem qeif_estimate q fsets fms mp best N B stream k :
  qeif_wf q fsets fms mp -> (k < length fsets)%nat ->
  nth k (qeif q fsets fms mp best N B stream) 0 ==
  fset_estimate (q + length mp) fsets fms mp best (nth k fsets dfset) (executed_blocks N B (q + length mp) stream).
Proof.
  intros Hwf Hk. rewrite qeif_mc_estimate.
  rewrite (mc_estimate_nth _ _ _ _ _ _ _ k (fun normals => fblock_contribution_code q fsets fms mp best normals Hwf) Hk).
  unfold fset_estimate. rewrite executed_blocks_concat, executed_draws_length.
  apply Qdiv_comp; [|reflexivity]. apply sumQ_map_ext. intros blk _. apply block_code_term.
Qed.

Lemma fset_estimate_weighted c fsets fms mp best s blks : (0 < c)%nat -> 0 <= prodQ (s_probs s) ->
  fset_estimate c fsets fms mp best s blks == fset_estimate_w c fsets fms mp best s blks.
Proof.
  intros Hc Hs. unfold fset_estimate, fset_estimate_w. apply Qdiv_comp; [|reflexivity]. apply sumQ_map_ext. intros blk _.
  apply block_term_weighted; assumption.
Qed.

Theorem qeif_estimate_weighted q fsets fms mp best N B stream k :
  qeif_wf q fsets fms mp -> (0 < q + length mp)%nat -> (k < length fsets)%nat -> 0 <= prodQ (s_probs (nth k fsets dfset)) ->
  nth k (qeif q fsets fms mp best N B stream) 0 ==
  fset_estimate_w (q + length mp) fsets fms mp best (nth k fsets dfset) (executed_blocks N B (q + length mp) stream).
Proof.
  intros Hwf Hc Hk Hs. rewrite (qeif_estimate q fsets fms mp best N B stream k Hwf Hk). apply fset_estimate_weighted; assumption.
Qed.

(* the plain estimator forms L z + best - m (sample m - L z); this class forms best - (L z + m) (sample m + L z): the same
   objective data and the NEGATED draws give the same sample *)
Lemma improvement_opp c (s : cset) mbs best z :
  improvement best (sample c (fst s ++ mbs) (snd s) (map Qopp z)) == improvement best (fsample c s mbs z).
Proof.
  unfold improvement, sample, fsample. apply qmax_compat; [reflexivity|].
  rewrite (amin_map_ext (fun j => nth j (fst s ++ mbs) 0 - Lz c (snd s) (map Qopp z) j)
                        (fun j => nth j (fst s ++ mbs) 0 + Lz c (snd s) z j) (seq 0 c)); [reflexivity|].
  intros j _. rewrite Lz_opp. lra.
Qed.

Lemma set_estimate_opp c (s : cset) mp best zs :
  set_estimate c s mp best (map (map Qopp) zs) == mean_list (map (fun z => improvement best (fsample c s mp z)) zs).
Proof.
  unfold set_estimate, mean_list. rewrite !map_length, map_map. apply Qdiv_comp; [|reflexivity].
  apply sumQ_map_ext. intros z _. apply improvement_opp.
Qed.

Lemma mean_list_blocks (f : vec -> Q) (blks : list mat) :
  mean_list (map f (concat blks)) == sumQ (map (fun blk => sumQ (map f blk)) blks) / ofnat (length (concat blks)).
Proof. unfold mean_list. rewrite map_length. apply Qdiv_comp; [|reflexivity]. symmetry. apply sumQ_concat_map. Qed.

Lemma plain_on_negated_draws q fsets fms mp best N B stream k :
  qeif_wf q fsets fms mp -> (0 < q + length mp)%nat -> (k < length fsets)%nat ->
  let c := (q + length mp)%nat in
  let blks := executed_blocks N B c stream in
  nth k (qei q (map s_obj fsets) mp best N B (map Qopp stream)) 0 ==
  sumQ (map (fun blk => sumQ (map (fun z => improvement best (fsample c (s_obj (nth k fsets dfset)) mp z)) blk)) blks)
  / ofnat (length (concat blks)).
Proof.
  intros Hwf Hc Hk c blks.
  rewrite <- mean_list_blocks, <- set_estimate_opp. unfold blks. rewrite executed_blocks_concat, <- executed_draws_opp.
  rewrite <- (map_nth s_obj fsets dfset k : nth k (map s_obj fsets) dcset = _). apply qei_estimate_is_sample_mean.
  - intros s Hs. apply in_map_iff in Hs. destruct Hs as (x & <- & Hx). apply (obj_sets_wf q fsets fms mp Hwf x Hx).
  - exact Hc.
  - rewrite map_length. exact Hk.
Qed.

Lemma div_le_compat a b d : a <= b -> 0 <= d -> a / d <= b / d.
Proof.
  intros Hab Hd. unfold Qdiv. apply Qmult_le_compat_r; [exact Hab|]. apply Qinv_le_0_compat. exact Hd.
Qed.

Lemma block_term_le_plain c fsets fms mp best s blk : (0 < c)%nat -> 0 <= prodQ (s_probs s) <= 1 ->
  block_term c fsets fms mp best s blk <= sumQ (map (fun z => improvement best (fsample c (s_obj s) mp z)) blk).
Proof.
  intros Hc (Hs0 & Hs1). unfold block_term. destruct (block_falls_back c fsets fms mp best blk).
  - apply sumQ_map_le. intros z _. rewrite (fallback_gain_weighted c s mp best z Hc Hs0). unfold weighted_improvement.
    assert (Hi := improvement_nonneg best (fsample c (s_obj s) mp z)).
    assert (0 <= (1 - prodQ (s_probs s)) * improvement best (fsample c (s_obj s) mp z)) by (apply Qmult_le_0_compat; lra). lra.
  - apply sumQ_map_le. intros z _. apply masked_le_improvement. exact Hc.
Qed.

Theorem qeif_le_plain q fsets fms mp best N B stream k :
  qeif_wf q fsets fms mp -> (0 < q + length mp)%nat -> (k < length fsets)%nat -> 0 <= prodQ (s_probs (nth k fsets dfset)) <= 1 ->
  nth k (qeif q fsets fms mp best N B stream) 0 <= nth k (qei q (map s_obj fsets) mp best N B (map Qopp stream)) 0.
Proof.
  intros Hwf Hc Hk Hs.
  rewrite (qeif_estimate q fsets fms mp best N B stream k Hwf Hk), (plain_on_negated_draws q fsets fms mp best N B stream k Hwf Hc Hk).
  apply div_le_compat; [|apply ofnat_nonneg]. apply sumQ_map_le. intros blk _. apply block_term_le_plain; assumption.
Qed.

Lemma no_fallback_estimate c fsets fms mp best s blks : no_fallback c fsets fms mp best blks = true ->
  fset_estimate c fsets fms mp best s blks == mean_list (map (masked_improvement c s fms mp best) (concat blks)).
Proof.
  intros H. rewrite mean_list_blocks. apply Qdiv_comp; [|reflexivity]. apply sumQ_map_ext. intros blk Hblk. unfold block_term.
  unfold no_fallback in H. rewrite forallb_forall in H. rewrite (proj1 (Bool.negb_true_iff _) (H blk Hblk)). reflexivity.
Qed.

Theorem qeif_no_fallback q fsets fms mp best N B stream k :
  qeif_wf q fsets fms mp -> (k < length fsets)%nat ->
  no_fallback (q + length mp) fsets fms mp best (executed_blocks N B (q + length mp) stream) = true ->
  let zs := executed_draws N B (q + length mp) stream in
  nth k (qeif q fsets fms mp best N B stream) 0 ==
  sumQ (map (masked_improvement (q + length mp) (nth k fsets dfset) fms mp best) zs) / ofnat (length zs).
Proof.
  intros Hwf Hk Hnf zs. rewrite (qeif_estimate q fsets fms mp best N B stream k Hwf Hk), (no_fallback_estimate _ _ _ _ _ _ _ Hnf).
  rewrite executed_blocks_concat. unfold mean_list. rewrite map_length. reflexivity.
Qed.

Theorem qeif_set_independent q fsets fsets' fms mp best N B stream k k' :
  qeif_wf q fsets fms mp -> qeif_wf q fsets' fms mp -> (k < length fsets)%nat -> (k' < length fsets')%nat ->
  no_fallback (q + length mp) fsets fms mp best (executed_blocks N B (q + length mp) stream) = true ->
  no_fallback (q + length mp) fsets' fms mp best (executed_blocks N B (q + length mp) stream) = true ->
  nth k fsets dfset = nth k' fsets' dfset ->
  nth k (qeif q fsets fms mp best N B stream) 0 == nth k' (qeif q fsets' fms mp best N B stream) 0.
Proof.
  intros Hwf Hwf' Hk Hk' Hn Hn' E.
  rewrite (qeif_no_fallback q fsets fms mp best N B stream k Hwf Hk Hn).
  rewrite (qeif_no_fallback q fsets' fms mp best N B stream k' Hwf' Hk' Hn'). rewrite E. reflexivity.
Qed.

Lemma set_active_no_fallback c fsets fms mp best s blks : In s fsets -> set_active c s fms mp best blks = true ->
  no_fallback c fsets fms mp best blks = true.
Proof.
  intros Hin Ha. unfold no_fallback. apply forallb_forall. intros blk Hblk. apply Bool.negb_true_iff.
  destruct (block_falls_back c fsets fms mp best blk) eqn:E; [|reflexivity]. exfalso.
  unfold set_active in Ha. rewrite forallb_forall in Ha. specialize (Ha blk Hblk). apply existsb_exists in Ha.
  destruct Ha as (z & Hz & Hnz). rewrite (block_falls_back_zero _ _ _ _ _ _ s z E Hin Hz) in Hnz. discriminate.
Qed.

Theorem qeif_set_alone q fsets fms mp best N B stream k :
  qeif_wf q fsets fms mp -> (k < length fsets)%nat ->
  set_active (q + length mp) (nth k fsets dfset) fms mp best (executed_blocks N B (q + length mp) stream) = true ->
  nth k (qeif q fsets fms mp best N B stream) 0 == nth 0 (qeif q [nth k fsets dfset] fms mp best N B stream) 0.
Proof.
  intros Hwf Hk Ha.
  apply (qeif_set_independent q fsets [nth k fsets dfset] fms mp best N B stream k 0); try assumption.
  - destruct Hwf as (H1 & H2). split; [|exact H2]. intros s [<-|[]]. apply H1. apply nth_In. exact Hk.
  - cbn. lia.
  - apply (set_active_no_fallback _ _ _ _ _ (nth k fsets dfset)); [apply nth_In; exact Hk|exact Ha].
  - apply (set_active_no_fallback _ _ _ _ _ (nth k fsets dfset)); [left; reflexivity|exact Ha].
  - reflexivity.
Qed.

Lemma block_term_all_feasible c fsets fms mp best s blk : (0 < c)%nat -> In s fsets -> 0 <= prodQ (s_probs s) ->
  all_feasible c s fms blk = true ->
  block_term c fsets fms mp best s blk == sumQ (map (fun z => improvement best (fsample c (s_obj s) mp z)) blk).
Proof.
  intros Hc Hin Hs Hall. unfold all_feasible in Hall. rewrite forallb_forall in Hall. unfold block_term.
  destruct (block_falls_back c fsets fms mp best blk) eqn:E.
  - apply sumQ_map_ext. intros z Hz. rewrite (fallback_gain_weighted c s mp best z Hc Hs). unfold weighted_improvement.
    pose proof (block_falls_back_zero _ _ _ _ _ _ s z E Hin Hz) as E0. apply Qeq_bool_iff in E0.
    rewrite (masked_all_feasible c s fms mp best z Hc (Hall z Hz)) in E0. rewrite E0. lra.
  - apply sumQ_map_ext. intros z Hz. apply masked_all_feasible; [exact Hc|]. apply Hall. exact Hz.
Qed.

Theorem qeif_all_feasible_is_plain q fsets fms mp best N B stream k :
  qeif_wf q fsets fms mp -> (0 < q + length mp)%nat -> (k < length fsets)%nat -> 0 <= prodQ (s_probs (nth k fsets dfset)) ->
  all_feasible (q + length mp) (nth k fsets dfset) fms (executed_draws N B (q + length mp) stream) = true ->
  nth k (qeif q fsets fms mp best N B stream) 0 == nth k (qei q (map s_obj fsets) mp best N B (map Qopp stream)) 0.
Proof.
  intros Hwf Hc Hk Hs Hall.
  rewrite (qeif_estimate q fsets fms mp best N B stream k Hwf Hk), (plain_on_negated_draws q fsets fms mp best N B stream k Hwf Hc Hk).
  apply Qdiv_comp; [|reflexivity]. apply sumQ_map_ext. intros blk Hblk.
  apply block_term_all_feasible; try assumption; [apply nth_In; exact Hk|].
  unfold all_feasible in *. rewrite forallb_forall in *. intros z Hz. apply Hall. rewrite <- executed_blocks_concat.
  apply in_concat. exists blk. split; assumption.
Qed.

(* no failure model at all: every sample is feasible and the empty product of success probabilities is 1 *)
Corollary qeif_no_failure_models_is_plain q fsets mp best N B stream k :
  qeif_wf q fsets [] mp -> (0 < q + length mp)%nat -> (k < length fsets)%nat ->
  nth k (qeif q fsets [] mp best N B stream) 0 == nth k (qei q (map s_obj fsets) mp best N B (map Qopp stream)) 0.
Proof.
  intros Hwf Hc Hk. apply qeif_all_feasible_is_plain; try assumption.
  - destruct Hwf as (H1 & _). destruct (H1 (nth k fsets dfset) (nth_In _ _ Hk)) as (_ & _ & _ & Hp).
    destruct (s_probs (nth k fsets dfset)); [cbn; lra|discriminate].
  - unfold all_feasible. apply forallb_forall. intros z _. apply forallb_forall. intros j _. reflexivity.
Qed.

(* evaluate_at_point_list(points, batch_size): the estimate of candidate set k is the estimate `fset_estimate` of the call made for ITS batch
   (the sets of that batch, the stream moved on by the draws of the batches before it) *)
Theorem qeif_public_estimate batch q fsets fms mp best N B stream k :
  qeif_wf q fsets fms mp -> (k < length fsets)%nat ->
  let bs := match batch with Some b0 => if (b0 =? 0)%nat then length fsets else b0 | None => length fsets end in
  let c := (q + length mp)%nat in
  nth k (qeif_public batch q fsets fms mp best N B stream) 0 ==
  fset_estimate c (firstn bs (skipn ((k / bs) * bs) fsets)) fms mp best (nth k fsets dfset)
                (executed_blocks N B c (skipn ((k / bs) * (n_exec N B * c)) stream)).
Proof.
  intros Hwf Hk bs c. unfold qeif_public. fold bs.
  destruct (batched_nth _ (fun fsets => qeif q fsets fms mp best N B) (fun fuel fsets => qeif_batched fuel bs q fsets fms mp best N B)
              bs (n_exec N B * c) (fun fsets => qeif_length q fsets fms mp best N B) (fun _ _ _ _ => eq_refl) dfset fsets stream k)
    as (Hlen & Hnth & E); [apply batch_size_pos; lia|exact Hk|].
  cbv beta in E. rewrite E, qeif_estimate, Hnth; [reflexivity| |exact Hlen].
  destruct Hwf as (H1 & H2). split; [|exact H2]. intros s Hs. apply H1. exact (In_firstn_skipn _ _ _ _ Hs).
Qed.

(* Statements that are FALSE of the faithful model.  Witnesses: one point per set, no pending point, one failure model; objective
   mean 0 and factor 1, so the objective sample at the draw z is z, the constraint sample fmean + ffac * z.  All three use best = 0. *)
Definition w1 (fmean ffac prob : Q) : fset := (([0], [[1]]), [([fmean], [[ffac]])], [prob]).
Definition wA : fset := w1 8 2 (1 # 2).       (* at the draw -1: constraint 6, not below the threshold 0 *)
Definition wB : fset := w1 (-8) 3 (1 # 2).    (* at the draw -1: constraint -11, below the threshold 0 *)
Definition wC : fset := w1 3 2 (1 # 2).       (* constraint 1 at the draw -1, -1 at the draw -2: below the threshold 0 at the second only *)
Definition wD : fset := w1 0 2 1.             (* at the draw -1: constraint -2, below the threshold 64 *)

Lemma w1_wf (fsets : list fset) (t : Q) : (forall s, In s fsets -> exists fmean ffac prob, s = w1 fmean ffac prob) ->
  qeif_wf 1 fsets [([], t)] [].
Proof.
  intros H. split; [|intros fm [<-|[]]; reflexivity]. intros s Hs. destruct (H s Hs) as (fmean & ffac & prob & ->).
  repeat split. intros f [<-|[]]. reflexivity.
Qed.

(* set independence fails: the same candidate set, same draws - alone the block falls back (estimate 1/2 * improvement = 1/2),
   next to a set with a feasible improving sample it does not (estimate 0) *)
Theorem qeif_set_independent_refuted :
  exists q fsets fsets' fms mp best N B stream k k',
    qeif_wf q fsets fms mp /\ qeif_wf q fsets' fms mp /\ (0 < q + length mp)%nat /\ (0 < N)%nat /\ (0 < B)%nat /\
    (k < length fsets)%nat /\ (k' < length fsets')%nat /\ nth k fsets dfset = nth k' fsets' dfset /\
    ~ nth k (qeif q fsets fms mp best N B stream) 0 == nth k' (qeif q fsets' fms mp best N B stream) 0.
Proof.
  exists 1%nat, [wA], [wA; wB], [([], 0)], [], 0, 1%nat, 1%nat, [-1; 7; 7], 0%nat, 0%nat.
  split; [apply w1_wf; intros s [<-|[]]; do 3 eexists; reflexivity|].
  split; [apply w1_wf; intros s [<-|[<-|[]]]; do 3 eexists; reflexivity|].
  do 5 (split; [repeat constructor|]). split; [reflexivity|]. intros H. vm_compute in H. discriminate.
Qed.

(* the estimate is not a function of the executed draws alone: the same two draws as one block of two or as two blocks of one *)
Theorem qeif_block_size_matters :
  exists q fsets fms mp best N B B' stream,
    qeif_wf q fsets fms mp /\ (0 < q + length mp)%nat /\ (0 < N)%nat /\ (0 < B)%nat /\ (0 < B')%nat /\
    executed_draws N B (q + length mp) stream = executed_draws N B' (q + length mp) stream /\
    ~ nth 0 (qeif q fsets fms mp best N B stream) 0 == nth 0 (qeif q fsets fms mp best N B' stream) 0.
Proof.
  exists 1%nat, [wC], [([], 0)], [], 0, 2%nat, 2%nat, 1%nat, [-1; -2; 7; 7; 7].
  split; [apply w1_wf; intros s [<-|[]]; do 3 eexists; reflexivity|].
  do 4 (split; [repeat constructor|]). split; [reflexivity|]. intros H. vm_compute in H. discriminate.
Qed.

(* on the SAME draws (not negated) the plain estimator is no upper bound: every sample feasible, draw -1 *)
Theorem qeif_le_plain_on_same_draws_refuted :
  exists q fsets fms mp best N B stream k,
    qeif_wf q fsets fms mp /\ (0 < q + length mp)%nat /\ (0 < N)%nat /\ (0 < B)%nat /\ (k < length fsets)%nat /\
    0 <= prodQ (s_probs (nth k fsets dfset)) <= 1 /\
    ~ nth k (qeif q fsets fms mp best N B stream) 0 <= nth k (qei q (map s_obj fsets) mp best N B stream) 0.
Proof.
  exists 1%nat, [wD], [([], 64)], [], 0, 1%nat, 1%nat, [-1; 7; 7], 0%nat.
  split; [apply w1_wf; intros s [<-|[]]; do 3 eexists; reflexivity|].
  do 4 (split; [repeat constructor|]). split; [split; discriminate|]. intros H. apply Qle_bool_iff in H. vm_compute in H. discriminate.
Qed.
