(* Histories on one live ExpectedParallelImprovement object (Model.ParallelEIHist): nothing but the incumbent of the construction and the
   pending points assigned last survives in the object; every evaluation is the estimator of Model.ParallelEI on what the predictor
   answers at that moment. *)
From Coq Require Import List QArith Lia.
From LV Require Import Model.ParallelEI Model.ParallelEIHist Proofs.ParallelEI.
Import ListNotations.
Open Scope Q_scope.

Lemma run_app ops1 ops2 : forall p o,
  run p o (ops1 ++ ops2) = run p o ops1 ++ run (fst (state_after p o ops1)) (snd (state_after p o ops1)) ops2.
Proof.
  induction ops1 as [|op r IH]; intros p o; [reflexivity|].
  destruct op as [p'|pts|sets e st]; cbn [app run state_after]; rewrite IH; reflexivity.
Qed.

Lemma run_length p o ops : length (run p o ops) = count_evals ops.
Proof. revert p o. induction ops as [|op r IH]; intros p o; [reflexivity|]. destruct op; cbn; rewrite ?IH; reflexivity. Qed.

(* the state after any history: the predictor named last, and an object that differs from the constructed one only in the pending
   points assigned last - evaluations leave nothing behind, earlier predictors and earlier pending sets leave nothing behind *)
Theorem state_after_spec ops : forall p o,
  state_after p o ops = (last_predictor p ops, mkobj (o_q o) (last_pending (o_pending o) ops) (o_best o) (o_N o) (o_B o)).
Proof.
  induction ops as [|op r IH]; intros p o; [destruct o; reflexivity|]. destruct op as [p'|pts|sets e st]; cbn [state_after last_predictor last_pending].
  - apply IH.
  - rewrite IH. reflexivity.
  - apply IH.
Qed.

(* an evaluation anywhere in a history is the evaluation, on the predictor named last before it, of the constructed object with the
   pending points assigned last before it *)
Theorem hist_eval p o ops1 sets e st ops2 :
  nth (count_evals ops1) (run p o (ops1 ++ QEval sets e st :: ops2)) [] =
  eval (last_predictor p ops1) (mkobj (o_q o) (last_pending (o_pending o) ops1) (o_best o) (o_N o) (o_B o)) sets e st.
Proof.
  rewrite run_app, app_nth2; rewrite run_length; [|lia]. rewrite Nat.sub_diag, state_after_spec. reflexivity.
Qed.

(* so it is the evaluation of an object FRESHLY constructed, with the pending points held now, on the predictor as it answers now -
   given that this predictor still reports the incumbent the object was built with (lie data carry the worst value; otherwise the
   object keeps the incumbent of ITS construction: best_value is read once) *)
Theorem hist_eval_is_fresh p0 q pend0 N B ops1 sets e st ops2 :
  let p := last_predictor p0 ops1 in
  let pend := last_pending pend0 ops1 in
  nth (count_evals ops1) (run p0 (construct p0 q pend0 N B) (ops1 ++ QEval sets e st :: ops2)) [] = eval p (construct p0 q pend N B) sets e st /\
  (p_best p = p_best p0 -> construct p0 q pend N B = construct p q pend N B).
Proof.
  intros p pend. split; [apply hist_eval|]. unfold construct. intros ->. reflexivity.
Qed.

(* the reading of one estimate inside a history: the mean, over the executed draws of its call, of the improvement over the incumbent of
   the minimum of the sample m - L z, with m = the means the predictor answers NOW for the candidate set and for the pending points held
   NOW, L = the factor of the covariance it answers NOW for their union *)
Theorem hist_estimate_reading p o sets e stream k :
  (forall s, In s sets -> length s = o_q o) -> (0 < o_q o + length (o_pending o))%nat -> (k < length sets)%nat ->
  let c := (o_q o + length (o_pending o))%nat in
  let bs := match e with Some (Some b0) => if (b0 =? 0)%nat then length sets else b0 | _ => length sets end in
  let sk := nth k sets [] in
  nth k (eval p o sets e stream) 0 ==
  set_estimate c (map (mean_of (p_means p)) sk, fac_of (p_facs p) (sk ++ o_pending o)) (mp_now p o) (o_best o)
    (executed_draws (o_N o) (o_B o) c (skipn ((k / bs) * (n_exec (o_N o) (o_B o) * c)) stream)).
Proof.
  intros Hq Hc Hk c bs sk.
  assert (Hlen : length (csets_now p o sets) = length sets) by apply map_length.
  assert (Hmp : length (mp_now p o) = length (o_pending o)) by apply map_length.
  assert (Hwf : forall s, In s (csets_now p o sets) -> length (fst s) = o_q o).
  { intros s Hs. apply in_map_iff in Hs. destruct Hs as (s0 & <- & Hin). cbn [fst]. rewrite map_length. apply Hq, Hin. }
  assert (Hnth : nth k (csets_now p o sets) ([], []) = (map (mean_of (p_means p)) sk, fac_of (p_facs p) (sk ++ o_pending o)))
    by (unfold csets_now, sk; rewrite (nth_map_lt _ sets k ([], []) [] Hk); reflexivity).
  (* the call is stated over the sets and pending means the predictor answers now *)
  rewrite <- Hnth. unfold c, bs. rewrite <- Hmp in *. rewrite <- Hlen in *. destruct e as [batch|]; unfold eval.
  - apply qei_public_estimate; assumption.
  - rewrite (Nat.div_small _ _ Hk). apply qei_estimate_is_sample_mean; assumption.
Qed.
