(* C13, the Pareto machinery of Model/Pareto.v.  The incremental mask of pareto_mask is exact: an invariant of its loop
   (the mask tabulates "no visited row dominates this one") identifies it with the quadratic test nondominated_b, and the
   frontier sorted along the first metric follows.  argmin is read through its first-minimum contract (also what the
   incumbent selection of Proofs/Incumbent.v rests on), which places the epsilon thresholds between the column extremes;
   argmin_fail has the analogous least-failure contract, from which the minimum-success repair is derived.  The facts about
   Qltb, nth of a map and select serve Phases.v, Filters.v and Wiring.v as well. *)
From Coq Require Import List QArith Lia Lqa Permutation Sorted.
From LV Require Import Model.Pareto.
Import ListNotations.
Open Scope Q_scope.

(* dominance for maximised metrics *)
Definition Dominates (c v : row) : Prop :=
  (forall m, (m < length v)%nat -> nth m v 0 <= nth m c 0) /\
  (exists m, (m < length v)%nat /\ nth m v 0 < nth m c 0).

Lemma Qle_bool_false x y : Qle_bool x y = false <-> y < x.
Proof.
  split.
  - intros H. destruct (Qlt_le_dec y x) as [L|L]; [exact L|]. apply Qle_bool_iff in L. congruence.
  - intros H. destruct (Qle_bool x y) eqn:E; [|reflexivity]. apply Qle_bool_iff in E. exfalso. apply (Qlt_not_le _ _ H E).
Qed.
Lemma Qltb_lt x y : Qltb x y = true <-> x < y.
Proof. unfold Qltb. rewrite negb_true_iff. apply Qle_bool_false. Qed.
Lemma Qltb_ge x y : Qltb x y = false <-> y <= x.
Proof. unfold Qltb. rewrite negb_false_iff. apply Qle_bool_iff. Qed.

Lemma nth_map_in {A B} (f : A -> B) l j d d' : (j < length l)%nat -> nth j (map f l) d' = f (nth j l d).
Proof. intros H. rewrite (nth_indep _ d' (f d)) by (rewrite map_length; exact H). apply map_nth. Qed.

Lemma all2_spec f : forall v c, length v = length c ->
  (all2 f v c = true <-> forall m, (m < length v)%nat -> f (nth m v 0) (nth m c 0) = true).
Proof.
  induction v as [|x v IH]; intros [|y c] Hl; simpl in *; try discriminate.
  - split; [intros _ m Hm; lia|reflexivity].
  - rewrite andb_true_iff, IH by congruence. split.
    + intros [H0 H] [|m] Hm; [exact H0|apply H; lia].
    + intros H. split; [apply (H O); lia|intros m Hm; apply (H (S m)); lia].
Qed.
Lemma any2_spec f : forall v c, length v = length c ->
  (any2 f v c = true <-> exists m, (m < length v)%nat /\ f (nth m v 0) (nth m c 0) = true).
Proof.
  induction v as [|x v IH]; intros [|y c] Hl; simpl in *; try discriminate.
  - split; [discriminate|intros (m & Hm & _); lia].
  - rewrite orb_true_iff, IH by congruence. split.
    + intros [H0|(m & Hm & H)]; [exists O; split; [lia|exact H0]|exists (S m); split; [lia|exact H]].
    + intros ([|m] & Hm & H); [left; exact H|right; exists m; split; [lia|exact H]].
Qed.

Lemma all2_false f : forall v c, length v = length c -> all2 f v c = false ->
  exists m, (m < length v)%nat /\ f (nth m v 0) (nth m c 0) = false.
Proof.
  induction v as [|x v IH]; intros [|y c] Hl H; simpl in *; try discriminate.
  apply andb_false_iff in H. destruct H as [H|H].
  - exists O. split; [lia|exact H].
  - destruct (IH c ltac:(lia) H) as (m & Hm & E). exists (S m). split; [lia|exact E].
Qed.

Lemma dom_spec c v : length v = length c -> (dom c v = true <-> Dominates c v).
Proof.
  intros Hl. unfold dom, keep, Dominates. rewrite negb_true_iff, orb_false_iff. split.
  - intros [Hall Hany]. split.
    + intros m Hm. apply Qltb_ge. destruct (Qltb (nth m c 0) (nth m v 0)) eqn:E; [|reflexivity].
      rewrite <- Hany. symmetry. apply any2_spec; [exact Hl|]. exists m. split; assumption.
    + destruct (all2_false _ v c Hl Hall) as (m & Hm & E). exists m. split; [exact Hm|].
      apply Qle_bool_false. exact E.
  - intros [Hle (m & Hm & Hlt)]. split.
    + destruct (all2 (fun vi ci => Qle_bool ci vi) v c) eqn:E; [|reflexivity]. exfalso.
      rewrite (all2_spec (fun vi ci => Qle_bool ci vi)) in E by exact Hl. specialize (E m Hm).
      apply Qle_bool_iff in E. apply (Qlt_not_le _ _ Hlt E).
    + destruct (any2 (fun vi ci => Qltb ci vi) v c) eqn:E; [|reflexivity]. exfalso.
      apply any2_spec in E; [|exact Hl]. destruct E as (k & Hk & E). apply Qltb_lt in E.
      apply (Qlt_not_le _ _ E (Hle k Hk)).
Qed.

Lemma Dominates_trans a b c : length c = length b ->
  Dominates a b -> Dominates b c -> Dominates a c.
Proof.
  intros Hbc [H1 (m & Hm & Hlt)] [H2 _]. split.
  - intros k Hk. eapply Qle_trans; [apply H2; exact Hk|apply H1; congruence].
  - exists m. split; [congruence|]. eapply Qle_lt_trans; [apply H2; congruence|exact Hlt].
Qed.

Section Loop.
Variable vals : list row.
Variable width : nat.
Hypothesis rect : forall r, In r vals -> length r = width.
Let n := length vals.
Let d : row := [].

Lemma row_len i : (i < n)%nat -> length (nth i vals d) = width.
Proof. intros Hi. apply rect. apply nth_In. exact Hi. Qed.

Lemma dom_trans_ix i j k : (i < n)%nat -> (j < n)%nat -> (k < n)%nat ->
  dom (nth i vals d) (nth j vals d) = true -> dom (nth j vals d) (nth k vals d) = true ->
  dom (nth i vals d) (nth k vals d) = true.
Proof.
  intros Hi Hj Hk H1 H2.
  apply dom_spec in H1; [|rewrite !row_len by assumption; reflexivity].
  apply dom_spec in H2; [|rewrite !row_len by assumption; reflexivity].
  apply dom_spec; [rewrite !row_len by assumption; reflexivity|].
  eapply Dominates_trans; [|exact H1|exact H2]. rewrite !row_len by assumption. reflexivity.
Qed.

(* once the rows of S have been visited, the mask marks the rows that no member of S dominates *)
Definition undominated_by (S : list nat) (j : nat) : bool :=
  forallb (fun i => negb (dom (nth i vals d) (nth j vals d))) S.
Definition mask_after (S : list nat) (good : list bool) : Prop :=
  length good = n /\ (forall i, In i S -> (i < n)%nat) /\
  forall j, (j < n)%nat -> nth j good false = undominated_by S j.

Lemma nth_step_true good i j :
  length good = n -> nth i good false = true -> (j < n)%nat ->
  nth j (step vals good i) false = nth j good false && negb (dom (nth i vals d) (nth j vals d)).
Proof.
  intros Hl Hi Hj. unfold step. rewrite Hi.
  rewrite (nth_map_in _ _ _ (false, d)) by (rewrite combine_length; unfold n in *; lia).
  rewrite combine_nth by exact Hl. reflexivity.
Qed.

Lemma step_length good i : length good = n -> length (step vals good i) = n.
Proof.
  intros Hl. unfold step. destruct (nth i good false); [|exact Hl].
  rewrite map_length, combine_length. unfold n in *. lia.
Qed.

Lemma mask_after_step S good i : (i < n)%nat -> mask_after S good -> mask_after (i :: S) (step vals good i).
Proof.
  intros Hi (Hl & Hb & Hg). split; [apply step_length; exact Hl|].
  split; [intros k [<-|Hk]; [exact Hi|apply Hb; exact Hk]|].
  intros j Hj. cbn [undominated_by forallb]. fold (undominated_by S j).
  destruct (nth i good false) eqn:Hgi.
  - rewrite nth_step_true, Hg by assumption. apply andb_comm.
  - assert (Hs : step vals good i = good) by (unfold step; rewrite Hgi; reflexivity). rewrite Hs, Hg by exact Hj.
    destruct (dom (nth i vals d) (nth j vals d)) eqn:Hd; [|reflexivity].
    (* row i is dominated by a member of S, and that member dominates what row i dominates *)
    destruct (undominated_by S j) eqn:Hu; [exfalso|reflexivity].
    rewrite Hg in Hgi by exact Hi. apply diff_true_false. rewrite <- Hgi. symmetry. apply forallb_forall. intros i1 Hi1.
    unfold undominated_by in Hu. rewrite forallb_forall in Hu. specialize (Hu i1 Hi1). apply negb_true_iff in Hu.
    apply negb_true_iff. destruct (dom (nth i1 vals d) (nth i vals d)) eqn:H1; [|reflexivity].
    rewrite (dom_trans_ix i1 i j (Hb i1 Hi1) Hi Hj H1 Hd) in Hu. discriminate Hu.
Qed.

Lemma mask_after_fold : forall idxs S good,
  (forall i, In i idxs -> (i < n)%nat) -> mask_after S good ->
  mask_after (rev idxs ++ S) (fold_left (step vals) idxs good).
Proof.
  induction idxs as [|i idxs IH]; intros S good Hb HI; cbn [fold_left rev app]; [exact HI|].
  rewrite <- app_assoc. cbn [app]. apply IH.
  - intros k Hk. apply Hb. right; exact Hk.
  - apply mask_after_step; [apply Hb; left; reflexivity|exact HI].
Qed.

Lemma mask_after_nil : mask_after [] (repeat true n).
Proof.
  split; [apply repeat_length|]. split; [intros i []|].
  intros j Hj. rewrite nth_indep with (d' := true) by (rewrite repeat_length; exact Hj). apply nth_repeat.
Qed.

Lemma mask_after_all : mask_after (rev (seq 0 n)) (pareto_mask vals).
Proof.
  rewrite <- (app_nil_r (rev (seq 0 n))). apply mask_after_fold; [|exact mask_after_nil]. intros i Hi. apply in_seq in Hi. lia.
Qed.

Lemma pareto_mask_length : length (pareto_mask vals) = n.
Proof. exact (proj1 mask_after_all). Qed.

Lemma pareto_mask_exact j : (j < n)%nat ->
  (nth j (pareto_mask vals) false = true <->
   forall k, (k < n)%nat -> dom (nth k vals d) (nth j vals d) = false).
Proof.
  intros Hj. destruct mask_after_all as (_ & _ & Hg). rewrite Hg by exact Hj.
  unfold undominated_by. rewrite forallb_forall. split; intros H k Hk; apply negb_true_iff, H.
  - apply -> in_rev. apply in_seq. lia.
  - apply <- in_rev in Hk. apply in_seq in Hk. lia.
Qed.

Lemma nondominated_b_spec j : (j < n)%nat ->
  (nondominated_b vals j = true <-> ~ exists k, (k < n)%nat /\ Dominates (nth k vals d) (nth j vals d)).
Proof.
  intros Hj. unfold nondominated_b. rewrite forallb_forall. split.
  - intros H (k & Hk & HD). specialize (H (nth k vals d) (nth_In _ _ Hk)).
    apply negb_true_iff in H. apply dom_spec in HD; [unfold d in *; congruence|]. rewrite !row_len by assumption. reflexivity.
  - intros H c Hc. apply negb_true_iff. destruct (dom c (nth j vals [])) eqn:E; [|reflexivity]. exfalso. apply H.
    destruct (In_nth _ _ d Hc) as (k & Hk & <-). exists k. split; [exact Hk|].
    apply dom_spec; [|exact E]. rewrite !row_len by assumption. reflexivity.
Qed.

Lemma mask_is_nondominated_b j : (j < n)%nat -> nth j (pareto_mask vals) false = nondominated_b vals j.
Proof.
  intros Hj. apply eq_true_iff_eq. rewrite pareto_mask_exact by exact Hj. unfold nondominated_b.
  rewrite forallb_forall. split.
  - intros H c Hc. destruct (In_nth _ _ d Hc) as (k & Hk & <-). pose proof (H k Hk) as E. unfold d in *. rewrite E. reflexivity.
  - intros H k Hk. specialize (H _ (nth_In _ d Hk)). apply negb_true_iff in H. exact H.
Qed.
End Loop.

(* selecting indices by a mask is filtering them by the predicate the mask tabulates *)
Lemma select_mask_filter (f : nat -> bool) : forall (mask : list bool) (s : nat),
  (forall j, (j < length mask)%nat -> nth j mask false = f (s + j)%nat) ->
  select mask (seq s (length mask)) = filter f (seq s (length mask)).
Proof.
  induction mask as [|b mask IH]; intros s H; [reflexivity|].
  pose proof (H O ltac:(simpl; lia)) as H0. rewrite Nat.add_0_r in H0. cbn [nth] in H0.
  cbn [length seq select filter]. rewrite <- H0, IH; [reflexivity|].
  intros j Hj. rewrite Nat.add_succ_comm. apply (H (S j)). simpl. lia.
Qed.

Lemma pareto_split_seq vals width :
  (forall r, In r vals -> length r = width) ->
  pareto_split vals (seq 0 (length vals)) =
  (filter (nondominated_b vals) (seq 0 (length vals)),
   filter (fun j => negb (nondominated_b vals j)) (seq 0 (length vals))).
Proof.
  intros rect. unfold pareto_split.
  pose proof (pareto_mask_length vals width rect) as Hl.
  pose proof (mask_is_nondominated_b vals width rect) as Hm. rewrite <- Hl in Hm.
  rewrite <- Hl. f_equal.
  - apply select_mask_filter. exact Hm.
  - rewrite <- (map_length negb). apply select_mask_filter. intros j Hj. rewrite map_length in Hj.
    change false with (negb true). rewrite map_nth, <- Hm by exact Hj. f_equal. apply nth_indep. exact Hj.
Qed.

Lemma select_map {A B} (f : A -> B) : forall mask l, select mask (map f l) = map f (select mask l).
Proof.
  induction mask as [|b m IH]; intros [|x l]; simpl; try reflexivity. destruct b; simpl; rewrite IH; reflexivity.
Qed.

Theorem pareto_partition_exact {A} (vals : list row) (width : nat) (obs : list A) (dflt : A) :
  (forall r, In r vals -> length r = width) -> length obs = length vals ->
  let ix := seq 0 (length vals) in
  pareto_split vals obs =
  (map (fun j => nth j obs dflt) (filter (nondominated_b vals) ix),
   map (fun j => nth j obs dflt) (filter (fun j => negb (nondominated_b vals j)) ix))
  /\ forall j, (j < length vals)%nat ->
       (nondominated_b vals j = true <->
        ~ exists k, (k < length vals)%nat /\ Dominates (nth k vals []) (nth j vals [])).
Proof.
  intros rect Hlen ix. split.
  - pose proof (pareto_split_seq vals width rect) as H. unfold pareto_split in *.
    assert (Hobs : obs = map (fun j => nth j obs dflt) (seq 0 (length vals))).
    { rewrite <- Hlen. clear. induction obs as [|x obs IH]; [reflexivity|]. cbn [length seq map nth]. f_equal.
      rewrite <- seq_shift, map_map. exact IH. }
    injection H as H1 H2. unfold ix. rewrite <- H1, <- H2, <- !select_map, <- Hobs. reflexivity.
  - intros j Hj. apply (nondominated_b_spec vals width rect j Hj).
Qed.

Lemma convex_between eps a b lo hi :
  0 < eps -> eps < 1 -> lo <= a <= hi -> lo <= b <= hi -> lo <= convex eps a b <= hi.
Proof. unfold convex. intros He0 He1 [Ha1 Ha2] [Hb1 Hb2]. split; nra. Qed.

Lemma Qminb_cases a b : Qminb a b = a \/ Qminb a b = b.
Proof. unfold Qminb. destruct (Qle_bool a b); auto. Qed.
Lemma Qmaxb_cases a b : Qmaxb a b = a \/ Qmaxb a b = b.
Proof. unfold Qmaxb. destruct (Qle_bool a b); auto. Qed.

Lemma at_col : forall vals r c, (r < length vals)%nat -> at_ vals r c = nth r (col c vals) 0.
Proof.
  unfold at_, col. induction vals as [|x vals IH]; intros [|r] c Hr; simpl in *; try lia; [reflexivity|].
  apply IH. lia.
Qed.

(* first-minimum semantics of argmin: the scan keeps the index of the first minimum of the prefix read so far *)
Definition first_min (dflt : Q) (l : list Q) (r : nat) : Prop :=
  (r < length l)%nat /\ (forall k, (k < length l)%nat -> nth r l dflt <= nth k l dflt) /\
  (forall k, (k < r)%nat -> nth r l dflt < nth k l dflt).

Lemma first_min_snoc dflt pre bi x : first_min dflt pre bi ->
  first_min dflt (pre ++ [x]) (if Qltb x (nth bi pre dflt) then length pre else bi).
Proof.
  intros (Hb & Hmin & Hfirst).
  assert (Hold : forall k, (k < length pre)%nat -> nth k (pre ++ [x]) dflt = nth k pre dflt) by (intros; apply app_nth1; lia).
  assert (Hnew : nth (length pre) (pre ++ [x]) dflt = x) by (rewrite app_nth2, Nat.sub_diag by lia; reflexivity).
  assert (Hcase : forall k, (k < length (pre ++ [x]))%nat -> (k < length pre)%nat \/ k = length pre)
    by (intros k; rewrite app_length; simpl; lia).
  destruct (Qltb x (nth bi pre dflt)) eqn:Ex; (split; [rewrite app_length; simpl; lia|]).
  - apply Qltb_lt in Ex. rewrite Hnew. split.
    + intros k Hk. destruct (Hcase k Hk) as [Hk'| ->]; [|rewrite Hnew; apply Qle_refl].
      rewrite Hold by exact Hk'. apply Qlt_le_weak. eapply Qlt_le_trans; [exact Ex|apply Hmin; exact Hk'].
    + intros k Hk. rewrite Hold by exact Hk. eapply Qlt_le_trans; [exact Ex|apply Hmin; exact Hk].
  - apply Qltb_ge in Ex. rewrite Hold by exact Hb. split.
    + intros k Hk. destruct (Hcase k Hk) as [Hk'| ->]; [|rewrite Hnew; exact Ex].
      rewrite Hold by exact Hk'. apply Hmin. exact Hk'.
    + intros k Hk. rewrite Hold by lia. apply Hfirst. exact Hk.
Qed.

Lemma argmin_from_spec dflt : forall l pre bi, first_min dflt pre bi ->
  first_min dflt (pre ++ l) (argmin_from (nth bi pre dflt) bi (length pre) l).
Proof.
  induction l as [|x l IH]; intros pre bi H; cbn [argmin_from]; [rewrite app_nil_r; exact H|].
  apply (first_min_snoc dflt pre bi x) in H as H'.
  destruct (Qltb x (nth bi pre dflt)); apply IH in H'; rewrite <- app_assoc, app_length, Nat.add_1_r in H'.
  - rewrite app_nth2, Nat.sub_diag in H' by lia. exact H'.
  - rewrite app_nth1 in H' by apply H. exact H'.
Qed.

Theorem argmin_first_min l dflt : l <> [] ->
  let r := argmin l in
  (r < length l)%nat /\ (forall k, (k < length l)%nat -> nth r l dflt <= nth k l dflt) /\
  (forall k, (k < r)%nat -> nth r l dflt < nth k l dflt).
Proof.
  destruct l as [|x l]; [congruence|intros _].
  apply (argmin_from_spec dflt l [x] O). repeat split; simpl; intros; try lia.
  assert (k = O) by lia. subst k. apply Qle_refl.
Qed.

(* the first minimum of a column, in terms of the table *)
Lemma argmin_col_first_min c vals : vals <> [] ->
  let b := argmin (col c vals) in
  (b < length vals)%nat /\ (forall k, (k < length vals)%nat -> at_ vals b c <= at_ vals k c) /\
  (forall k, (k < b)%nat -> at_ vals b c < at_ vals k c).
Proof.
  intros Hne b. assert (Hc : col c vals <> []) by (destruct vals; [congruence|discriminate]).
  destruct (argmin_first_min (col c vals) 0 Hc) as (Hb & Hmin & Hfirst). fold b in Hb, Hmin, Hfirst.
  assert (Hlen : length (col c vals) = length vals) by apply map_length. rewrite Hlen in Hb, Hmin.
  split; [exact Hb|]. split; intros k Hk; rewrite !at_col by lia; [apply Hmin|apply Hfirst]; exact Hk.
Qed.

Theorem epsilon_no_bounds eps cm vals : vals <> [] ->
  let b0 := argmin (col 0 vals) in let b1 := argmin (col 1 vals) in
  (b0 < length vals)%nat /\ (b1 < length vals)%nat /\
  (forall k, (k < length vals)%nat -> at_ vals b0 0 <= at_ vals k 0) /\
  (forall k, (k < length vals)%nat -> at_ vals b1 1 <= at_ vals k 1) /\
  (forall k, (k < b0)%nat -> at_ vals b0 0 < at_ vals k 0) /\
  (forall k, (k < b1)%nat -> at_ vals b1 1 < at_ vals k 1) /\
  find_eps eps cm vals None None =
    (1 - eps) * Qminb (at_ vals b0 cm) (at_ vals b1 cm) + eps * Qmaxb (at_ vals b0 cm) (at_ vals b1 cm).
Proof.
  intros Hne b0 b1.
  destruct (argmin_col_first_min 0 vals Hne) as (H0 & H0a & H0b). destruct (argmin_col_first_min 1 vals Hne) as (H1 & H1a & H1b).
  repeat split; assumption.
Qed.

Lemma eps_no_bounds_in_range eps cm vals lo hi :
  0 < eps -> eps < 1 -> vals <> [] -> (forall r, In r vals -> lo <= nth cm r 0 <= hi) ->
  lo <= eps_no_bounds eps cm vals <= hi.
Proof.
  intros He0 He1 Hne Hr. unfold eps_no_bounds.
  assert (Hat : forall c, lo <= at_ vals (argmin (col c vals)) cm <= hi)
    by (intros c; apply Hr, nth_In; exact (proj1 (argmin_col_first_min c vals Hne))).
  apply convex_between; try assumption.
  - destruct (Qminb_cases (at_ vals (argmin (col 0 vals)) cm) (at_ vals (argmin (col 1 vals)) cm)) as [-> | ->]; apply Hat.
  - destruct (Qmaxb_cases (at_ vals (argmin (col 0 vals)) cm) (at_ vals (argmin (col 1 vals)) cm)) as [-> | ->]; apply Hat.
Qed.

Lemma select_spec {A} : forall (m : list bool) (l : list A) x,
  In x (select m l) <-> exists j, nth j m false = true /\ nth_error l j = Some x.
Proof.
  induction m as [|b m IH]; intros [|y l] x; simpl.
  - split; [tauto|intros ([|j] & H & _); discriminate].
  - split; [tauto|intros ([|j] & H & _); discriminate].
  - split; [tauto|intros ([|j] & _ & H); discriminate].
  - destruct b; simpl; rewrite IH; split.
    + intros [->|(j & H1 & H2)]; [exists O; split; reflexivity|exists (S j); split; assumption].
    + intros ([|j] & H1 & H2); [left; simpl in H2; congruence|right; exists j; split; assumption].
    + intros (j & H1 & H2). exists (S j). split; assumption.
    + intros ([|j] & H1 & H2); [discriminate|exists j; split; assumption].
Qed.

Lemma select_incl {A} (mask : list bool) (l : list A) x : In x (select mask l) -> In x l.
Proof. intros H. apply select_spec in H. destruct H as (j & _ & E). exact (nth_error_In _ _ E). Qed.

Lemma insert_row_perm x l : Permutation (insert_row x l) (x :: l).
Proof.
  induction l as [|y l IH]; simpl; [apply Permutation_refl|].
  destruct (Qle_bool _ _); [apply Permutation_refl|].
  eapply perm_trans; [apply perm_skip; exact IH|apply perm_swap].
Qed.

Lemma sort_rows_perm l : Permutation (sort_rows l) l.
Proof.
  induction l as [|x l IH]; simpl; [constructor|].
  eapply perm_trans; [apply insert_row_perm|apply perm_skip; exact IH].
Qed.

Lemma sorted_pareto_incl vals y : In y (sorted_pareto_min vals) -> In y vals.
Proof. intros H. apply (Permutation_in _ (sort_rows_perm _)) in H. apply select_incl in H. exact H. Qed.

Lemma last_in {A} (l : list A) d : l <> [] -> In (last l d) l.
Proof.
  induction l as [|x l IH]; [congruence|intros _]. destruct l as [|y l]; [left; reflexivity|].
  right. apply IH. discriminate.
Qed.
Lemma hd_in {A} (l : list A) d : l <> [] -> In (hd d l) l.
Proof. destruct l; [congruence|left; reflexivity]. Qed.

Theorem epsilon_with_bounds_in_range eps cm vals t0 t1 lo hi :
  0 < eps -> eps < 1 -> vals <> [] -> (forall r, In r vals -> lo <= nth cm r 0 <= hi) ->
  lo <= find_eps eps cm vals t0 t1 <= hi.
Proof.
  intros He0 He1 Hne Hrange.
  assert (Hnb := eps_no_bounds_in_range eps cm vals lo hi He0 He1 Hne Hrange).
  assert (Hwb : lo <= eps_with_bounds eps cm vals t0 t1 <= hi).
  { unfold eps_with_bounds.
    destruct (Nat.ltb (count_true _) 1); [exact Hnb|].
    destruct (Nat.ltb (length (sorted_pareto_min vals)) 2) eqn:El; [exact Hnb|].
    set (sp := sorted_pareto_min vals) in *.
    assert (Hsp : sp <> []) by (apply Nat.ltb_ge in El; destruct sp; [simpl in El; lia|discriminate]).
    assert (Hin : forall r, In r sp -> lo <= nth cm r 0 <= hi) by (intros r Hr; apply Hrange, sorted_pareto_incl; exact Hr).
    assert (Hflt : forall f r, In r (filter f sp) -> lo <= nth cm r 0 <= hi)
      by (intros f r Hr; apply Hin; apply filter_In in Hr; apply Hr).
    assert (Hfirst := Hin _ (hd_in sp [] Hsp)). assert (Hlast := Hin _ (last_in sp [] Hsp)).
    set (m0 := if Nat.eqb cm 0 then _ else _). set (M0 := if Nat.eqb cm 1 then _ else _).
    assert (Hm0 : lo <= m0 <= hi) by (unfold m0; destruct (Nat.eqb cm 0); assumption).
    assert (HM0 : lo <= M0 <= hi) by (unfold M0; destruct (Nat.eqb cm 1); assumption).
    clearbody m0 M0.
    set (p1 := match t0 with None => (m0, M0) | Some t => _ end).
    assert (Hp1 : lo <= fst p1 <= hi /\ lo <= snd p1 <= hi).
    { unfold p1. destruct t0 as [t|]; [|split; assumption].
      specialize (Hflt (fun r => out_bound t (nth 0 r 0))). destruct (filter _ sp) as [|r rs]; [split; assumption|].
      destruct (Nat.eqb cm 0); cbn [fst snd]; split; try assumption; apply Hflt; left; reflexivity. }
    destruct p1 as [m1 M1]. simpl in Hp1. destruct Hp1 as [Hm1 HM1].
    set (p2 := match t1 with None => (m1, M1) | Some t => _ end).
    assert (Hp2 : lo <= fst p2 <= hi /\ lo <= snd p2 <= hi).
    { unfold p2. destruct t1 as [t|]; [|split; assumption].
      specialize (Hflt (fun r => out_bound t (nth 1 r 0))). destruct (filter _ sp) as [|r rs]; [split; assumption|].
      destruct (Nat.eqb cm 0); cbn [fst snd]; split; try assumption; apply Hflt, last_in; discriminate. }
    destruct p2 as [m2 M2]. simpl in Hp2. destruct Hp2 as [Hm2 HM2].
    apply convex_between; assumption. }
  unfold find_eps. destruct t0, t1; assumption.
Qed.

Lemma count_true_cons b l : count_true (b :: l) = ((if b then 1 else 0) + count_true l)%nat.
Proof. unfold count_true. simpl. destruct b; reflexivity. Qed.

Lemma clear_length : forall l i, length (clear i l) = length l.
Proof. induction l as [|b l IH]; intros [|i]; simpl; auto. Qed.
Lemma clear_nth : forall l i j, nth j (clear i l) false = if Nat.eqb i j then false else nth j l false.
Proof.
  induction l as [|b l IH]; intros [|i] [|j]; simpl; auto.
  - destruct (Nat.eqb i j); reflexivity.
Qed.
Lemma count_clear : forall l i, nth i l false = true -> S (count_true (clear i l)) = count_true l.
Proof.
  induction l as [|b l IH]; intros [|i] H; simpl in H; try discriminate.
  - subst. cbn [clear]. rewrite !count_true_cons. reflexivity.
  - cbn [clear]. rewrite !count_true_cons. rewrite <- (IH i H). lia.
Qed.

Lemma nth_true_lt (l : list bool) j : nth j l false = true -> (j < length l)%nat.
Proof.
  intros H. destruct (Nat.lt_ge_cases j (length l)) as [Hlt|Hge]; [exact Hlt|]. rewrite nth_overflow in H by exact Hge. discriminate.
Qed.

Definition failed_entry (dq : Q) (v : list Q) (f : list bool) (k : nat) (y : Q) : Prop :=
  nth k f false = true /\ nth k v dq = y.

Lemma failed_entry_snoc dq pv pf x b k y : length pv = length pf ->
  (failed_entry dq (pv ++ [x]) (pf ++ [b]) k y <-> failed_entry dq pv pf k y \/ (k = length pf /\ b = true /\ x = y)).
Proof.
  intros Hp. unfold failed_entry. destruct (Nat.lt_ge_cases k (length pf)) as [Hlt|Hge].
  - rewrite !app_nth1 by congruence. split; [auto|]. intros [H|(E & _)]; [exact H|lia].
  - rewrite (nth_overflow pf), (nth_overflow pv) by congruence. split.
    + intros [Hf Hv]. right. apply nth_true_lt in Hf as Hk. rewrite app_length in Hk. cbn [length] in Hk.
      assert (k = length pf) by lia. subst k. rewrite app_nth2, Nat.sub_diag in Hf by lia.
      rewrite <- Hp, app_nth2, Nat.sub_diag in Hv by lia. auto.
    + intros [[D _]|(-> & -> & ->)]; [discriminate D|]. rewrite app_nth2, Nat.sub_diag by lia.
      rewrite <- Hp, app_nth2, Nat.sub_diag by lia. auto.
Qed.

(* the scan of argmin_fail keeps a least failed entry of the prefix read so far, if the prefix has a failure *)
Definition least_failure (dq : Q) (v : list Q) (f : list bool) (best : option (nat * Q)) : Prop :=
  match best with
  | None => forall k y, ~ failed_entry dq v f k y
  | Some (bi, bx) => (exists y, failed_entry dq v f bi y /\ bx == y) /\ forall k y, failed_entry dq v f k y -> bx <= y
  end.

Lemma least_failure_snoc dq pv pf best x b : length pv = length pf -> least_failure dq pv pf best ->
  least_failure dq (pv ++ [x]) (pf ++ [b])
    (if b then match best with
               | None => Some (length pf, x)
               | Some (_, bx) => if Qltb x bx then Some (length pf, x) else best
               end
     else best).
Proof.
  intros Hp Hbest. pose proof (fun k y => failed_entry_snoc dq pv pf x b k y Hp) as S.
  assert (New : b = true -> exists y, failed_entry dq (pv ++ [x]) (pf ++ [b]) (length pf) y /\ x == y)
    by (intros Hb; exists x; split; [apply S; right; auto|reflexivity]).
  destruct best as [[bi bx]|]; cbn [least_failure] in Hbest.
  - destruct Hbest as ((y & Hy & Ey) & Hmin).
    assert (Old : exists y, failed_entry dq (pv ++ [x]) (pf ++ [b]) bi y /\ bx == y)
      by (exists y; split; [apply S; left; exact Hy|exact Ey]).
    (* the best entry changes only when the entry just read fails and is smaller; below an old entry by Hmin, below
       the new one by the comparison just made *)
    destruct b; [destruct (Qltb x bx) eqn:Ex; [apply Qltb_lt in Ex|apply Qltb_ge in Ex]|]; (split; [auto|]).
    all: intros k z Hz; apply S in Hz; destruct Hz as [Hz|(_ & D & <-)]; [apply Hmin in Hz; lra|first [discriminate D|lra]].
  - destruct b; [split; [auto|]|].
    all: intros k z Hz; apply S in Hz; destruct Hz as [Hz|(_ & D & <-)];
         [destruct (Hbest k z Hz)|first [discriminate D|apply Qle_refl]].
Qed.

Lemma argmin_fail_spec dq : forall v fails pv pf best, length pv = length pf -> length v = length fails ->
  least_failure dq pv pf best -> least_failure dq (pv ++ v) (pf ++ fails) (argmin_fail v fails (length pf) best).
Proof.
  induction v as [|x v IH]; intros [|b fails] pv pf best Hp Hlen Hbest; simpl in Hlen; try discriminate; cbn [argmin_fail].
  - rewrite !app_nil_r. exact Hbest.
  - apply (least_failure_snoc dq pv pf best x b Hp) in Hbest.
    change (pv ++ x :: v) with (pv ++ [x] ++ v). change (pf ++ b :: fails) with (pf ++ [b] ++ fails). rewrite !app_assoc.
    replace (S (length pf)) with (length (pf ++ [b])) by (rewrite app_length; simpl; lia).
    apply IH; [rewrite !app_length; simpl; congruence|congruence|exact Hbest].
Qed.

Lemma count_true_zero l : (forall k, nth k l false = false) -> count_true l = O.
Proof.
  induction l as [|b l IH]; intros H; [reflexivity|]. rewrite count_true_cons.
  rewrite (H O : b = false). apply IH. intros k. exact (H (S k)).
Qed.

(* force_k clears exactly min(k, #failures) failures, never sets one, and every cleared row is <= every row left failed *)
Lemma force_k_spec : forall k v fails dq, length v = length fails ->
  let out := force_k k v fails in
  length out = length fails /\
  (forall j, nth j out false = true -> nth j fails false = true) /\
  (count_true out + Nat.min k (count_true fails) = count_true fails)%nat /\
  (forall a b, nth a fails false = true -> nth a out false = false -> nth b out false = true ->
     nth a v dq <= nth b v dq).
Proof.
  induction k as [|k IH]; intros v fails dq Hlen; cbn [force_k]; cbv zeta.
  - repeat split; auto. intros a b Ha Ha' Hb. congruence.
  - pose proof (argmin_fail_spec dq v fails [] [] None eq_refl Hlen) as Hs. cbn [app length] in Hs.
    specialize (Hs ltac:(intros [|k'] y [D _]; discriminate D)).
    destruct (argmin_fail v fails 0 None) as [[i x]|]; cbn [least_failure] in Hs.
    + destruct Hs as ((y & [Hif Hy] & Hix) & Hmin).
      specialize (IH v (clear i fails) dq ltac:(rewrite clear_length; exact Hlen)). cbv zeta in IH.
      destruct IH as (L & Hsub & Hcnt & Hord). rewrite clear_length in L.
      pose proof (count_clear fails i Hif) as Hcc.
      assert (Hkept : forall j, nth j (force_k k v (clear i fails)) false = true -> nth j fails false = true /\ i <> j).
      { intros j Hj. specialize (Hsub j Hj). rewrite clear_nth in Hsub. destruct (Nat.eqb_spec i j); [discriminate|auto]. }
      repeat split; [exact L|intros j Hj; apply Hkept; exact Hj|lia|].
      intros a b Ha Ha' Hb. destruct (Nat.eq_dec a i) as [->|Hne].
      * rewrite Hy, <- Hix. apply (Hmin b). split; [apply Hkept; exact Hb|reflexivity].
      * apply Hord; [|exact Ha'|exact Hb]. rewrite clear_nth.
        destruct (Nat.eqb_spec i a); [congruence|exact Ha].
    + assert (Hnone : forall k', nth k' fails false = false).
      { intros k'. destruct (nth k' fails false) eqn:E; [|reflexivity]. destruct (Hs k' _ (conj E eq_refl)). }
      rewrite (count_true_zero fails Hnone). repeat split; auto; try lia.
      intros a b Ha. rewrite Hnone in Ha. discriminate.
Qed.

Lemma count_negb l : (count_true (map negb l) + count_true l = length l)%nat.
Proof. induction l as [|b l IH]; [reflexivity|]. cbn [map length]. rewrite !count_true_cons. destruct b; simpl; lia. Qed.

Theorem min_successes om vals fails : length vals = length fails ->
  let out := force_min om vals fails in
  let succ l := count_true (map negb l) in
  length out = length fails /\
  (forall j, nth j out false = true -> nth j fails false = true) /\
  succ out = Nat.max (succ fails) (Nat.min min_success (length fails)) /\
  (forall a b, nth a fails false = true -> nth a out false = false -> nth b out false = true ->
     at_ vals a om <= at_ vals b om).
Proof.
  intros Hlen. cbv zeta. unfold force_min.
  pose proof (count_negb fails) as Hc.
  destruct (Nat.ltb (count_true (map negb fails)) min_success) eqn:El.
  - apply Nat.ltb_lt in El.
    assert (Hcl : length (col om vals) = length fails) by (unfold col; rewrite map_length; exact Hlen).
    pose proof (force_k_spec (min_success - count_true (map negb fails)) (col om vals) fails 0 Hcl) as H. cbv zeta in H.
    destruct H as (L & Hsub & Hcnt & Hord). pose proof (count_negb (force_k (min_success - count_true (map negb fails)) (col om vals) fails)) as Hc2.
    repeat split; [exact L|exact Hsub|lia|].
    intros a b Ha Ha' Hb.
    apply nth_true_lt in Ha as La. apply nth_true_lt in Hb as Lb.
    rewrite !at_col by congruence. apply Hord; assumption.
  - apply Nat.ltb_ge in El. repeat split; auto; [unfold min_success in *; lia|]. intros a b Ha Ha'. congruence.
Qed.

Lemma eps_failures_length eps cm vals fails : length (eps_failures eps cm vals fails) = length vals.
Proof. unfold eps_failures. destruct (no_success vals fails); apply map_length. Qed.

(* eps_labelling merges the threshold labels with the reported failures *)
Lemma merged_length eps cm vals fails : length vals = length fails ->
  length (map (fun p : bool * bool => fst p || snd p) (combine (eps_failures eps cm vals fails) fails)) = length vals.
Proof. intros H. rewrite map_length, combine_length, eps_failures_length. lia. Qed.

Theorem labelling_keeps_minimum eps om cm vals fails : length vals = length fails ->
  (Nat.min min_success (length fails) <= count_true (map negb (eps_labelling eps om cm vals fails)))%nat.
Proof.
  intros Hlen. unfold eps_labelling. pose proof (merged_length eps cm vals fails Hlen) as Hm.
  pose proof (min_successes om vals _ (eq_sym Hm)) as H. cbv zeta in H. destruct H as (_ & _ & H & _).
  rewrite H, Hm. lia.
Qed.

Definition le0 (a b : row) : Prop := nth 0 a 0 <= nth 0 b 0.

Lemma insert_row_sorted x l : Sorted le0 l -> Sorted le0 (insert_row x l).
Proof.
  induction l as [|y l IH]; intros H; simpl.
  - constructor; constructor.
  - destruct (Qle_bool (nth 0 x 0) (nth 0 y 0)) eqn:E.
    + constructor; [exact H|constructor; apply Qle_bool_iff; exact E].
    + assert (Hlt : nth 0 y 0 < nth 0 x 0) by (apply Qle_bool_false; exact E).
      inversion H as [|y' l' Hs Hh]; subst. constructor; [apply IH; exact Hs|].
      destruct l as [|z l]; simpl.
      * constructor. unfold le0. lra.
      * destruct (Qle_bool (nth 0 x 0) (nth 0 z 0)); constructor; [unfold le0; lra|inversion Hh; assumption].
Qed.

Lemma sort_rows_sorted l : StronglySorted le0 (sort_rows l).
Proof.
  apply Sorted_StronglySorted; [intros a b c; unfold le0; intros; lra|].
  induction l as [|x l IH]; simpl; [constructor|apply insert_row_sorted; exact IH].
Qed.

(* the frontier sorted along the first metric
   (_find_sorted_pareto_frontier_values_minimization): exactly the non-dominated rows under minimisation, every copy of
   a tied row kept, in non-decreasing order of the first metric *)
Theorem sorted_frontier_exact (vals : list row) (width : nat) :
  (forall r, In r vals -> length r = width) ->
  let nv := neg_rows vals in
  Permutation (sorted_pareto_min vals)
              (map (fun j => nth j vals []) (filter (nondominated_b nv) (seq 0 (length vals)))) /\
  StronglySorted le0 (sorted_pareto_min vals) /\
  forall j, (j < length vals)%nat ->
    (nondominated_b nv j = true <->
     ~ exists k, (k < length vals)%nat /\ Dominates (nth k nv []) (nth j nv [])).
Proof.
  intros rect nv.
  assert (rect' : forall r, In r nv -> length r = width).
  { intros r Hr. unfold nv, neg_rows in Hr. apply in_map_iff in Hr. destruct Hr as (r0 & <- & Hin).
    rewrite map_length. apply rect. exact Hin. }
  assert (Hlen : length vals = length nv) by (unfold nv, neg_rows; rewrite map_length; reflexivity).
  destruct (@pareto_partition_exact row nv width vals [] rect' Hlen) as [Hsplit Hnd]. cbv zeta in Hsplit.
  unfold pareto_split in Hsplit. injection Hsplit as H1 _.
  split; [|split].
  - unfold sorted_pareto_min. fold nv. rewrite H1, <- Hlen. apply sort_rows_perm.
  - apply sort_rows_sorted.
  - intros j Hj. rewrite Hlen in Hj. rewrite Hlen. apply Hnd. exact Hj.
Qed.
