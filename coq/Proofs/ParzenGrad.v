(* C04: the generated gradient of the Parzen-estimator improvement ratio is the derivative of the generated ratio. *)
From Coq Require Import Reals Psatz.
From Coquelicot Require Import Coquelicot.
From LV Require Import Lib.RBase Gen.GenAcq Proofs.Acq.
Open Scope R_scope.

Lemma is_derive_average n (f : nat -> R -> R) (df : nat -> R) t :
  (forall j, (j < n)%nat -> is_derive (f j) t (df j)) ->
  is_derive (fun t => bigsum n (fun j => f j t) / INR n) t (bigsum n df / INR n).
Proof.
  intros H. exact (is_derive_scal_l (fun t => bigsum n (fun j => f j t)) t (bigsum n df) (/ INR n) (is_derive_bigsum n f df t H)).
Qed.

Theorem parzen_grad_is_derivative dim ng nl x (kl kg : nat -> R -> R) (dkl dkg : nat -> R) Gl0 Gg0 gamma t i k :
  (0 < nl)%nat -> (0 < ng)%nat -> 0 < gamma < 1 ->
  (forall j, (j < nl)%nat -> is_derive (kl j) t (dkl j)) -> (forall j, (j < ng)%nat -> is_derive (kg j) t (dkg j)) ->
  (forall j, 0 <= kl j t) -> (forall j, 0 <= kg j t) ->
  is_derive (fun t => Parzen.ei_ratio dim ng nl x (fun _ j => kl j t) Gl0 (fun _ j => kg j t) Gg0 gamma i) t
            (Parzen.grad_ei dim ng nl x (fun _ j => kl j t) (fun _ j _ => dkl j) (fun _ j => kg j t) (fun _ j _ => dkg j) gamma i k).
Proof.
  intros Hnl Hng Hgam Hkl Hkg Pl Pg. unfold Parzen.ei_ratio, Parzen.grad_ei.
  set (l := fun t => bigsum nl (fun j => kl j t) / INR nl + 1 / 10000000000).
  set (g := fun t => bigsum ng (fun j => kg j t) / INR ng).
  assert (Hl : is_derive l t (bigsum nl dkl / INR nl)).
  { unfold l. evar_last; [exact (is_derive_Rplus _ _ t _ 0 (is_derive_average nl kl dkl t Hkl) (is_derive_Rconst _ t))|lra]. }
  assert (Hg : is_derive g t (bigsum ng dkg / INR ng)) by exact (is_derive_average ng kg dkg t Hkg).
  assert (Hlpos : 0 < l t).
  { unfold l. assert (0 <= bigsum nl (fun j => kl j t) / INR nl) by (apply density_nonneg; [exact Hnl|intros; apply Pl]). lra. }
  assert (Hgpos : 0 <= g t) by (apply density_nonneg; [exact Hng|intros; apply Pg]).
  assert (Hden : gamma + g t / l t * (1 - gamma) <> 0).
  { assert (0 <= g t / l t) by (apply Rle_mult_inv_pos; assumption). nra. }
  exact (ratio_grad_is_derivative l g (fun _ => bigsum nl dkl / INR nl) (fun _ => bigsum ng dkg / INR ng) gamma t Hlpos Hden Hl Hg).
Qed.
