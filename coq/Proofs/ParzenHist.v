(* C16 over histories: a live Parzen estimator always scores the data, kernels and gamma it holds NOW.
   Lemmas and theorems about LV.Model.ParzenHist (which re-uses the lie state machine of LV.Model.Lies). *)
From Coq Require Import List QArith Lqa.
From LV Require Import Model.ParzenSplit Model.ParzenHist Proofs.ParzenSplit.
From LV Require Model.Lies Proofs.Lies.
Import ListNotations.
Open Scope Q_scope.

Section Hist.
  Variable kern : list Q -> point -> point -> Q.

  Lemma hrun_cons s o ops : hrun kern s (o :: ops) = hrun kern (fst (hstep kern s o)) ops.
  Proof. reflexivity. Qed.

  Lemma hrun_app s a b : hrun kern s (a ++ b) = hrun kern (hrun kern s a) b.
  Proof. unfold hrun, Lies.run. apply fold_left_app. Qed.

  Lemma htrace_cons s o ops : htrace kern s (o :: ops) = snd (hstep kern s o) :: htrace kern (fst (hstep kern s o)) ops.
  Proof. unfold htrace. cbn [Lies.trace]. destruct (hstep kern s o) as [s' x]. reflexivity. Qed.

  Lemma htrace_nth pre : forall s o post d,
    nth (length pre) (htrace kern s (pre ++ o :: post)) d = snd (hstep kern (hrun kern s pre) o).
  Proof.
    induction pre as [|p pre IH]; intros s o post d.
    - cbn [app length]. rewrite htrace_cons. reflexivity.
    - cbn [app length]. rewrite htrace_cons, hrun_cons. cbn [nth]. apply IH.
  Qed.

  Lemma htrace_length ops : forall s, length (htrace kern s ops) = length ops.
  Proof. induction ops as [|o ops IH]; intros s; [reflexivity|]. rewrite htrace_cons. cbn [length]. now rewrite IH. Qed.

  Lemma hstep_eval s o : is_eval o = true ->
    hstep kern s o = (s, fresh_out kern (e_gamma s) (e_hl s) (e_hg s) (e_lower s) (e_greater s) o).
  Proof. destruct o; cbn [is_eval]; intro H; try discriminate H; reflexivity. Qed.

  Theorem eval_reads_only s o : is_eval o = true -> fst (hstep kern s o) = s.
  Proof. intro H. rewrite (hstep_eval s o H). reflexivity. Qed.

  (* erasing every evaluation from a history leaves the object in the same state *)
  Theorem run_erases_evals ops : forall s, hrun kern s ops = hrun kern s (mutations ops).
  Proof.
    induction ops as [|o ops IH]; intros s; [reflexivity|].
    unfold mutations. cbn [filter]. destruct (is_eval o) eqn:E; cbn [negb].
    - rewrite hrun_cons, (eval_reads_only s o E). apply IH.
    - rewrite !hrun_cons. apply IH.
  Qed.

  (* THE CLAUSE.  Whatever happened to the object before (lies told, withdrawn, replaced; kernels replaced or re-tuned in place;
     gamma and the sets assigned directly; any number of evaluations, at these very points or others, in between), an evaluation
     returns what a freshly built estimator returns whose sets, kernels and gamma are those the MUTATIONS of the history
     leave - the earlier evaluations do not matter. *)
  Theorem history_eval_is_fresh s pre o post : is_eval o = true ->
    let s' := hrun kern s (mutations pre) in
    nth (length pre) (htrace kern s (pre ++ o :: post)) HNone =
      fresh_out kern (e_gamma s') (e_hl s') (e_hg s') (e_lower s') (e_greater s') o.
  Proof.
    intros E s'. rewrite htrace_nth, (run_erases_evals pre s). fold s'. rewrite (hstep_eval s' o E). reflexivity.
  Qed.

  (* two histories that leave the same sets, kernels and gamma answer every evaluation alike *)
  Theorem same_content_same_answers s1 s2 o : is_eval o = true ->
    e_gamma s1 = e_gamma s2 -> e_hl s1 = e_hl s2 -> e_hg s1 = e_hg s2 -> e_lower s1 = e_lower s2 -> e_greater s1 = e_greater s2 ->
    snd (hstep kern s1 o) = snd (hstep kern s2 o).
  Proof. intros E G L H Lo Gr. rewrite (hstep_eval s1 o E), (hstep_eval s2 o E), G, L, H, Lo, Gr. reflexivity. Qed.

  Lemma hstep_pz_no_assign s o : assigns_sets o = false ->
    e_pz (fst (hstep kern s o)) = match o with HLie p => fst (Lies.pz_step (e_pz s) p) | _ => e_pz s end.
  Proof.
    destruct o; cbn [assigns_sets]; intro H; try discriminate H; cbn [hstep]; try reflexivity.
    - destruct (Lies.pz_step (e_pz s) o) as [z r]. reflexivity.
    - destruct (_ && _); reflexivity.
    - destruct lower; reflexivity.
  Qed.

  Lemma hrun_pz_no_assign ops : forall s, forallb (fun o => negb (assigns_sets o)) ops = true ->
    e_pz (hrun kern s ops) = Lies.run Lies.pz_step (e_pz s) (lie_ops ops).
  Proof.
    induction ops as [|o ops IH]; intros s H; [reflexivity|].
    cbn [forallb] in H. apply andb_prop in H. destruct H as [Ho H]. apply negb_true_iff in Ho.
    rewrite hrun_cons, (IH _ H), (hstep_pz_no_assign s o Ho).
    destruct o; try reflexivity.
  Qed.

  Lemma lie_ops_ok d ops : Forall (fun o => match o with HLie p => Proofs.Lies.pop_ok d p | _ => True end) ops ->
    Forall (Proofs.Lies.pop_ok d) (lie_ops ops).
  Proof.
    induction 1 as [|o ops Ho _ IH]; [constructor|].
    unfold lie_ops. cbn [flat_map]. destruct o; cbn [app]; try exact IH. constructor; assumption.
  Qed.

  (* An estimator whose sets are never assigned from outside: after ANY history of lies (told, cleared, stashed, recovered),
     kernel changes, gamma changes and evaluations, the set each density is taken over is the constructor's set followed by
     exactly the lies outstanding now - so an evaluation is the fresh answer for (base ++ current lies). *)
  Theorem history_sets_are_base_plus_lies s ops :
    Lies.p_lower_lies (e_pz s) = [] -> Lies.p_greater_lies (e_pz s) = [] ->
    forallb (fun o => negb (assigns_sets o)) ops = true ->
    Forall (fun o => match o with HLie p => Proofs.Lies.pop_ok (e_dim s) p | _ => True end) ops ->
    let s' := hrun kern s ops in
    e_lower s' = e_lower s ++ Lies.p_lower_lies (e_pz s') /\ e_greater s' = e_greater s ++ Lies.p_greater_lies (e_pz s').
  Proof.
    intros L0 G0 Hn Hok s'. unfold e_lower, e_greater. subst s'. rewrite (hrun_pz_no_assign ops s Hn).
    exact (Proofs.Lies.parzen_lie_invariant (lie_ops ops) (e_pz s) L0 G0 (lie_ops_ok _ ops Hok)).
  Qed.

  Lemma krow_app h a b x : krow kern h (a ++ b) x = krow kern h a x ++ krow kern h b x.
  Proof. unfold krow. apply map_app. Qed.

  Lemma krow_nonempty h pts x : pts <> [] -> krow kern h pts x <> [].
  Proof. destruct pts; [congruence|discriminate]. Qed.

  (* a property of the kernel values against every point of the set holds of every entry of the kernel row *)
  Lemma krow_forall (P : Q -> Prop) h pts x : (forall z, In z pts -> P (kern h x z)) -> forall v, In v (krow kern h pts x) -> P v.
  Proof. intros H v Hv. apply in_map_iff in Hv. destruct Hv as (z & <- & Hz). apply H, Hz. Qed.

  (* telling one lie of the right dimension extends the chosen set by it and touches nothing else *)
  Lemma hstep_lie s p lower : length p = e_dim s ->
    let s' := fst (hstep kern s (HLie (Lies.PAppend [p] lower))) in
    e_lower s' = (if lower then e_lower s ++ [p] else e_lower s) /\
    e_greater s' = (if lower then e_greater s else e_greater s ++ [p]) /\ e_hl s' = e_hl s /\ e_hg s' = e_hg s.
  Proof.
    intros Hd. cbn [hstep Lies.pz_step]. rewrite Proofs.Lies.pz_append_spec by (constructor; [exact Hd|constructor]).
    destruct lower; repeat split.
  Qed.

  (* Telling a lie at p to a live estimator (whatever its history) does not lower the density the estimator reports at p:
     kernel contract k(p, z) <= k(p, p) for the points held (C03: a radial kernel is maximal at distance 0). *)
  Theorem history_lie_raises_greater_density s p d d' :
    length p = e_dim s -> e_greater s <> [] ->
    (forall z, In z (e_greater s) -> kern (e_hg s) p z <= kern (e_hg s) p p) ->
    let s' := fst (hstep kern s (HLie (Lies.PAppend [p] false))) in
    snd (hstep kern s (HGreaterDens [p])) = HDens [Some d] -> snd (hstep kern s' (HGreaterDens [p])) = HDens [Some d'] ->
    d <= d'.
  Proof.
    intros Hd Hn Hk s' H1 H2. destruct (hstep_lie s p false Hd) as (_ & Eg & _ & Eh). fold s' in Eg, Eh.
    cbn [hstep snd fresh_out map] in H1, H2. rewrite Eg, Eh in H2. unfold fresh_greater, greater_density in H1, H2.
    rewrite krow_app in H2. injection H1 as H1. injection H2 as H2.
    refine (proj1 (lie_raises_density _ (kern (e_hg s) p p) d d' (krow_nonempty _ _ _ Hn) _ H1 H2)).
    apply krow_forall, Hk.
  Qed.

  Theorem history_lie_raises_lower_density s p l l' :
    length p = e_dim s -> e_lower s <> [] ->
    (forall z, In z (e_lower s) -> kern (e_hl s) p z <= kern (e_hl s) p p) ->
    let s' := fst (hstep kern s (HLie (Lies.PAppend [p] true))) in
    snd (hstep kern s (HLowerDens [p])) = HDens [Some l] -> snd (hstep kern s' (HLowerDens [p])) = HDens [Some l'] ->
    l <= l'.
  Proof.
    intros Hd Hn Hk s' H1 H2. destruct (hstep_lie s p true Hd) as (El & _ & Eh & _). fold s' in El, Eh.
    cbn [hstep snd fresh_out map] in H1, H2. rewrite El, Eh in H2. unfold fresh_lower in H1, H2.
    rewrite krow_app in H2. injection H1 as H1. injection H2 as H2.
    refine (lie_raises_lower_density _ (kern (e_hl s) p p) l l' (krow_nonempty _ _ _ Hn) _ H1 H2).
    apply krow_forall, Hk.
  Qed.

  Theorem history_ratio_clause s x alpha :
    0 < e_gamma s -> e_gamma s < 1 -> e_lower s <> [] -> e_greater s <> [] ->
    (forall z, In z (e_lower s) -> 0 <= kern (e_hl s) x z <= alpha) ->
    (forall z, In z (e_greater s) -> 0 <= kern (e_hg s) x z <= alpha) ->
    exists l g r, snd (hstep kern s (HEval [x])) = HEI [Some (l, g, r)] /\
      fresh_lower kern (e_hl s) (e_lower s) x = Some l /\ fresh_greater kern (e_hg s) (e_greater s) x = Some g /\
      0 < l /\ 0 <= g /\ r == 1 / (e_gamma s + (1 - e_gamma s) * (g / l)) /\ 0 < r /\ r <= 1 / e_gamma s.
  Proof.
    intros G0 G1 Nl Ng Kl Kg.
    destruct (ei_spec (e_gamma s) alpha (krow kern (e_hl s) (e_lower s) x) (krow kern (e_hg s) (e_greater s) x) G0 G1
                (krow_nonempty _ _ _ Nl) (krow_nonempty _ _ _ Ng) (krow_forall _ _ _ _ Kl) (krow_forall _ _ _ _ Kg))
      as (l & g & r & E & El & Eg & R).
    exists l, g, r. split; [|split; [exact El|split; [exact Eg|exact R]]].
    cbn [hstep snd fresh_out map]. unfold fresh_ei. rewrite E. reflexivity.
  Qed.
End Hist.

(* the rational kernel of the correspondence is a valid
   instance of the contracts used above (so the theorems are not vacuous for it) *)
Lemma dist2_nonneg ls : forall x z, (forall l, In l ls -> 0 < l) -> 0 <= dist2 ls x z.
Proof.
  induction ls as [|l ls IH]; intros x z H; [destruct x, z; cbn [dist2]; apply Qle_refl|].
  destruct x as [|a x]; [cbn [dist2]; apply Qle_refl|]. destruct z as [|b z]; [cbn [dist2]; apply Qle_refl|]. cbn [dist2].
  assert (0 <= dist2 ls x z) by (apply IH; intros l' Hl'; apply H; right; exact Hl').
  generalize ((a - b) / l). intro t. nra.
Qed.

Lemma dist2_refl ls : forall x, dist2 ls x x == 0.
Proof.
  induction ls as [|l ls IH]; intros x; [destruct x; reflexivity|]. destruct x as [|a x]; [reflexivity|].
  cbn [dist2]. specialize (IH x). unfold Qdiv. lra.
Qed.

Theorem rkern_contract alpha ls x z : 0 < alpha -> (forall l, In l ls -> 0 < l) ->
  0 < rkern (alpha :: ls) x z <= alpha /\ rkern (alpha :: ls) x x == alpha.
Proof.
  intros Ha Hl. cbn [rkern]. pose proof (dist2_nonneg ls x z Hl) as Hd. split; [split|].
  - apply Qlt_shift_div_l; lra.
  - apply Qle_shift_div_r; [lra|]. nra.
  - rewrite dist2_refl. field.
Qed.
