(* C16: what a Parzen estimator is built from and what it scores (model: LV.Model.ParzenSplit).  In the order of the code: the sizes
   and the sorted split of the constructor, the two densities as means of kernel rows and the ratio formed from them, the effect of a lie
   on a density, the bandwidths, the threshold split of the search view.  `ratio_clause` collects what every estimator with two non-empty
   sets and gamma in (0, 1) satisfies; the theorems about the constructor and the search view end in it. *)
From Coq Require Import List QArith Lia Lqa Permutation Sorted Qround.
From LV Require Import Model.ParzenSplit Model.ParzenSplitCorr.
Import ListNotations.
Open Scope Q_scope.

(* int() is floor on non-negative numbers *)
Lemma trunc_floor q : 0 <= q -> trunc q = Qfloor q.
Proof.
  destruct q as [n d]. unfold Qle, trunc, Qfloor. cbn [Qnum Qden]. intro H.
  apply Z.quot_div_nonneg; lia.
Qed.

Lemma trunc_nonneg q : 0 <= q -> (0 <= trunc q)%Z.
Proof.
  destruct q as [n d]. unfold Qle, trunc. cbn [Qnum Qden]. intro H.
  apply Z.quot_pos; lia.
Qed.

Lemma Qltb_lt x y : Qltb x y = true <-> x < y.
Proof.
  unfold Qltb. rewrite negb_true_iff. split; intro H.
  - apply Qnot_le_lt. intro L. apply Qle_bool_iff in L. congruence.
  - destruct (Qle_bool y x) eqn:E; [|reflexivity]. apply Qle_bool_iff in E. lra.
Qed.

Lemma inject_nat_nonneg n : 0 <= inject_Z (Z.of_nat n).
Proof. change 0 with (inject_Z 0). rewrite <- Zle_Qle. apply Nat2Z.is_nonneg. Qed.

Lemma split_sizes_cases gamma forget n :
  let zm := unforgotten forget n in let zs := lower_size gamma zm in
  split_sizes gamma forget n =
    if ((zm <? 10) || (zm - 1 <? zs))%Z then ErrInsufficientData else Ok (Z.to_nat zm, Z.to_nat zs).
Proof. intros zm zs. unfold split_sizes, SPE_MINIMUM_UNFORGOTTEN_POINT_TOTAL. fold zm. fold zs. destruct (zm <? 10)%Z; reflexivity. Qed.

Lemma split_errors gamma forget n :
  let zm := unforgotten forget n in let zs := lower_size gamma zm in
  split_sizes gamma forget n = ErrInsufficientData <-> (zm < 10 \/ zm - 1 < zs)%Z.
Proof.
  intros zm zs. rewrite split_sizes_cases, <- !Z.ltb_lt, <- orb_true_iff. fold zm. fold zs.
  destruct ((zm <? 10) || (zm - 1 <? zs))%Z; split; intro H; try reflexivity; discriminate.
Qed.

Lemma split_sizes_ok gamma forget n m s :
  split_sizes gamma forget n = Ok (m, s) ->
  m = Z.to_nat (unforgotten forget n) /\ s = Z.to_nat (lower_size gamma (unforgotten forget n)) /\
  (3 <= s)%nat /\ (s < m)%nat /\ (10 <= m)%nat.
Proof.
  rewrite split_sizes_cases. cbv zeta. set (zm := unforgotten forget n).
  destruct (_ || _)%Z eqn:E; [discriminate|]. intros [= <- <-]. apply orb_false_iff in E. destruct E as [E1 E2].
  apply Z.ltb_ge in E1, E2. assert (3 <= lower_size gamma zm)%Z by apply Z.le_max_r. clearbody zm. lia.
Qed.

Lemma forgotten_nonneg forget n : 0 <= forget -> 0 <= forget * inject_Z (Z.of_nat n).
Proof. intro H. apply Qmult_le_0_compat; [exact H|apply inject_nat_nonneg]. Qed.

Lemma unforgotten_le forget n : 0 <= forget -> (unforgotten forget n <= Z.of_nat n)%Z.
Proof. intro H. unfold unforgotten. pose proof (trunc_nonneg _ (forgotten_nonneg forget n H)). lia. Qed.

Lemma unforgotten_floor forget n : 0 <= forget ->
  unforgotten forget n = (Z.of_nat n - Qfloor (forget * inject_Z (Z.of_nat n)))%Z.
Proof. intro H. unfold unforgotten. rewrite (trunc_floor _ (forgotten_nonneg forget n H)). reflexivity. Qed.

Lemma lower_size_floor gamma m : 0 <= gamma -> (0 <= m)%Z ->
  lower_size gamma m = Z.max (Qfloor (inject_Z m * gamma)) 3.
Proof.
  intros H Hm. unfold lower_size, SPE_MINIMUM_LOWER_POINT_TOTAL. rewrite trunc_floor; [reflexivity|].
  apply Qmult_le_0_compat; [|exact H]. change 0 with (inject_Z 0). rewrite <- Zle_Qle. exact Hm.
Qed.

Lemma unforgotten_zero n : unforgotten 0 n = Z.of_nat n.
Proof. unfold unforgotten, trunc, Qmult. cbn [Qnum Qden]. rewrite Z.mul_0_l, Z.quot_0_l by lia. lia. Qed.

Lemma existsb_eqb_In i l : existsb (Nat.eqb i) l = true <-> In i l.
Proof.
  rewrite existsb_exists. split.
  - intros [x [Hx E]]. apply Nat.eqb_eq in E. subst. exact Hx.
  - intro H. exists i. split; [exact H|apply Nat.eqb_refl].
Qed.

Lemma is_perm_b_sound perm m : is_perm_b perm m = true -> Permutation (seq 0 m) perm.
Proof.
  unfold is_perm_b. rewrite andb_true_iff. intros [L I]. apply Nat.eqb_eq in L.
  apply NoDup_Permutation_bis.
  - apply seq_NoDup.
  - rewrite seq_length. lia.
  - intros i Hi. rewrite forallb_forall in I. apply existsb_eqb_In. apply I. exact Hi.
Qed.

Lemma map_nth_seq {A} (l : list A) d : map (fun i => nth i l d) (seq 0 (length l)) = l.
Proof.
  apply nth_ext with (d := nth 0 l d) (d' := d).
  - rewrite map_length, seq_length. reflexivity.
  - intros n Hn. rewrite map_length, seq_length in Hn.
    rewrite (map_nth (fun i => nth i l d) (seq 0 (length l)) 0%nat n).
    rewrite seq_nth by exact Hn. reflexivity.
Qed.

Lemma take_perm_permutation {A} (d : A) l perm :
  is_perm_b perm (length l) = true -> Permutation (take_perm d l perm) l.
Proof.
  intro H. apply is_perm_b_sound in H. unfold take_perm.
  apply Permutation_trans with (map (fun i => nth i l d) (seq 0 (length l))).
  - apply Permutation_map. apply Permutation_sym. exact H.
  - rewrite map_nth_seq. apply Permutation_refl.
Qed.

Lemma sorted_b_sound l : sorted_b l = true -> StronglySorted Qle l.
Proof.
  intro H. apply Sorted_StronglySorted.
  - intros x y z. apply Qle_trans.
  - induction l as [|x [|y r] IH]; [constructor|repeat constructor|].
    cbn in H. apply andb_true_iff in H. destruct H as [H1 H2]. constructor; [apply IH, H2|constructor; apply Qle_bool_iff, H1].
Qed.

Lemma strongly_sorted_app (l1 l2 : list Q) :
  StronglySorted Qle (l1 ++ l2) -> forall x y, In x l1 -> In y l2 -> x <= y.
Proof.
  induction l1 as [|a l1 IH]; intros S x y Hx Hy; [destruct Hx|].
  cbn in S. apply StronglySorted_inv in S. destruct S as [S F].
  destruct Hx as [<-|Hx].
  - rewrite Forall_forall in F. apply F. apply in_or_app. right. exact Hy.
  - apply IH; assumption.
Qed.

Lemma kept_obs_length m (pts : list point) (vals : list Q) :
  length vals = length pts -> (m <= length pts)%nat -> length (kept_obs m pts vals) = m.
Proof.
  intros L Hm. unfold kept_obs. rewrite combine_length, !firstn_length. lia.
Qed.

Lemma snd_nth_kept m (pts : list point) (vals : list Q) i :
  length vals = length pts ->
  snd (nth i (kept_obs m pts vals) ([], 0)) = nth i (firstn m vals) 0.
Proof.
  intro L. unfold kept_obs. rewrite combine_nth; [reflexivity|].
  rewrite !firstn_length. congruence.
Qed.

Theorem split_spec gamma forget pts vals perm lower greater :
  0 <= forget -> length vals = length pts ->
  form_model gamma forget pts vals perm = Ok (lower, greater) ->
  let zm := unforgotten forget (length pts) in
  let m := Z.to_nat zm in
  let s := Z.to_nat (lower_size gamma zm) in
  sorting_perm_b (firstn m vals) perm = true ->
  length lower = s /\ length greater = (m - s)%nat /\ (3 <= s)%nat /\ (s < m)%nat /\ (10 <= m <= length pts)%nat /\
  Permutation (lower ++ greater) (kept_obs m pts vals) /\
  (forall a b, In a lower -> In b greater -> snd a <= snd b).
Proof.
  intros Hf L H zm m s SP. unfold form_model in H.
  destruct (split_sizes gamma forget (length pts)) as [[m' s']|] eqn:E; [|discriminate].
  apply split_sizes_ok in E. fold zm in E. fold m s in E. destruct E as (-> & -> & H3 & Hs & H10). injection H as <- <-.
  assert (Hm : (m <= length pts)%nat) by (pose proof (unforgotten_le forget (length pts) Hf); unfold m, zm; lia).
  apply andb_true_iff in SP. destruct SP as [P S]. rewrite firstn_length, L, (Nat.min_l _ _ Hm) in P.
  set (o := kept_obs m pts vals) in *. set (data := take_perm ([], 0) o perm).
  assert (Lo : length o = m) by (apply kept_obs_length; assumption).
  assert (Pd : Permutation data o) by (apply take_perm_permutation; rewrite Lo; exact P).
  assert (Ld : length data = m) by (rewrite (Permutation_length Pd); exact Lo).
  split; [rewrite firstn_length, Ld; apply Nat.min_l, Nat.lt_le_incl, Hs|]. split; [rewrite skipn_length, Ld; reflexivity|].
  split; [exact H3|]. split; [exact Hs|]. split; [split; assumption|]. split; [rewrite firstn_skipn; exact Pd|].
  (* the values of data are those of vals under perm, which are sorted *)
  intros a b Ha Hb. assert (SS : StronglySorted Qle (map snd data)).
  { apply sorted_b_sound. replace (map snd data) with (take_perm 0 (firstn m vals) perm); [exact S|].
    unfold data, take_perm. rewrite map_map. apply map_ext. intro i. symmetry. apply snd_nth_kept. exact L. }
  rewrite <- (firstn_skipn s data), map_app in SS. apply (strongly_sorted_app _ _ SS); apply in_map; assumption.
Qed.

Lemma kept_obs_all (pts : list point) (vals : list Q) :
  length vals = length pts -> kept_obs (length pts) pts vals = combine pts vals.
Proof. intro L. unfold kept_obs. rewrite firstn_all, <- L, firstn_all. reflexivity. Qed.

Theorem split_error_iff gamma forget pts vals perm :
  let zm := unforgotten forget (length pts) in
  form_model gamma forget pts vals perm = ErrInsufficientData <-> (zm < 10 \/ zm - 1 < lower_size gamma zm)%Z.
Proof.
  intro zm. unfold form_model. pose proof (split_errors gamma forget (length pts)) as E. cbv zeta in E. fold zm in E. rewrite <- E.
  destruct (split_sizes gamma forget (length pts)) as [[m s]|]; split; intro H; try discriminate; reflexivity.
Qed.

Lemma qlen_cons {A} (x : A) l : qlen (x :: l) == qlen l + 1.
Proof.
  unfold qlen. cbn [length]. rewrite Nat2Z.inj_succ. unfold Z.succ. rewrite inject_Z_plus. reflexivity.
Qed.

Lemma qlen_nonneg {A} (l : list A) : 0 <= qlen l.
Proof. apply inject_nat_nonneg. Qed.

Lemma qlen_pos {A} (l : list A) : l <> [] -> 0 < qlen l.
Proof.
  destruct l as [|x l]; [congruence|]. intros _. pose proof (qlen_cons x l). pose proof (qlen_nonneg l). lra.
Qed.

Lemma qsum_app l l' : qsum (l ++ l') == qsum l + qsum l'.
Proof.
  unfold qsum. induction l as [|x l IH]; cbn [app fold_right]; lra.
Qed.

Lemma qlen_app {A} (l l' : list A) : qlen (l ++ l') == qlen l + qlen l'.
Proof. unfold qlen. rewrite app_length, Nat2Z.inj_add, inject_Z_plus. reflexivity. Qed.

Lemma qsum_le_len l a : (forall x, In x l -> x <= a) -> qsum l <= a * qlen l.
Proof.
  induction l as [|x l IH]; intro H; [change (0 <= a * 0); lra|].
  pose proof (qlen_cons x l). change (qsum (x :: l)) with (x + qsum l).
  pose proof (H x (or_introl eq_refl)). pose proof (IH (fun y Hy => H y (or_intror Hy))). nra.
Qed.

Lemma qsum_ge_len l a : (forall x, In x l -> a <= x) -> a * qlen l <= qsum l.
Proof.
  induction l as [|x l IH]; intro H; [change (a * 0 <= 0); lra|].
  pose proof (qlen_cons x l). change (qsum (x :: l)) with (x + qsum l).
  pose proof (H x (or_introl eq_refl)). pose proof (IH (fun y Hy => H y (or_intror Hy))). nra.
Qed.

Lemma qmean_some l : l <> [] -> qmean l = Some (qsum l / qlen l).
Proof. destruct l; [congruence|reflexivity]. Qed.

Lemma qmean_le l hi : l <> [] -> (forall x, In x l -> x <= hi) -> qsum l / qlen l <= hi.
Proof. intros Hn H. apply Qle_shift_div_r; [exact (qlen_pos l Hn)|exact (qsum_le_len l hi H)]. Qed.
Lemma qmean_ge l lo : l <> [] -> (forall x, In x l -> lo <= x) -> lo <= qsum l / qlen l.
Proof. intros Hn H. apply Qle_shift_div_l; [exact (qlen_pos l Hn)|exact (qsum_ge_len l lo H)]. Qed.

Theorem density_nonneg krow alpha : krow <> [] -> (forall x, In x krow -> 0 <= x <= alpha) ->
  exists d, greater_density krow = Some d /\ d * qlen krow == qsum krow /\ 0 <= d <= alpha.
Proof.
  intros Hn H. exists (qsum krow / qlen krow). split; [apply qmean_some; exact Hn|]. split; [|split].
  - rewrite Qmult_comm. apply Qmult_div_r. pose proof (qlen_pos krow Hn). lra.
  - apply qmean_ge; [exact Hn|]. intros x Hx. apply H, Hx.
  - apply qmean_le; [exact Hn|]. intros x Hx. apply H, Hx.
Qed.

(* the lower density is the kernel mean plus the 1e-10 floor, hence strictly positive *)
Theorem lower_floor krow alpha : krow <> [] -> (forall x, In x krow -> 0 <= x <= alpha) ->
  exists d, lower_density krow = Some (d + SPE_MINIMUM_LOWER_DENSITY_VALUE) /\ greater_density krow = Some d /\
            d * qlen krow == qsum krow /\
            SPE_MINIMUM_LOWER_DENSITY_VALUE <= d + SPE_MINIMUM_LOWER_DENSITY_VALUE /\
            0 < d + SPE_MINIMUM_LOWER_DENSITY_VALUE <= alpha + SPE_MINIMUM_LOWER_DENSITY_VALUE.
Proof.
  intros Hn H. destruct (density_nonneg krow alpha Hn H) as (d & E & M & B).
  exists d. unfold lower_density. unfold greater_density in E. rewrite E.
  unfold SPE_MINIMUM_LOWER_DENSITY_VALUE in *. repeat split; try assumption; lra.
Qed.

Lemma Qinv_antitone a b : 0 < a -> a <= b -> 1 / b <= 1 / a.
Proof.
  intros Ha Hab. apply Qle_shift_div_r; [lra|].
  assert (E : a * (1 / a) == 1) by (apply Qmult_div_r; lra).
  assert (P : 0 < 1 / a) by (apply Qlt_shift_div_l; lra).
  nra.
Qed.

Lemma ratio_defined gamma l g : 0 < gamma -> gamma < 1 -> 0 < l -> 0 <= g ->
  ratio gamma l g = Some (1 / (gamma + g / l * (1 - gamma))) /\ gamma <= gamma + g / l * (1 - gamma).
Proof.
  intros G0 G1 Hl Hg. unfold ratio.
  destruct (Qeq_bool l 0) eqn:El; [apply Qeq_bool_iff in El; lra|].
  assert (Hq : 0 <= g / l) by (apply Qle_shift_div_l; lra).
  assert (Hden : gamma <= gamma + g / l * (1 - gamma)) by (revert Hq; generalize (g / l); intros; nra).
  destruct (Qeq_bool (gamma + g / l * (1 - gamma)) 0) eqn:Ed; [apply Qeq_bool_iff in Ed; lra|]. split; [reflexivity|exact Hden].
Qed.

Theorem ratio_spec gamma l g : 0 < gamma -> gamma < 1 -> 0 < l -> 0 <= g ->
  exists r, ratio gamma l g = Some r /\ r == 1 / (gamma + (1 - gamma) * (g / l)) /\ 0 < r /\ r <= 1 / gamma.
Proof.
  intros G0 G1 Hl Hg. destruct (ratio_defined gamma l g G0 G1 Hl Hg) as [E Hden].
  eexists. split; [exact E|]. split; [|split].
  - apply Qmult_comp, Qinv_comp, Qplus_comp, Qmult_comm; reflexivity.
  - apply Qlt_shift_div_l; lra.
  - apply Qinv_antitone; assumption.
Qed.

(* more greater density (e.g. after a lie there) never raises the ratio *)
Theorem ratio_antitone_in_greater gamma l g g' r r' : 0 < gamma -> gamma < 1 -> 0 < l -> 0 <= g -> g <= g' ->
  ratio gamma l g = Some r -> ratio gamma l g' = Some r' -> r' <= r.
Proof.
  intros G0 G1 Hl Hg Hgg. destruct (ratio_defined gamma l g G0 G1 Hl Hg) as [-> Hden].
  destruct (ratio_defined gamma l g' G0 G1 Hl (Qle_trans _ _ _ Hg Hgg)) as [-> _]. intros [= <-] [= <-].
  apply Qinv_antitone; [lra|].
  assert (Hqq : g / l <= g' / l) by (apply Qmult_le_compat_r; [exact Hgg|apply Qlt_le_weak, Qinv_lt_0_compat, Hl]).
  revert Hqq. generalize (g / l) (g' / l). intros; nra.
Qed.

(* evaluate_expected_improvement on non-empty sets with valid kernel values *)
Theorem ei_spec gamma alpha klow kgre : 0 < gamma -> gamma < 1 -> klow <> [] -> kgre <> [] ->
  (forall x, In x klow -> 0 <= x <= alpha) -> (forall x, In x kgre -> 0 <= x <= alpha) ->
  exists l g r, expected_improvement gamma klow kgre = Some (l, g, r) /\
    lower_density klow = Some l /\ greater_density kgre = Some g /\
    0 < l /\ 0 <= g /\
    r == 1 / (gamma + (1 - gamma) * (g / l)) /\ 0 < r /\ r <= 1 / gamma.
Proof.
  intros G0 G1 Nl Ng Hl Hg.
  destruct (lower_floor klow alpha Nl Hl) as (dl & El & _ & _ & _ & Pl & _).
  destruct (density_nonneg kgre alpha Ng Hg) as (dg & Eg & _ & Pg & _).
  destruct (ratio_spec gamma _ dg G0 G1 Pl Pg) as (r & Er & R).
  eexists _, dg, r. unfold expected_improvement. rewrite El, Eg, Er. exact (conj eq_refl (conj eq_refl (conj eq_refl (conj Pl (conj Pg R))))).
Qed.

(* the mean of an empty greater set is NaN: no ratio *)
Lemma ei_empty_greater gamma klow : expected_improvement gamma klow [] = None.
Proof. unfold expected_improvement. destruct (lower_density klow); reflexivity. Qed.

(* any number of lies at p: each new kernel entry is k(p,p) = alpha >= every entry, so the density at p does not go down.
   With t the sum of the n old entries, t <= n alpha, and the new mean is (t + k alpha) / (n + k). *)
Theorem lies_raise_density krow alpha j d d' : krow <> [] -> (forall x, In x krow -> x <= alpha) ->
  qmean krow = Some d -> qmean (append_lie_entries krow (repeat alpha j)) = Some d' -> d <= d' /\ d' <= alpha.
Proof.
  intros Hn H E E'. unfold append_lie_entries in E'. set (l := repeat alpha j) in E'.
  rewrite (qmean_some krow Hn) in E. rewrite qmean_some in E' by (intro Ek; apply app_eq_nil in Ek; apply Hn, Ek).
  injection E as <-. injection E' as <-.
  pose proof (qmean_le krow alpha Hn H) as Hd. pose proof (qlen_pos krow Hn) as Hp. pose proof (qlen_nonneg l) as Hk.
  assert (Hl : forall x, In x l -> x = alpha) by (intros x Hx; exact (repeat_spec _ _ _ Hx)).
  assert (L1 : qsum l <= alpha * qlen l) by (apply qsum_le_len; intros x Hx; rewrite (Hl x Hx); apply Qle_refl).
  assert (L2 : alpha * qlen l <= qsum l) by (apply qsum_ge_len; intros x Hx; rewrite (Hl x Hx); apply Qle_refl).
  assert (E : qlen krow * (qsum krow / qlen krow) == qsum krow) by (apply Qmult_div_r; lra).
  pose proof (qsum_app krow l) as S'. pose proof (qlen_app krow l) as N'.
  revert Hd Hp Hk L1 L2 E S' N'.
  generalize (qsum krow / qlen krow) (qsum (krow ++ l)) (qlen (krow ++ l)) (qsum l) (qlen l) (qsum krow) (qlen krow).
  intros m t' n' tl k t n Hd Hp Hk L1 L2 E S' N'. split.
  - apply Qle_shift_div_l; [lra|]. nra.
  - apply Qle_shift_div_r; [lra|]. nra.
Qed.

Theorem lie_raises_density krow alpha d d' : krow <> [] -> (forall x, In x krow -> x <= alpha) ->
  qmean krow = Some d -> qmean (append_lie_entries krow [alpha]) = Some d' -> d <= d' /\ d' <= alpha.
Proof. exact (lies_raise_density krow alpha 1 d d'). Qed.

(* the same for the lower density (lies told to the lower set): the floor is added on both sides *)
Theorem lie_raises_lower_density krow alpha l l' : krow <> [] -> (forall x, In x krow -> x <= alpha) ->
  lower_density krow = Some l -> lower_density (append_lie_entries krow [alpha]) = Some l' -> l <= l'.
Proof.
  intros Hn H. unfold lower_density.
  destruct (qmean krow) as [d|] eqn:E; [|discriminate].
  destruct (qmean (append_lie_entries krow [alpha])) as [d'|] eqn:E'; [|discriminate].
  intros [= <-] [= <-]. destruct (lie_raises_density krow alpha d d' Hn H E E'). lra.
Qed.

Lemma valid_hyper1_spec x : valid_hyper1 x = true <-> exists q, x = Some q /\ 0 < q.
Proof.
  destruct x as [q|]; cbn [valid_hyper1]; split.
  - intro H. exists q. split; [reflexivity|]. apply Qltb_lt. exact H.
  - intros (q' & E & P). injection E as ->. apply Qltb_lt. exact P.
  - discriminate.
  - intros (q' & E & _). discriminate.
Qed.

Lemma choose_hyper_valid h : valid_hyper (choose_hyper h) = true.
Proof.
  unfold choose_hyper. destruct (valid_hyper h) eqn:E; [exact E|].
  unfold valid_hyper. clear E. induction h as [|x h IH]; [reflexivity|]. cbn. exact IH.
Qed.

Lemma choose_hyper_length h : length (choose_hyper h) = length h.
Proof. unfold choose_hyper. destruct (valid_hyper h); [reflexivity|apply map_length]. Qed.

Lemma hyper_tail_length numerical c i bw2 : length (hyper_tail numerical c i bw2) = length bw2.
Proof. revert i. induction bw2 as [|b r IH]; intro i; cbn; [reflexivity|]. rewrite IH. reflexivity. Qed.

(* whatever the point spread is (NaN from an empty set, zero, huge), the covariance that is built has
   1 + one_hot_dim hyperparameters, all finite and > 0 *)
Theorem bandwidths_valid numerical cat_ls factor stds :
  let h := one_hot_covariance numerical cat_ls factor stds in
  length h = S (length stds) /\ forall x, In x h -> exists q, x = Some q /\ 0 < q.
Proof.
  intro h. split.
  - unfold h, one_hot_covariance. rewrite choose_hyper_length. unfold raw_hyperparameters. cbn [length].
    rewrite hyper_tail_length, map_length. reflexivity.
  - intros x Hx. apply valid_hyper1_spec.
    pose proof (choose_hyper_valid (raw_hyperparameters numerical cat_ls (map (bandwidth_sq factor) stds))) as V.
    unfold valid_hyper in V. rewrite forallb_forall in V. apply V. exact Hx.
Qed.

Lemma hyper_tail_valid numerical c i bw2 : valid_hyper1 c = true -> forallb valid_hyper1 bw2 = true ->
  forallb valid_hyper1 (hyper_tail numerical c i bw2) = true.
Proof.
  intros Hc. revert i. induction bw2 as [|b r IH]; intros i H; [reflexivity|].
  cbn in H. apply andb_true_iff in H. destruct H as [Hb Hr]. cbn [hyper_tail forallb].
  rewrite (IH (S i) Hr). destruct (existsb (Nat.eqb i) numerical); [rewrite Hb|rewrite Hc]; reflexivity.
Qed.

Lemma bandwidth_pos factor q : 0 < factor -> 0 <= q -> 0 < factor * factor * ((q + STD_EPSILON_HACK) / 2).
Proof.
  intros Hf Hq. unfold STD_EPSILON_HACK.
  assert (0 < (q + (1 # 100000000)) / 2) by (apply Qlt_shift_div_l; lra).
  assert (0 < factor * factor) by nra. nra.
Qed.

(* with a finite non-negative spread in every column and positive factor / categorical length scale the fallback is
   not taken: the hyperparameters are 1, factor^2 (std + 1e-8) / 2 on numerical columns, cat_length_scale elsewhere *)
Theorem bandwidths_from_spread numerical c factor stds :
  0 < factor -> 0 < c -> (forall s, In s stds -> exists q, s = Some q /\ 0 <= q) ->
  one_hot_covariance numerical (Some c) factor stds =
    raw_hyperparameters numerical (Some c) (map (bandwidth_sq factor) stds) /\
  forall s q, In s stds -> s = Some q ->
    exists b, bandwidth_sq factor s = Some b /\ b == factor * factor * ((q + STD_EPSILON_HACK) / 2) /\ 0 < b.
Proof.
  intros Hf Hc H. split.
  - unfold one_hot_covariance, choose_hyper.
    assert (V : valid_hyper (raw_hyperparameters numerical (Some c) (map (bandwidth_sq factor) stds)) = true).
    { unfold valid_hyper, raw_hyperparameters. cbn [forallb]. apply andb_true_iff. split; [reflexivity|].
      apply hyper_tail_valid; [apply Qltb_lt; exact Hc|].
      rewrite forallb_forall. intros x Hx. apply in_map_iff in Hx. destruct Hx as (s & <- & Hs).
      destruct (H s Hs) as (q & -> & Hq). apply Qltb_lt, bandwidth_pos; assumption. }
    rewrite V. reflexivity.
  - intros s q Hs ->. destruct (H _ Hs) as (q' & E & Hq). injection E as <-.
    eexists. split; [reflexivity|]. split; [reflexivity|]. apply bandwidth_pos; assumption.
Qed.

Lemma select_length {A} mask (l : list A) : length mask = length l ->
  length (select mask l) = count_true mask.
Proof.
  revert l. induction mask as [|b m IH]; intros [|x l] L; try discriminate; [reflexivity|].
  cbn in L. injection L as L. unfold count_true in *. cbn [select filter].
  destruct b; cbn [length]; rewrite IH by exact L; reflexivity.
Qed.

Lemma select_partition {A} mask (l : list A) : length mask = length l ->
  Permutation (select (map negb mask) l ++ select mask l) l.
Proof.
  revert l. induction mask as [|b m IH]; intros [|x l] L; try discriminate; [constructor|].
  cbn in L. injection L as L. cbn [map select]. destruct b; cbn [negb].
  - apply Permutation_sym. apply Permutation_cons_app. apply Permutation_sym. apply IH. exact L.
  - cbn [app]. constructor. apply IH. exact L.
Qed.

(* the entries selected by the mask computed row by row with f are those whose row has the property f decides *)
Lemma In_select_map {A B} (f : B -> bool) (P : B -> Prop) (d' : B) (d : A) x : (forall r, f r = true <-> P r) ->
  forall rows l, length rows = length l ->
  (In x (select (map f rows) l) <-> exists i, (i < length l)%nat /\ P (nth i rows d') /\ nth i l d = x).
Proof.
  intros HP. induction rows as [|r rows IH]; intros [|y l] L; try discriminate.
  - split; [intros []|]. intros (i & Hi & _). destruct (Nat.nlt_0_r i Hi).
  - injection L as L. specialize (IH l L). cbn [map select length]. split.
    + intros H. assert (C : (f r = true /\ y = x) \/ In x (select (map f rows) l)) by (destruct (f r); [destruct H|]; auto).
      destruct C as [[Hr <-]|C].
      * exists 0%nat. split; [apply Nat.lt_0_succ|]. split; [apply HP, Hr|reflexivity].
      * apply IH in C. destruct C as (i & Hi & Hr & Hx). exists (S i). split; [apply -> Nat.succ_lt_mono; exact Hi|]. split; assumption.
    + intros ([|i] & Hi & Hr & Hx); cbn [nth] in Hr, Hx.
      * apply HP in Hr. rewrite Hr. left. exact Hx.
      * assert (In x (select (map f rows) l)) by (apply IH; exists i; split; [apply Nat.succ_lt_mono, Hi|split; assumption]).
        destruct (f r); [right|]; assumption.
Qed.

Lemma violations_length thr pf : length (violations thr pf) = length pf.
Proof. apply map_length. Qed.

Lemma search_forced_spec dim n nv : search_forced dim n nv = true <-> (0 < nv /\ dim < n - nv)%nat.
Proof.
  unfold search_forced. rewrite andb_true_iff, !Nat.ltb_lt. reflexivity.
Qed.

Lemma share_in_unit nv n : (0 < nv < n)%nat ->
  0 < inject_Z (Z.of_nat nv) / inject_Z (Z.of_nat n) /\ inject_Z (Z.of_nat nv) / inject_Z (Z.of_nat n) < 1.
Proof.
  intros [H0 H1]. assert (Hnv : 0 < inject_Z (Z.of_nat nv)) by (change 0 with (inject_Z 0); rewrite <- Zlt_Qlt; lia).
  assert (Hlt : inject_Z (Z.of_nat nv) < inject_Z (Z.of_nat n)) by (rewrite <- Zlt_Qlt; lia).
  split; [apply Qlt_shift_div_l|apply Qlt_shift_div_r]; lra.
Qed.

(* the forced split by any mask of the right length with some but not too many entries set: the two selections share out
   the points, and gamma = #set / n lies strictly between 0 and 1 *)
Lemma search_split_forced {A} dim (pts : list A) viol dflt : length viol = length pts ->
  (0 < count_true viol)%nat -> (dim < length pts - count_true viol)%nat ->
  let gamma := inject_Z (Z.of_nat (count_true viol)) / inject_Z (Z.of_nat (length pts)) in
  search_split dim pts viol dflt = (select (map negb viol) pts, select viol pts, gamma) /\
  Permutation (select (map negb viol) pts ++ select viol pts) pts /\
  length (select viol pts) = count_true viol /\ length (select (map negb viol) pts) = (length pts - count_true viol)%nat /\
  0 < gamma /\ gamma < 1.
Proof.
  intros Lv Hv Hd gamma. unfold search_split.
  rewrite (proj2 (search_forced_spec dim (length pts) (count_true viol)) (conj Hv Hd)), Lv. split; [reflexivity|].
  pose proof (select_length viol pts Lv) as Lg. pose proof (select_partition viol pts Lv) as P.
  split; [exact P|]. split; [exact Lg|]. split.
  - apply Permutation_length in P. rewrite app_length, Lg in P. rewrite <- P. symmetry. apply Nat.add_sub.
  - apply share_in_unit. clear - Hv Hd. lia.
Qed.

(* when some observation violates a threshold and more observations satisfy the thresholds than the space has dimensions:
   lower = the satisfiers, greater = the violators (each observation in exactly one of them), both non-empty,
   gamma = #violators / n in (0, 1) *)
Theorem search_split_spec dim (pts : list point) thr pf dflt :
  length pf = length pts ->
  let viol := violations thr pf in
  (0 < count_true viol)%nat ->
  (dim < length pts - count_true viol)%nat ->
  exists lower greater gamma,
    search_split dim pts viol dflt = (lower, greater, gamma) /\
    Permutation (lower ++ greater) pts /\
    length greater = count_true viol /\ length lower = (length pts - count_true viol)%nat /\
    (forall x, In x lower <-> exists i, (i < length pts)%nat /\ within thr (nth i pf []) = true /\ nth i pts [] = x) /\
    (forall x, In x greater <-> exists i, (i < length pts)%nat /\ within thr (nth i pf []) = false /\ nth i pts [] = x) /\
    gamma == inject_Z (Z.of_nat (count_true viol)) / inject_Z (Z.of_nat (length pts)) /\
    0 < gamma /\ gamma < 1 /\ lower <> [] /\ greater <> [].
Proof.
  intros L viol Hv Hd.
  pose proof (eq_trans (violations_length thr pf) L) as Lv.
  destruct (search_split_forced dim pts viol dflt Lv Hv Hd) as (E & P & Lg & Ll & G0 & G1).
  eexists _, _, _. split; [exact E|]. split; [exact P|]. split; [exact Lg|]. split; [exact Ll|].
  split; [|split; [|split; [reflexivity|split; [exact G0|split; [exact G1|split]]]]].
  - intro x. unfold viol, violations. rewrite map_map.
    apply (In_select_map _ (fun r => within thr r = true) [] [] x); [|exact L]. intro r. rewrite negb_involutive. reflexivity.
  - intro x. apply (In_select_map _ (fun r => within thr r = false) [] [] x); [|exact L]. intro r. apply negb_true_iff.
  - intro E0. rewrite E0 in Ll. clear - Ll Hd. cbn in Ll. lia.
  - intro E0. rewrite E0 in Lg. clear - Lg Hv. cbn in Lg. lia.
Qed.

(* otherwise - no violator at all, or too few satisfiers - the constructor's split and gamma stay *)
Theorem search_split_default {A} dim (pts : list A) viol dflt :
  (count_true viol = 0 \/ ~ (dim < length pts - count_true viol))%nat -> search_split dim pts viol dflt = dflt.
Proof.
  intro H. unfold search_split.
  destruct (search_forced dim (length pts) (count_true viol)) eqn:E; [|reflexivity].
  apply search_forced_spec in E. destruct E as [E1 E2]. destruct H as [H|H]; [lia|contradiction].
Qed.

(* "both densities are kernel means, the ratio lies in (0, 1/gamma]" for an estimator with lower set lo, greater
   set gr and parameter gamma, whatever valid kernel values the covariances produce *)
Definition ratio_clause {A} (gamma : Q) (lo gr : list A) : Prop :=
  forall alpha klow kgre, length klow = length lo -> length kgre = length gr ->
    (forall x, In x klow -> 0 <= x <= alpha) -> (forall x, In x kgre -> 0 <= x <= alpha) ->
    exists l g r, expected_improvement gamma klow kgre = Some (l, g, r) /\ 0 < l /\ 0 <= g /\
                  r == 1 / (gamma + (1 - gamma) * (g / l)) /\ 0 < r /\ r <= 1 / gamma.

Lemma ratio_clause_nonempty {A} gamma (lo gr : list A) : 0 < gamma -> gamma < 1 -> (0 < length lo)%nat -> (0 < length gr)%nat ->
  ratio_clause gamma lo gr.
Proof.
  intros G0 G1 Nl Ng alpha klow kgre Ll Lg Hl Hg. rewrite <- Ll in Nl. rewrite <- Lg in Ng.
  destruct (ei_spec gamma alpha klow kgre) as (l & g & r & E & _ & _ & R); try assumption.
  - intros ->. exact (Nat.lt_irrefl 0 Nl).
  - intros ->. exact (Nat.lt_irrefl 0 Ng).
  - exists l, g, r. split; [exact E|exact R].
Qed.

Lemma split_sets_nonempty {A} (lo gr : list A) s m : length lo = s -> length gr = (m - s)%nat -> (3 <= s)%nat -> (s < m)%nat ->
  (0 < length lo)%nat /\ (0 < length gr)%nat.
Proof. intros -> -> H3 Hs. lia. Qed.

(* the estimator built by the constructor satisfies the ratio clause for every observation set, gamma in (0,1),
   forget factor and sorting permutation *)
Theorem constructor_ratio_clause gamma forget pts vals perm lower greater :
  0 < gamma -> gamma < 1 -> 0 <= forget -> length vals = length pts ->
  form_model gamma forget pts vals perm = Ok (lower, greater) ->
  sorting_perm_b (firstn (Z.to_nat (unforgotten forget (length pts))) vals) perm = true ->
  ratio_clause gamma (map fst lower) (map fst greater).
Proof.
  intros G0 G1 Hf L H SP.
  destruct (split_spec gamma forget pts vals perm lower greater Hf L H SP) as (Ll & Lg & H3 & Hs & _).
  rewrite <- (map_length fst) in Ll, Lg.
  destruct (split_sets_nonempty _ _ _ _ Ll Lg H3 Hs) as [Nl Ng]. exact (ratio_clause_nonempty _ _ _ G0 G1 Nl Ng).
Qed.

(* the threshold split, whenever it is forced, gives gamma in (0, 1) and satisfies the ratio clause *)
Theorem search_ratio_clause_forced dim (pts : list point) thr pf dflt lower greater gamma :
  length pf = length pts ->
  (0 < count_true (violations thr pf))%nat ->
  (dim < length pts - count_true (violations thr pf))%nat ->
  search_split dim pts (violations thr pf) dflt = (lower, greater, gamma) ->
  0 < gamma /\ gamma < 1 /\ ratio_clause gamma lower greater.
Proof.
  intros L Hv Hd E.
  pose proof (eq_trans (violations_length thr pf) L) as Lv.
  destruct (search_split_forced dim pts (violations thr pf) dflt Lv Hv Hd) as (E' & _ & Lg & Ll & G0 & G1).
  rewrite E in E'. injection E' as -> -> ->.
  split; [exact G0|]. split; [exact G1|]. apply (ratio_clause_nonempty _ _ _ G0 G1); [rewrite Ll|rewrite Lg]; clear - Hv Hd; lia.
Qed.

(* the search view builds its estimator with forget factor 0, so every observation is kept: all that is known of it *)
Lemma split_spec_all gamma pts vals perm lo gr :
  0 < gamma -> gamma < 1 -> length vals = length pts -> sorting_perm_b vals perm = true ->
  form_model gamma 0 pts vals perm = Ok (lo, gr) ->
  let n := length pts in
  let s := Z.to_nat (lower_size gamma (Z.of_nat n)) in
  Z.of_nat s = Z.max (Qfloor (inject_Z (Z.of_nat n) * gamma)) 3 /\
  length (map fst lo) = s /\ length (map fst gr) = (n - s)%nat /\ (3 <= s)%nat /\ (s < n)%nat /\ (10 <= n)%nat /\
  Permutation (lo ++ gr) (combine pts vals) /\
  (forall a b, In a lo -> In b gr -> snd a <= snd b) /\
  ratio_clause gamma (map fst lo) (map fst gr).
Proof.
  intros G0 G1 L SP F. pose proof (split_spec gamma 0 pts vals perm lo gr (Qle_refl 0) L F) as S.
  cbv zeta in S. rewrite unforgotten_zero, Nat2Z.id, (kept_obs_all pts vals L) in S.
  replace (firstn (length pts) vals) with vals in S by (rewrite <- L; symmetry; apply firstn_all).
  destruct (S SP) as (Ll & Lg & H3 & Hs & [H10 _] & P & Sep). rewrite <- (map_length fst) in Ll, Lg.
  destruct (split_sets_nonempty _ _ _ _ Ll Lg H3 Hs) as [Nl Ng].
  refine (conj _ (conj Ll (conj Lg (conj H3 (conj Hs (conj H10 (conj P (conj Sep (ratio_clause_nonempty _ _ _ G0 G1 Nl Ng))))))))).
  rewrite Z2Nat.id by (apply (Z.le_trans _ 3); [discriminate|apply Z.le_max_r]).
  apply lower_size_floor; [apply Qlt_le_weak, G0|apply Nat2Z.is_nonneg].
Qed.

(* NO VIOLATOR: the search estimator is the constructor's own (the forced split would leave an empty greater set, which has
   no density): gamma stays gamma0 (0.2 in the view), the lower set holds the s = max(floor(gamma0 n), 3) observations with the
   lowest values of the chosen constraint metric and the greater set the n - s >= 1 others, both densities are defined and
   the ratio lies in (0, 1/gamma0] *)
Theorem search_model_no_violator gamma0 dim pts vals perm thr pf lower greater gamma :
  0 < gamma0 -> gamma0 < 1 -> length vals = length pts ->
  count_true (violations thr pf) = 0%nat ->
  sorting_perm_b vals perm = true ->
  search_model gamma0 dim pts vals perm thr pf = Ok (lower, greater, gamma) ->
  gamma = gamma0 /\
  exists lo gr, form_model gamma0 0 pts vals perm = Ok (lo, gr) /\ lower = map fst lo /\ greater = map fst gr /\
    let n := length pts in
    let s := Z.to_nat (lower_size gamma0 (Z.of_nat n)) in
    Z.of_nat s = Z.max (Qfloor (inject_Z (Z.of_nat n) * gamma0)) 3 /\
    length lower = s /\ length greater = (n - s)%nat /\ (3 <= s)%nat /\ (s < n)%nat /\ (10 <= n)%nat /\
    Permutation (lo ++ gr) (combine pts vals) /\
    (forall a b, In a lo -> In b gr -> snd a <= snd b) /\
    ratio_clause gamma lower greater.
Proof.
  intros G0 G1 L Hv SP H. unfold search_model in H.
  destruct (form_model gamma0 0 pts vals perm) as [[lo gr]|] eqn:F; [|discriminate].
  rewrite search_split_default in H by (left; exact Hv). injection H as <- <- <-.
  split; [reflexivity|]. exists lo, gr. split; [reflexivity|]. split; [reflexivity|]. split; [reflexivity|].
  exact (split_spec_all gamma0 pts vals perm lo gr G0 G1 L SP F).
Qed.

(* EVERY estimator the search view builds - threshold split or constructor's split - has gamma in (0, 1), two non-empty
   sets, and satisfies the whole ratio clause *)
Theorem search_model_ratio_clause gamma0 dim pts vals perm thr pf lower greater gamma :
  0 < gamma0 -> gamma0 < 1 -> length vals = length pts -> length pf = length pts ->
  sorting_perm_b vals perm = true ->
  search_model gamma0 dim pts vals perm thr pf = Ok (lower, greater, gamma) ->
  0 < gamma /\ gamma < 1 /\ lower <> [] /\ greater <> [] /\ ratio_clause gamma lower greater.
Proof.
  intros G0 G1 L Lp SP H.
  (* whichever split is taken, both sets are non-empty and gamma lies in (0, 1); the ratio clause follows *)
  enough (C : 0 < gamma /\ gamma < 1 /\ (0 < length lower)%nat /\ (0 < length greater)%nat).
  { destruct C as (P0 & P1 & Nl & Ng). repeat (split; [assumption|]).
    split; [intros ->; exact (Nat.lt_irrefl 0 Nl)|]. split; [intros ->; exact (Nat.lt_irrefl 0 Ng)|]. apply ratio_clause_nonempty; assumption. }
  unfold search_model in H. destruct (form_model gamma0 0 pts vals perm) as [[lo gr]|] eqn:F; [|discriminate].
  injection H as H. destruct (search_forced dim (length pts) (count_true (violations thr pf))) eqn:SF.
  - apply search_forced_spec in SF. destruct SF as [Hv Hd].
    pose proof (eq_trans (violations_length thr pf) Lp) as Lv.
    destruct (search_split_forced dim pts (violations thr pf) (map fst lo, map fst gr, gamma0) Lv Hv Hd) as (E' & _ & Lg & Ll & P0 & P1).
    rewrite H in E'. injection E' as -> -> ->. rewrite Ll, Lg. refine (conj P0 (conj P1 (conj _ Hv))). clear - Hv Hd. lia.
  - unfold search_split in H. rewrite SF in H. injection H as <- <- <-.
    destruct (split_spec_all gamma0 pts vals perm lo gr G0 G1 L SP F) as (_ & Ll & Lg & H3 & Hs & _).
    exact (conj G0 (conj G1 (split_sets_nonempty _ _ _ _ Ll Lg H3 Hs))).
Qed.

(* the input on which Props/C16.v evaluates the search view: ten 1-d observations 0..9, each with its own coordinate as objective
   value and as its one constraint-metric value *)
Definition search_witness_pts : list point := map (fun k => [inject_Z (Z.of_nat k)]) (seq 0 10).
Definition search_witness_vals : list Q := map (fun k => inject_Z (Z.of_nat k)) (seq 0 10).
Definition search_witness_pf : list (list Q) := map (fun k => [inject_Z (Z.of_nat k)]) (seq 0 10).

Lemma row_eqb_sound a b : row_eqb a b = true -> Forall2 Qeq a b.
Proof.
  revert b. induction a as [|x a IH]; intros [|y b] H; try discriminate; [constructor|].
  cbn in H. apply andb_true_iff in H. destruct H as [H1 H2]. constructor; [apply Qeq_bool_iff, H1|apply IH, H2].
Qed.

Lemma rows_eqb_sound a b : rows_eqb a b = true -> Forall2 (Forall2 Qeq) a b.
Proof.
  revert b. induction a as [|x a IH]; intros [|y b] H; try discriminate; [constructor|].
  cbn in H. apply andb_true_iff in H. destruct H as [H1 H2]. constructor; [apply row_eqb_sound, H1|apply IH, H2].
Qed.

(* a split case accepted by the correspondence check (with the logged permutation) exhibits the implementation's
   lower / greater point rows as the point parts of a model split under a permutation meeting the argsort contract:
   theorem split_spec then applies to it *)
Theorem split_case_ok_sound gamma forget pts vals p lo gr :
  0 <= forget -> length vals = length pts ->
  split_case_ok gamma forget pts vals (Some p) (OOk lo gr) = true ->
  exists lower greater,
    form_model gamma forget pts vals p = Ok (lower, greater) /\
    Forall2 (Forall2 Qeq) (map fst lower) lo /\ Forall2 (Forall2 Qeq) (map fst greater) gr /\
    let m := Z.to_nat (unforgotten forget (length pts)) in
    let s := Z.to_nat (lower_size gamma (unforgotten forget (length pts))) in
    length lower = s /\ length greater = (m - s)%nat /\ (3 <= s)%nat /\ (s < m)%nat /\ (10 <= m <= length pts)%nat /\
    Permutation (lower ++ greater) (kept_obs m pts vals) /\
    (forall a b, In a lower -> In b greater -> snd a <= snd b).
Proof.
  intros Hf L H. unfold split_case_ok in H. apply andb_true_iff in H. destruct H as [_ H].
  destruct (form_model gamma forget pts vals p) as [[mlo mgr]|] eqn:E; [|discriminate].
  apply andb_true_iff in H. destruct H as [H Hg]. apply andb_true_iff in H. destruct H as [SP Hl].
  exists mlo, mgr. split; [reflexivity|]. split; [apply rows_eqb_sound; exact Hl|]. split; [apply rows_eqb_sound; exact Hg|].
  exact (split_spec gamma forget pts vals p mlo mgr Hf L E SP).
Qed.
