(* C14, the phase logic of Model/Phases.v.  Each selector is an if / elif chain over fractions of the budget; `rung` counts
   the thresholds a fraction has passed, which gives monotonicity without reference to the constants, and the stage tables
   say which conditions select which stage.  On top of that: the SPE phase behind SPENextPoints.view and its gamma, the
   weights and epsilon read off the 101-entry tables, the multimetric info each label leads to (with the parity of the
   labels), and the same at the level of a request, where the threshold flag is computed from the optimised columns. *)
From Coq Require Import List QArith Qround Lia Lqa.
From LV Require Import Model.Pareto Proofs.Pareto Model.Phases.
Import ListNotations.
Open Scope Q_scope.

(* turns the boolean tests recorded by `destruct _ eqn:` into the order facts lra reads; a true disjunction splits the goal *)
Ltac qbool :=
  repeat match goal with
  | H : Qle_bool _ _ = true |- _ => apply Qle_bool_iff in H
  | H : Qle_bool _ _ = false |- _ => apply Qle_bool_false in H
  | H : Qltb _ _ = true |- _ => apply Qltb_lt in H
  | H : Qltb _ _ = false |- _ => apply Qltb_ge in H
  | H : _ || _ = true |- _ => apply orb_true_iff in H; destruct H
  | H : _ || _ = false |- _ => apply orb_false_iff in H; destruct H
  | H : _ && _ = true |- _ => apply andb_true_iff in H; destruct H
  | H : _ && _ = false |- _ => apply andb_false_iff in H; destruct H
  | H : negb _ = true |- _ => apply negb_true_iff in H
  | H : negb _ = false |- _ => apply negb_false_iff in H
  end.

Lemma adjusted_pos b f o : (1 <= adjusted_budget b f o)%Z.
Proof. unfold adjusted_budget. lia. Qed.

Lemma qz_pos d : (1 <= d)%Z -> 0 < qz d.
Proof. intros H. unfold qz. change 0 with (inject_Z 0). rewrite <- Zlt_Qlt. lia. Qed.

Lemma frac_mono (a a' d : Z) : (1 <= d)%Z -> (a <= a')%Z -> qz a / qz d <= qz a' / qz d.
Proof.
  intros Hd Ha. unfold Qdiv. apply Qmult_le_compat_r.
  - unfold qz. rewrite <- Zle_Qle. exact Ha.
  - apply Qinv_le_0_compat. apply Qlt_le_weak, qz_pos, Hd.
Qed.

(* how far a phase has got: the position of x in (a, b] *)
Lemma phase_fraction a b x : a < x <= b -> 0 < (x - a) / (b - a) <= 1.
Proof.
  intros [L U]. assert (D : 0 < b - a) by lra.
  split; [apply Qlt_shift_div_l|apply Qle_shift_div_r]; lra.
Qed.

(* if / elif chains over one quantity
   `if x <= t1: 0  elif x <= t2: 1 ...` returns the number of leading thresholds x exceeds.  That number grows with x
   whatever the thresholds are; the selectors below are monotone for this reason, not because of their constants. *)
Fixpoint rung (ts : list Q) (x : Q) : nat :=
  match ts with [] => O | t :: r => if Qle_bool x t then O else S (rung r x) end.

Lemma rung_mono ts x y : x <= y -> (rung ts x <= rung ts y)%nat.
Proof.
  intros H. induction ts as [|t r IH]; cbn [rung]; [lia|].
  destruct (Qle_bool y t) eqn:Ey.
  - apply Qle_bool_iff in Ey. assert (Ex : Qle_bool x t = true) by (apply Qle_bool_iff; lra). rewrite Ex. lia.
  - destruct (Qle_bool x t); lia.
Qed.

Lemma mstage_ix_nonneg s : (0 <= mstage_ix s)%Z.
Proof. destruct s; cbn; lia. Qed.

Definition mm_init (fs fc : Q) : bool := Qle_bool fs INITIALIZE_FRAC || Qle_bool fc COMPLETED_FLOOR.

Lemma mm_init_anti x y p q : x <= y -> p <= q -> mm_init y q = true -> mm_init x p = true.
Proof.
  unfold mm_init. intros Hx Hp H. apply orb_true_iff. apply orb_true_iff in H.
  destruct H as [H|H]; apply Qle_bool_iff in H; [left|right]; apply Qle_bool_iff; lra.
Qed.

(* after initialisation the stage is a chain over the served fraction *)
Lemma mm_stage_of_ix thr x p :
  mstage_ix (fst (mm_stage_of thr x p)) =
  if mm_init x p then 0%Z
  else Z.of_nat (S (rung [OPTIMIZE_ONE_METRIC_FRAC; CONVEX_RANDOM_FRAC; CONVEX_SPREAD_FRAC; POLISH_ONE_METRIC_FRAC thr;
                          EPSILON_CONSTRAINT_FRAC] x)).
Proof.
  unfold mm_stage_of, rung. fold (mm_init x p).
  repeat match goal with |- context [if ?b then _ else _] => destruct b end; reflexivity.
Qed.

Lemma mm_stage_of_mono thr x y p q : x <= y -> p <= q ->
  (mstage_ix (fst (mm_stage_of thr x p)) <= mstage_ix (fst (mm_stage_of thr y q)))%Z.
Proof.
  intros Hxy Hpq. rewrite !mm_stage_of_ix. destruct (mm_init y q) eqn:Iy.
  - rewrite (mm_init_anti x y p q Hxy Hpq Iy). lia.
  - destruct (mm_init x p); [lia|]. apply inj_le, le_n_S, rung_mono, Hxy.
Qed.

Theorem mm_stage_monotone thr b f o c c' : (c <= c')%Z ->
  (mstage_ix (fst (mm_stage thr b c f o)) <= mstage_ix (fst (mm_stage thr b c' f o)))%Z.
Proof.
  intros Hc. unfold mm_stage. apply mm_stage_of_mono; unfold fraction_served, fraction_completed;
  apply frac_mono; try apply adjusted_pos; lia.
Qed.

(* the keyword argument exists exactly for the three phases that read it, and it is a fraction in (0, 1] *)
Definition needs_fraction (s : mstage) : bool := match s with MRandom | MSeq | MEps => true | _ => false end.

Lemma mm_stage_of_fraction thr x p :
  match snd (mm_stage_of thr x p) with
  | Some cf => needs_fraction (fst (mm_stage_of thr x p)) = true /\ 0 < cf <= 1
  | None => needs_fraction (fst (mm_stage_of thr x p)) = false
  end.
Proof.
  unfold mm_stage_of.
  repeat match goal with |- context [if ?b then _ else _] => destruct b eqn:? end; cbn [fst snd needs_fraction];
  try reflexivity; qbool; (split; [reflexivity|]); apply phase_fraction; split; assumption.
Qed.

Theorem mm_phase_total thr b c f o :
  (1 <= adjusted_budget b f o)%Z /\
  match snd (mm_stage thr b c f o) with
  | Some cf => needs_fraction (fst (mm_stage thr b c f o)) = true /\ 0 < cf <= 1
  | None => needs_fraction (fst (mm_stage thr b c f o)) = false
  end.
Proof. split; [apply adjusted_pos|apply mm_stage_of_fraction]. Qed.

Lemma polish_frac_range thr : 55#100 <= POLISH_ONE_METRIC_FRAC thr <= 65#100.
Proof. destruct thr; unfold POLISH_ONE_METRIC_FRAC, CONVEX_SPREAD_FRAC; lra. Qed.

Theorem mm_stage_table thr b c f o :
  let fs := fraction_served b c f o in let fc := fraction_completed b c f o in
  let s := fst (mm_stage thr b c f o) in
  (s = MInit <-> fs <= 15#100 \/ fc <= 1#10) /\
  (s = MOptOne <-> ~ (fs <= 15#100 \/ fc <= 1#10) /\ fs <= 30#100) /\
  (s = MRandom <-> ~ fc <= 1#10 /\ 30#100 < fs <= 45#100) /\
  (s = MSeq <-> ~ fc <= 1#10 /\ 45#100 < fs <= 55#100) /\
  (s = MPolish <-> ~ fc <= 1#10 /\ 55#100 < fs <= POLISH_ONE_METRIC_FRAC thr) /\
  (s = MEps <-> ~ fc <= 1#10 /\ POLISH_ONE_METRIC_FRAC thr < fs <= 95#100) /\
  (s = MCompletion <-> ~ fc <= 1#10 /\ 95#100 < fs).
Proof.
  cbv zeta. unfold mm_stage. generalize (fraction_served b c f o) (fraction_completed b c f o). intros x p.
  (* of the flag-dependent boundary only its place among the others matters *)
  pose proof (polish_frac_range thr) as HP. remember (fst (mm_stage_of thr x p)) as s eqn:Es. revert HP Es.
  unfold mm_stage_of. generalize (POLISH_ONE_METRIC_FRAC thr). intros P HP Es.
  unfold INITIALIZE_FRAC, COMPLETED_FLOOR, OPTIMIZE_ONE_METRIC_FRAC, CONVEX_RANDOM_FRAC, CONVEX_SPREAD_FRAC,
         EPSILON_CONSTRAINT_FRAC in Es.
  repeat match type of Es with context [if ?b then _ else _] => destruct b eqn:? end; cbn [fst] in Es; subst s; qbool.
  (* in each branch the stage is known: its own row holds by the tests passed, every other row fails on both sides *)
  all: repeat match goal with |- _ /\ _ => split end.
  all: split; [intros E; first [discriminate E | clear E; lra] | intros A; first [reflexivity | exfalso; lra]].
Qed.

Lemma search_phase_ix b c o f : sphase_ix (search_phase b c o f) = Z.of_nat (rung [2#10; 4#10] (fraction_served b c f o)).
Proof. unfold search_phase, rung. repeat match goal with |- context [if ?b then _ else _] => destruct b end; reflexivity. Qed.

Theorem search_phase_monotone b o f c c' : (c <= c')%Z ->
  (sphase_ix (search_phase b c o f) <= sphase_ix (search_phase b c' o f))%Z.
Proof.
  intros Hc. rewrite !search_phase_ix. apply inj_le, rung_mono. unfold fraction_served.
  apply frac_mono; [apply adjusted_pos|lia].
Qed.

Theorem search_phase_table b o f c :
  let fs := fraction_served b c f o in
  (search_phase b c o f = SInit <-> fs <= 2#10) /\
  (search_phase b c o f = SExploit <-> 2#10 < fs <= 4#10) /\
  (search_phase b c o f = SResolve <-> 4#10 < fs).
Proof.
  cbv zeta. unfold search_phase. generalize (fraction_served b c f o). intros x.
  repeat match goal with |- context [if ?b then _ else _] => destruct b eqn:? end; qbool;
  repeat split; intros; try discriminate; try reflexivity; try lra.
Qed.

Lemma spe_phase_of_mono x y t t' s s' : x <= y -> t <= t' -> s <= s' ->
  (pphase_ix (spe_phase_of x t s) <= pphase_ix (spe_phase_of y t' s'))%Z.
Proof.
  intros Hx Ht Hs. unfold spe_phase_of, INITIALIZATION_PHASE_LIMIT, SKO_PHASE_LIMIT, MINIMUM_SUCCESS_THRESHOLD.
  repeat match goal with |- context [if ?b then _ else _] => destruct b eqn:? end; cbn; try lia; exfalso; qbool; lra.
Qed.

Lemma Qdiv_le_denominator n d d' : 0 <= n -> 0 < d <= d' -> n / d' <= n / d.
Proof.
  intros Hn [Hd Hdd]. apply Qle_shift_div_r; [lra|].
  assert (E : n == n / d * d) by (field; lra).
  assert (N : 0 <= n / d) by (apply Qle_shift_div_l; lra).
  revert E N. generalize (n / d). intros k E N. nra.
Qed.

Lemma proportion_mono f c c' : (0 <= f)%Z -> (0 <= c <= c')%Z -> success_proportion c f <= success_proportion c' f.
Proof.
  intros Hf Hc. unfold success_proportion.
  assert (F : 0 <= qz f) by (unfold qz; change 0 with (inject_Z 0); rewrite <- Zle_Qle; exact Hf).
  assert (D : qz (1 + c) <= qz (1 + c')) by (unfold qz; rewrite <- Zle_Qle; lia).
  pose proof (Qdiv_le_denominator _ _ _ F (conj (qz_pos (1 + c) ltac:(lia)) D)). lra.
Qed.

Theorem spe_phase_monotone b f c c' : (1 <= b)%Z -> (0 <= f)%Z -> (0 <= c <= c')%Z ->
  (pphase_ix (fst (spe_phase b c f)) <= pphase_ix (fst (spe_phase b c' f)))%Z.
Proof.
  intros Hb Hf Hc. unfold spe_phase. cbn [fst]. apply spe_phase_of_mono.
  - unfold success_progress. apply frac_mono; lia.
  - unfold total_progress. apply frac_mono; lia.
  - apply proportion_mono; congruence.
Qed.

(* SPENextPoints.view takes the budget from the request unchecked; that a stated budget is not negative is assumed *)
Definition budget_ok (ob : option Z) : Prop := forall b, ob = Some b -> (0 <= b)%Z.

Lemma spe_view_budget_cases ob dim :
  (forall b, ob = Some b -> (1 <= b)%Z -> spe_view_budget ob dim = b) /\
  (ob = None \/ ob = Some 0%Z -> spe_view_budget ob dim = (50 * dim)%Z).
Proof.
  unfold spe_view_budget, SPE_PHANTOM_BUDGET_FACTOR. split.
  - intros b -> Hb. destruct (b =? 0)%Z eqn:E; [apply Z.eqb_eq in E; lia|reflexivity].
  - intros [->| ->]; [|rewrite Z.eqb_refl]; lia.
Qed.

Lemma spe_view_budget_pos ob dim : (1 <= dim)%Z -> budget_ok ob -> (1 <= spe_view_budget ob dim)%Z.
Proof.
  intros Hd Hb. unfold spe_view_budget, SPE_PHANTOM_BUDGET_FACTOR. destruct ob as [b|]; [|lia].
  specialize (Hb b eq_refl). destruct (b =? 0)%Z eqn:E; [lia|]. apply Z.eqb_neq in E. lia.
Qed.

Theorem spe_view_phase_total ob dim c f : (1 <= dim)%Z -> budget_ok ob ->
  let eff := match ob with Some b => if (1 <=? b)%Z then b else (50 * dim)%Z | None => (50 * dim)%Z end in
  (1 <= eff)%Z /\ spe_view_phase ob dim c f = Some (spe_phase eff c f).
Proof.
  intros Hd Hb. cbv zeta. pose proof (spe_view_budget_pos ob dim Hd Hb) as P. unfold spe_view_phase.
  replace (match ob with Some b => if (1 <=? b)%Z then b else (50 * dim)%Z | None => (50 * dim)%Z end)
    with (spe_view_budget ob dim).
  - split; [exact P|]. destruct (Z.eqb_spec (spe_view_budget ob dim) 0); [lia|reflexivity].
  - unfold spe_view_budget, SPE_PHANTOM_BUDGET_FACTOR. destruct ob as [b|]; [|lia]. specialize (Hb b eq_refl).
    destruct (Z.eqb_spec b 0), (Z.leb_spec 1 b); lia.
Qed.

Theorem spe_view_phase_monotone ob dim f c c' : (1 <= dim)%Z -> budget_ok ob -> (0 <= f)%Z -> (0 <= c <= c')%Z ->
  match spe_view_phase ob dim c f, spe_view_phase ob dim c' f with
  | Some (p, _), Some (p', _) => (pphase_ix p <= pphase_ix p')%Z
  | _, _ => False
  end.
Proof.
  intros Hd Hb Hf Hc.
  destruct (spe_view_phase_total ob dim c f Hd Hb) as [P ->]. destruct (spe_view_phase_total ob dim c' f Hd Hb) as [_ ->].
  pose proof (spe_phase_monotone _ f c c' P Hf Hc) as M.
  destruct (spe_phase _ c f) as [p pr]. destruct (spe_phase _ c' f) as [p' pr']. exact M.
Qed.

Theorem spe_phase_table b c f :
  let sp := success_progress b c f in let tp := total_progress b c in let pr := success_proportion c f in
  let p := fst (spe_phase b c f) in
  (p = PInit <-> sp < 15#100 /\ ~ (30#100 < tp /\ 1#10 < pr)) /\
  (p = PSko <-> ~ (sp < 15#100 /\ ~ (30#100 < tp /\ 1#10 < pr)) /\ sp < 75#100) /\
  (p = PCompletion <-> 75#100 <= sp) /\ snd (spe_phase b c f) = sp.
Proof.
  cbv zeta. unfold spe_phase. cbn [fst snd].
  generalize (success_progress b c f) (total_progress b c) (success_proportion c f). intros x t s.
  unfold spe_phase_of, INITIALIZATION_PHASE_LIMIT, SKO_PHASE_LIMIT, MINIMUM_SUCCESS_THRESHOLD.
  repeat match goal with |- context [if ?b then _ else _] => destruct b eqn:? end; qbool;
  repeat match goal with |- _ /\ _ => split end; try reflexivity.
  all: split; [intros E; first [discriminate E | clear E; lra] | intros A; first [reflexivity | exfalso; lra]].
Qed.

(* inside the SKO phase gamma falls linearly from 10 % at 15 % progress to 6 % at 75 %; the phase can start below 15 %,
   so gamma can start above 10 % *)
Lemma sko_gamma_range x u : 0 <= x < SKO_PHASE_LIMIT -> 6#100 <= fst (spe_solver_options PSko x u) <= 11#100.
Proof.
  cbn [spe_solver_options fst]. unfold TOP_GAMMA, BOTTOM_GAMMA, INITIALIZATION_PHASE_LIMIT, SKO_PHASE_LIMIT, Qdiv.
  change (/ ((75 # 100) - (15 # 100))) with (10000#6000). lra.
Qed.

Theorem spe_gamma_range b c f u : (1 <= b)%Z -> (f <= c)%Z ->
  let '(p, progress) := spe_phase b c f in
  let gamma := fst (spe_solver_options p progress u) in
  6#100 <= gamma <= 11#100 /\ (p <> PSko -> gamma == 6#100 /\ snd (spe_solver_options p progress u) = u).
Proof.
  intros Hb Hf. destruct (spe_phase_table b c f) as (_ & [Sko _] & _ & _). unfold spe_phase in *. cbn [fst] in Sko.
  assert (P : 0 <= success_progress b c f).
  { unfold success_progress. apply Qle_shift_div_l; [apply qz_pos; exact Hb|].
    unfold qz. rewrite Qmult_0_l. change 0 with (inject_Z 0). rewrite <- Zle_Qle. lia. }
  destruct (spe_phase_of _ _ _).
  2: { split; [|congruence]. apply sko_gamma_range. split; [exact P|apply Sko; reflexivity]. }
  all: cbn [spe_solver_options fst snd]; unfold BOTTOM_GAMMA; split; [lra|split; reflexivity].
Qed.

Definition draws_ok (us : list Q) : Prop := us <> [] /\ forall u, In u us -> 0 <= u < 1.
Definition band (x : Q) : Prop := 1#10 <= x <= 9#10.

Lemma in_band_spec x : in_band x = true <-> band x.
Proof.
  unfold in_band, band, BORDER_BUFFER. split.
  - intros H. apply andb_true_iff in H. destruct H as [A B]. apply Qle_bool_iff in A, B. lra.
  - intros [A B]. apply andb_true_iff. split; apply Qle_bool_iff; lra.
Qed.

Lemma in_unit_spec f : in_unit f = true <-> 0 <= f <= 1.
Proof. unfold in_unit. rewrite andb_true_iff, !Qle_bool_iff. tauto. Qed.

(* a fraction outside [0, 1] is replaced by a draw, so the fraction used lies in [0, 1]; no draw is needed for one inside *)
Lemma take_frac_unit f us : 0 <= f <= 1 \/ draws_ok us -> exists f', take_frac f us = Some f' /\ 0 <= f' <= 1.
Proof.
  intros H. unfold take_frac. destruct (in_unit f) eqn:E.
  - exists f. split; [reflexivity|apply in_unit_spec; exact E].
  - destruct H as [H|[Hne Hr]]; [apply in_unit_spec in H; congruence|].
    destruct us as [|u r]; [congruence|]. exists u. split; [reflexivity|].
    destruct (Hr u (or_introl eq_refl)). split; lra.
Qed.

Lemma qtrunc_nonneg x : 0 <= x -> qtrunc x = Qfloor x.
Proof. intros H. unfold qtrunc. apply Qle_bool_iff in H. rewrite H. reflexivity. Qed.

Lemma index_range f : 0 <= f <= 1 -> (0 <= qtrunc (100 * f) <= 100)%Z.
Proof.
  intros [A B]. rewrite qtrunc_nonneg by lra.
  assert (L : (Qfloor 0 <= Qfloor (100 * f))%Z) by (apply Qfloor_resp_le; lra).
  assert (U : (Qfloor (100 * f) <= Qfloor 100)%Z) by (apply Qfloor_resp_le; lra).
  exact (conj L U).
Qed.

Lemma table_lookup t i : halton_ok t = true -> (0 <= i <= 100)%Z ->
  exists w, table_at t i = Some w /\ In w t /\ band w.
Proof.
  intros H Hi. unfold halton_ok in H. apply andb_true_iff in H. destruct H as [Hl Hb].
  apply Nat.eqb_eq in Hl. unfold table_at.
  destruct (i <? 0)%Z eqn:E; [apply Z.ltb_lt in E; lia|].
  destruct (nth_error t (Z.to_nat i)) as [w|] eqn:N.
  - exists w. split; [reflexivity|]. apply nth_error_In in N. split; [exact N|].
    apply in_band_spec. rewrite forallb_forall in Hb. apply Hb. exact N.
  - apply nth_error_None in N. lia.
Qed.

Lemma grid_table_ok : halton_ok grid_table = true.
Proof. vm_compute. reflexivity. Qed.

(* the sequential table is the documented one: 0.1 + 0.8 k / 100 *)
Lemma grid_value k : grid k == (1#10) + (8#10) * (qz (Z.of_nat k) / 100).
Proof. unfold grid, BORDER_BUFFER. lra. Qed.

Theorem weights_spec rs halton f us : halton_ok halton = true -> draws_ok us ->
  exists w0 w1, form_weights rs halton f us = Some (w0, w1) /\ band w0 /\ band w1 /\ w0 + w1 == 1 /\
                In w0 (if rs then halton else grid_table).
Proof.
  intros Hh Hu. unfold form_weights.
  destruct (take_frac_unit f us (or_intror Hu)) as (f' & -> & Hf).
  assert (Ht : halton_ok (if rs then halton else grid_table) = true) by (destruct rs; [exact Hh|apply grid_table_ok]).
  destruct (table_lookup _ _ Ht (index_range f' Hf)) as (w & -> & Hin & Hw).
  exists w, (1 - w). unfold band in *. repeat split; try lra. exact Hin.
Qed.

Lemma form_epsilon_ok f us : 0 <= f <= 1 \/ draws_ok us -> exists e, form_epsilon f us = Some e /\ band e /\ In e grid_table.
Proof.
  intros H. unfold form_epsilon. destruct (take_frac_unit f us H) as (f' & -> & Hf).
  destruct (table_lookup _ _ grid_table_ok (index_range f' Hf)) as (w & -> & Hin & Hw).
  exists w. split; [reflexivity|]. split; assumption.
Qed.

Theorem epsilon_spec f us : draws_ok us -> exists e, form_epsilon f us = Some e /\ band e /\ In e grid_table.
Proof. intros Hu. apply form_epsilon_ok. right. exact Hu. Qed.

(* in range, the table index is floor(100 f): the fraction selects the cell it lies in *)
Theorem index_is_cell f : 0 <= f <= 1 ->
  let k := qtrunc (100 * f) in qz k <= 100 * f < qz k + 1.
Proof.
  intros [A B]. cbv zeta. rewrite qtrunc_nonneg by lra. unfold qz. split; [apply Qfloor_le|].
  assert (H := Qlt_floor (100 * f)). rewrite inject_Z_plus in H. exact H.
Qed.

Definition metric_pair (om cm : nat) : Prop := (om = 0 /\ cm = 1)%nat \/ (om = 1 /\ cm = 0)%nat.
Definition info_ok (i : minfo) : Prop :=
  match i with
  | NotMM => True
  | OptOne om cm => metric_pair om cm
  | Convex w0 w1 => band w0 /\ band w1 /\ w0 + w1 == 1
  | EpsC om cm e => metric_pair om cm /\ band e
  end.

Lemma metric_pair_b om cm :
  (Nat.eqb om 0 && Nat.eqb cm 1) || (Nat.eqb om 1 && Nat.eqb cm 0) = true <-> metric_pair om cm.
Proof.
  unfold metric_pair. split.
  - intros H. apply orb_true_iff in H. destruct H as [H|H]; apply andb_true_iff in H; destruct H as [A B];
    apply Nat.eqb_eq in A, B; auto.
  - intros [[-> ->]|[-> ->]]; reflexivity.
Qed.

Lemma info_ok_b_spec i : info_ok_b i = true <-> info_ok i.
Proof.
  destruct i as [|om cm|w0 w1|om cm e]; cbn [info_ok_b info_ok].
  - tauto.
  - apply metric_pair_b.
  - unfold weights_ok_b. rewrite !andb_true_iff, !in_band_spec, Qeq_bool_iff. tauto.
  - rewrite andb_true_iff, in_band_spec, metric_pair_b. tauto.
Qed.

(* a label and its keyword argument fit together when the labels of the three fraction-reading phases (the epsilon phase
   has one label for each parity) carry a fraction *)
Definition kw_fits (l : mlabel) (kw : option Q) : Prop :=
  match l with LRandom | LSeq | LEps0 | LEps1 => kw <> None | _ => True end.

Theorem info_from_phase_spec l kw pick us halton : halton_ok halton = true -> draws_ok us -> kw_fits l kw ->
  exists i, info_from_phase l kw pick us halton = Some i /\ info_ok i.
Proof.
  intros Hh Hu Hk.
  assert (MP01 : metric_pair 0 1) by (left; split; reflexivity).
  assert (MP10 : metric_pair 1 0) by (right; split; reflexivity).
  destruct l; cbn [info_from_phase kw_fits] in *; try (destruct kw as [f|]; [|congruence]).
  1-4: try destruct pick; eexists; (split; [reflexivity|]); first [exact I|assumption].
  1-2: match goal with |- context [form_weights ?rs] =>
         destruct (weights_spec rs halton f us Hh Hu) as (w0 & w1 & -> & B0 & B1 & S & _) end;
       exists (Convex w0 w1); split; [reflexivity|]; cbn; tauto.
  1-2: destruct (epsilon_spec f us Hu) as (e & -> & B & _); eexists; split; [reflexivity|]; cbn; tauto.
  (* completion: the fraction is itself a draw, so no further draw is consumed *)
  destruct Hu as [Hne Hr]. destruct us as [|u us']; [congruence|].
  assert (Hu1 : 0 <= u <= 1) by (destruct (Hr u (or_introl eq_refl)); split; lra).
  destruct (form_epsilon_ok u us' (or_introl Hu1)) as (e & -> & B & _).
  destruct pick; eexists; (split; [reflexivity|]); cbn; tauto.
Qed.

Lemma mm_phase_kw_fits thr b c f o : kw_fits (fst (mm_phase thr b c f o)) (snd (mm_phase thr b c f o)).
Proof.
  unfold mm_phase. destruct (mm_phase_total thr b c f o) as [_ H].
  destruct (mm_stage thr b c f o) as [s kw]. cbn [fst snd] in *.
  destruct kw as [cf|].
  - destruct s; cbn in *; try (destruct H; discriminate); try destruct (Z.odd c); cbn; congruence.
  - destruct s; cbn in *; try discriminate; try destruct (Z.odd c); cbn; exact I.
Qed.

Theorem schedule_spec rp thr b c f o pick us halton : halton_ok halton = true -> draws_ok us ->
  exists i, view_info rp thr b c f o pick us halton = Some i /\ info_ok i.
Proof.
  intros Hh Hu. unfold view_info. destruct rp; cbn [negb].
  - assert (K := mm_phase_kw_fits thr b c f o). destruct (mm_phase thr b c f o) as [l kw].
    apply info_from_phase_spec; assumption.
  - exists NotMM. split; [reflexivity|exact I].
Qed.

Theorem mm_label_parity thr b c f o :
  let l := fst (mm_phase thr b c f o) in
  (l = LOpt1 \/ l = LEps1 -> Z.odd c = true) /\ (l = LOpt0 \/ l = LEps0 -> Z.odd c = false).
Proof.
  cbv zeta. unfold mm_phase. destruct (mm_stage thr b c f o) as [s kw]. cbn [fst].
  destruct s; cbn; destruct (Z.odd c); split; intros [E|E]; congruence.
Qed.

Definition has_optimized_threshold (thr : list (option Q)) (optimized : list nat) : Prop :=
  exists i t, In i optimized /\ nth_error thr i = Some (Some t).
Definition in_range (thr : list (option Q)) (optimized : list nat) : Prop :=
  forall i, In i optimized -> (i < length thr)%nat.

Lemma optimized_threshold_b_spec thr opt : optimized_threshold_b thr opt = true <-> has_optimized_threshold thr opt.
Proof.
  unfold optimized_threshold_b, has_optimized_threshold. rewrite existsb_exists. split.
  - intros (i & Hin & H). destruct (nth_error thr i) as [[t|]|] eqn:E; try discriminate. exists i, t. split; assumption.
  - intros (i & t & Hin & E). exists i. split; [exact Hin|]. rewrite E. reflexivity.
Qed.

Lemma columns_in_range_spec thr opt : columns_in_range thr opt = true <-> in_range thr opt.
Proof.
  unfold columns_in_range, in_range. rewrite forallb_forall. split; intros H i Hi; apply Nat.ltb_lt, H, Hi.
Qed.

Lemma any_threshold_at_spec thr : forall opt, in_range thr opt ->
  any_threshold_at thr opt = Some (optimized_threshold_b thr opt).
Proof.
  induction opt as [|i r IH]; intros Hr; [reflexivity|].
  cbn [any_threshold_at optimized_threshold_b existsb].
  assert (Hi : (i < length thr)%nat) by (apply Hr; left; reflexivity).
  destruct (nth_error thr i) as [[t|]|] eqn:E.
  - reflexivity.
  - cbn [orb]. apply IH. intros j Hj. apply Hr. right. exact Hj.
  - apply nth_error_None in E. lia.
Qed.

Theorem has_thresholds_spec thr opt : in_range thr opt ->
  exists flag, has_optimized_metric_thresholds thr opt = Some flag /\ (flag = true <-> has_optimized_threshold thr opt).
Proof.
  intros Hr. exists (optimized_threshold_b thr opt). split; [|apply optimized_threshold_b_spec].
  unfold has_optimized_metric_thresholds. destruct opt as [|i r]; [reflexivity|]. apply any_threshold_at_spec. exact Hr.
Qed.

Lemma threshold_carried_over thr thr' opt opt' : in_range thr' opt' ->
  (forall i, In i opt -> In i opt' /\ (nth_error thr' i = Some None -> nth_error thr i = Some None)) ->
  has_optimized_threshold thr opt -> has_optimized_threshold thr' opt'.
Proof.
  intros Hr' H (i & t & Hin & E). destruct (H i Hin) as [Hi' Hnone].
  destruct (nth_error thr' i) as [[t'|]|] eqn:E'.
  - exists i, t'. split; assumption.
  - rewrite Hnone in E by reflexivity. discriminate E.
  - apply nth_error_None in E'. specialize (Hr' i Hi'). lia.
Qed.

Theorem has_thresholds_only_optimized_columns thr thr' opt opt' : in_range thr opt -> in_range thr' opt' ->
  (forall i, In i opt <-> In i opt') ->
  (forall i, In i opt -> (nth_error thr i = Some None <-> nth_error thr' i = Some None)) ->
  has_optimized_metric_thresholds thr opt = has_optimized_metric_thresholds thr' opt'.
Proof.
  intros Hr Hr' Hsame Hagree.
  destruct (has_thresholds_spec thr opt Hr) as (b & -> & Hb).
  destruct (has_thresholds_spec thr' opt' Hr') as (b' & -> & Hb').
  f_equal. apply eq_true_iff_eq. rewrite Hb, Hb'.
  split; apply threshold_carried_over; try assumption; intros i Hi.
  - split; [apply Hsame; exact Hi|apply Hagree; exact Hi].
  - apply Hsame in Hi. split; [exact Hi|apply Hagree; exact Hi].
Qed.

Theorem request_phase_documented r : in_range (rq_thresholds r) (rq_optimized r) ->
  exists flag, (flag = true <-> has_optimized_threshold (rq_thresholds r) (rq_optimized r)) /\
    request_phase r =
      Some (if rq_pareto r
            then mm_phase flag (rq_budget r) (Z.of_nat (length (rq_failures r))) (Z.of_nat (count_true (rq_failures r)))
                          (match rq_open r with Some k => Z.of_nat k | None => 0%Z end)
            else (LNotMM, None)) /\
    forall pick us halton,
      request_info r pick us halton =
      view_info (rq_pareto r) flag (rq_budget r) (Z.of_nat (length (rq_failures r))) (Z.of_nat (count_true (rq_failures r)))
                (match rq_open r with Some k => Z.of_nat k | None => 0%Z end) pick us halton.
Proof.
  intros Hr. destruct (has_thresholds_spec _ _ Hr) as (flag & E & Hflag).
  exists flag. split; [exact Hflag|].
  unfold request_info, request_phase, view_info, rq_count, rq_failure_count, rq_open_count. rewrite E.
  destruct (rq_pareto r); cbn [negb]; split; try reflexivity; intros pick us halton; reflexivity.
Qed.

Theorem request_schedule_spec r pick us halton : in_range (rq_thresholds r) (rq_optimized r) ->
  halton_ok halton = true -> draws_ok us ->
  exists i, request_info r pick us halton = Some i /\ info_ok i.
Proof.
  intros Hr Hh Hu. destruct (request_phase_documented r Hr) as (flag & _ & _ & ->).
  apply schedule_spec; assumption.
Qed.

Theorem request_polish_window r : in_range (rq_thresholds r) (rq_optimized r) -> rq_pareto r = true ->
  let fs := fraction_served (rq_budget r) (rq_count r) (rq_failure_count r) (rq_open_count r) in
  let fc := fraction_completed (rq_budget r) (rq_count r) (rq_failure_count r) (rq_open_count r) in
  55#100 < fs <= 65#100 -> ~ fc <= 1#10 ->
  exists l kw, request_phase r = Some (l, kw) /\
    (has_optimized_threshold (rq_thresholds r) (rq_optimized r) -> (l = LEps0 \/ l = LEps1) /\ kw <> None) /\
    (~ has_optimized_threshold (rq_thresholds r) (rq_optimized r) -> (l = LOpt0 \/ l = LOpt1) /\ kw = None).
Proof.
  intros Hr Hp. cbv zeta. intros Hfs Hfc.
  destruct (has_thresholds_spec _ _ Hr) as (flag & E & Hflag).
  unfold request_phase. rewrite Hp, E. cbn [negb].
  pose proof (mm_stage_table flag (rq_budget r) (rq_count r) (rq_failure_count r) (rq_open_count r)) as T. cbv zeta in T.
  destruct T as (_ & _ & _ & _ & TP & TE & _).
  pose proof (mm_phase_total flag (rq_budget r) (rq_count r) (rq_failure_count r) (rq_open_count r)) as [_ Tot].
  unfold mm_phase. destruct (mm_stage flag _ _ _ _) as [s kw] eqn:Es. cbn [fst snd] in *.
  exists (mm_label s (rq_count r)), kw. split; [reflexivity|]. split.
  - intros H. apply Hflag in H. subst flag. cbn [POLISH_ONE_METRIC_FRAC] in TE. unfold CONVEX_SPREAD_FRAC in TE.
    assert (Hs : s = MEps) by (apply TE; split; [exact Hfc|split; lra]). subst s. cbn [mm_label needs_fraction] in *.
    split; [destruct (Z.odd _); auto|]. destruct kw; [discriminate|discriminate Tot].
  - intros H. assert (flag = false) by (destruct flag; [exfalso; apply H, Hflag; reflexivity|reflexivity]). subst flag.
    cbn [POLISH_ONE_METRIC_FRAC] in TP.
    assert (Hs : s = MPolish) by (apply TP; split; [exact Hfc|split; lra]). subst s. cbn [mm_label needs_fraction] in *.
    split; [destruct (Z.odd _); auto|]. destruct kw as [cf|]; [destruct Tot; discriminate|reflexivity].
Qed.
