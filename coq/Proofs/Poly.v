(* Theorems about Model.Poly: closed forms of the polynomial matrix and its gradient tensor (the shortcut branches coincide with
   the general formula), and over R: every entry of the gradient tensor is the partial derivative of the corresponding entry of
   the polynomial matrix. *)
From Coq Require Import List Reals Bool Lia.
From Coquelicot Require Import Coquelicot.
From LV Require Import Lib.RBase Model.Poly.
Import ListNotations.

Section OverR.
Open Scope R_scope.

Local Notation powR := (powT R 1 Rmult).
Local Notation mono_goR := (mono_go R 1 Rmult).
Local Notation grad_goR := (grad_go R 0 1 Rmult INR).

(* closed form of one entry: the product of the coordinates raised to their exponents *)
Fixpoint mono_spec (x : list R) (e : list nat) : R :=
  match x, e with xi :: x', ei :: e' => xi ^ ei * mono_spec x' e' | _, _ => 1 end.

(* at R the model's power is the standard library's, recursion for recursion *)
Lemma powR_pow : powR = pow.
Proof. reflexivity. Qed.

Lemma mono_go_spec : forall x e acc, mono_goR acc x e = acc * mono_spec x e.
Proof.
  induction x as [|xi x IH]; intros [|ei e] acc; simpl; try ring.
  rewrite IH, powR_pow. ring.
Qed.

Theorem mono_closed_form x e : monoR x e = mono_spec x e.
Proof. unfold monoR, mono. rewrite mono_go_spec. ring. Qed.

(* once the running index k has passed the differentiated coordinate d, the gradient loop multiplies like the value loop *)
Lemma grad_go_past : forall x e acc k d, (d < k)%nat -> grad_goR acc k d x e = acc * mono_spec x e.
Proof.
  induction x as [|xi x IH]; intros [|ei e] acc k d H; simpl; try ring.
  destruct (Nat.eqb_spec d k) as [E|E]; [lia|]. rewrite IH, powR_pow by lia. ring.
Qed.

(* the point with coordinate d replaced by t *)
Fixpoint upd (x : list R) (d : nat) (t : R) : list R :=
  match x, d with
  | [], _ => []
  | _ :: x', O => t :: x'
  | xi :: x', S d' => xi :: upd x' d' t
  end.

Lemma upd_nth : forall x d, (d < length x)%nat -> upd x d (nth d x 0) = x.
Proof.
  induction x as [|xi x IH]; intros [|d] H; simpl in *; try congruence; try reflexivity.
  rewrite IH by lia. reflexivity.
Qed.

(* the factor the gradient loop multiplies in at the differentiated coordinate *)
Lemma is_derive_pow_id ei t : is_derive (fun u => u ^ ei) t (match ei with O => 0 | S ei' => INR ei * t ^ ei' end).
Proof.
  destruct ei as [|ei']; [exact (is_derive_Rconst 1 t)|].
  evar_last; [exact (is_derive_pow (fun u => u) (S ei') t 1 (is_derive_id t))|].
  cbn [Init.Nat.pred]. rewrite Rmult_1_r. reflexivity.
Qed.

(* both loops started from any accumulator, the gradient loop at any index k: coordinate d of x is coordinate k + d of the loop *)
Lemma mono_go_partial_derivative : forall x e d acc k, (d < length x)%nat -> length x = length e ->
  is_derive (fun t => mono_goR acc (upd x d t) e) (nth d x 0) (grad_goR acc k (k + d) x e).
Proof.
  induction x as [|xi x IH]; intros [|ei e] d acc k Hd Hl; simpl in Hd, Hl; try lia; try discriminate.
  destruct d as [|d']; cbn [upd nth mono_go grad_go].
  - rewrite Nat.add_0_r, Nat.eqb_refl, grad_go_past by lia.
    apply (is_derive_ext (fun t => acc * t ^ ei * mono_spec x e)).
    { intro t. rewrite mono_go_spec, powR_pow. reflexivity. }
    evar_last; [exact (is_derive_Rmult _ _ xi _ _ (is_derive_scal _ xi acc _ (is_derive_pow_id ei xi)) (is_derive_Rconst _ xi))|].
    destruct ei as [|ei']; [|rewrite powR_pow]; ring.
  - destruct (Nat.eqb_spec (k + S d') k) as [E|_]; [lia|].
    rewrite Nat.add_succ_r. apply (IH e d' _ (S k)); [lia|congruence].
Qed.

Theorem mono_partial_derivative x e d : (d < length x)%nat -> length x = length e ->
  is_derive (fun t => monoR (upd x d t) e) (nth d x 0) (grad_entryR x e d).
Proof. exact (mono_go_partial_derivative x e d 1 0%nat). Qed.

Lemma mono_zero_exponents : forall x e, forallb (Nat.eqb 0) e = true -> mono_spec x e = 1.
Proof.
  induction x as [|xi x IH]; intros [|ei e] H; simpl in *; try reflexivity.
  apply andb_true_iff in H. destruct H as [H0 H]. destruct ei as [|ei']; [|discriminate]. rewrite IH by exact H. simpl. ring.
Qed.

Lemma grad_zero_exponents : forall x e acc k d, forallb (Nat.eqb 0) e = true -> (k <= d)%nat -> (d < k + length x)%nat -> length x = length e ->
  grad_goR acc k d x e = 0.
Proof.
  induction x as [|xi x IH]; intros [|ei e] acc k d H Hk Hd Hl; simpl in *; try lia; try discriminate.
  apply andb_true_iff in H. destruct H as [H0 H]. destruct ei as [|ei']; [|discriminate].
  destruct (Nat.eqb_spec d k) as [E|E].
  - rewrite grad_go_past by lia. ring.
  - apply IH; [exact H|lia|lia|congruence].
Qed.

(* numpy.array_equal(indices_list, numpy.zeros((1, dim))): exactly one exponent vector, of length dim, all zero *)
Lemma is_constant_mean_spec idx dim : is_constant_mean idx dim = true ->
  exists e, idx = [e] /\ length e = dim /\ forallb (Nat.eqb 0) e = true.
Proof.
  destruct idx as [|e [|e1 idx]]; try discriminate. intros C. apply andb_true_iff in C. destruct C as [L C].
  exists e. split; [reflexivity|split; [apply Nat.eqb_eq, L|exact C]].
Qed.

(* the shortcut branches of the two builders agree with the general formula *)
Theorem polymat_entries dim idx pts : idx <> [] -> polymatR dim idx pts = map (fun p => map (monoR p) idx) pts.
Proof.
  intros Hne. unfold polymatR, build_polynomial_matrix.
  destruct idx as [|e0 idx']; [contradiction|].
  destruct (is_constant_mean (e0 :: idx') dim) eqn:C; [|reflexivity].
  destruct (is_constant_mean_spec _ _ C) as (e & -> & _ & Z).
  apply map_ext_in. intros p _. simpl. rewrite mono_closed_form, mono_zero_exponents by exact Z. reflexivity.
Qed.

Lemma repeat_map_seq (c : R) n : forall st, repeat c n = map (fun _ : nat => c) (seq st n).
Proof. induction n as [|n IHn]; intro st; simpl; [reflexivity|]. f_equal. apply IHn. Qed.

Theorem gradten_entries dim idx pts : idx <> [] -> List.Forall (fun p => length p = dim) pts ->
  gradtenR dim idx pts = map (fun p => map (fun e => map (grad_entryR p e) (seq 0 dim)) idx) pts.
Proof.
  intros Hne Hp. unfold gradtenR, build_grad_polynomial_tensor.
  destruct (is_constant_mean idx dim) eqn:C.
  - destruct (is_constant_mean_spec _ _ C) as (e & -> & L & Z).
    apply map_ext_in. intros p Hin. rewrite List.Forall_forall in Hp. specialize (Hp p Hin). simpl. f_equal.
    rewrite (repeat_map_seq 0 dim 0). apply map_ext_in. intros d Hd. apply in_seq in Hd. symmetry.
    apply grad_zero_exponents; [exact Z|lia|lia|congruence].
  - destruct idx; [contradiction|reflexivity].
Qed.
End OverR.
