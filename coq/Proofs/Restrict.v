(* C08: restriction into a box with linear constraints never leaves the constrained region.  The file first fixes the words
   of C08 (`sat`, `strict`, `in_box`, `feasible`, `interior`, ...), which Samplers.v, Cheby.v, DomainHist.v, ScipyCons.v and
   Props/C08*.v share.  The argument: after clipping, a point is pulled towards a strictly interior point by the largest
   correction a violated row asks for; that convex combination satisfies every row of `halfspaces d`, and those rows say
   `feasible`.  Fixed coordinates come last. *)
From Coq Require Import List Qabs Lia Lqa.
From LV Require Import Model.Restrict.
Import ListNotations.
Open Scope Q_scope.

Definition sat (x : point) (h : halfspace) : Prop := dot (fst h) x <= snd h.
Definition strict (x : point) (h : halfspace) : Prop := dot (fst h) x < snd h.
Definition sat_all (hs : list halfspace) (x : point) : Prop := forall h, In h hs -> sat x h.
Definition strict_all (hs : list halfspace) (x : point) : Prop := forall h, In h hs -> strict x h.
Definition in_box (bs : list (Q * Q)) (x : point) : Prop := Forall2 (fun b xi => fst b <= xi <= snd b) bs x.
(* the constrained region stated directly: inside the bounds and weights . x >= rhs for every constraint *)
Definition feasible (d : domain) (x : point) : Prop :=
  in_box (bounds d) x /\ forall c, In c (cstrs d) -> snd c <= dot (fst c) x.
Definition unit_interval (u : Q) : Prop := 0 <= u <= 1.

Lemma Qle_bool_false x y : Qle_bool x y = false <-> y < x.
Proof. rewrite <- not_true_iff_false, Qle_bool_iff. split; [apply Qnot_le_lt|apply Qlt_not_le]. Qed.
Lemma Qltb_lt x y : Qltb x y = true <-> x < y.
Proof. unfold Qltb. rewrite negb_true_iff. apply Qle_bool_false. Qed.
Lemma Qltb_ge x y : Qltb x y = false <-> y <= x.
Proof. unfold Qltb. rewrite negb_false_iff. apply Qle_bool_iff. Qed.

Lemma sat_b_iff x h : sat_b x h = true <-> sat x h.
Proof. unfold sat_b, sat. apply Qle_bool_iff. Qed.
Lemma sat_all_b_iff hs x : sat_all_b hs x = true <-> sat_all hs x.
Proof.
  unfold sat_all_b, sat_all. rewrite forallb_forall. split; intros H h Hh.
  - apply sat_b_iff, H, Hh.
  - apply sat_b_iff, H, Hh.
Qed.
Lemma in_box_b_iff : forall bs x, in_box_b bs x = true <-> in_box bs x.
Proof.
  induction bs as [|b bs IH]; intros [|xi x]; simpl; try (split; [discriminate|intros H; inversion H]).
  - split; constructor.
  - rewrite !andb_true_iff, !Qle_bool_iff, IH. split.
    + intros [H12 H3]. constructor; assumption.
    + intros H. inversion H; subst. split; assumption.
Qed.
Lemma in_box_length bs x : in_box bs x -> length x = length bs.
Proof. induction 1; simpl; [reflexivity|]. rewrite IHForall2. reflexivity. Qed.

Lemma dot_nil_r a : dot a [] = 0.
Proof. destruct a; reflexivity. Qed.

Lemma map2_length {A B C} (f : A -> B -> C) : forall l1 l2, length l1 = length l2 -> length (map2 f l1 l2) = length l1.
Proof. induction l1 as [|a l1 IH]; intros [|b l2] H; simpl in *; try discriminate; [reflexivity|]. rewrite IH by congruence. reflexivity. Qed.

Lemma dot_map2_affine (f : Q -> Q -> Q) (al be : Q) :
  (forall x y, f x y == al * x + be * y) ->
  forall a p v, length p = length v -> dot a (map2 f p v) == al * dot a p + be * dot a v.
Proof.
  intros Hf. induction a as [|ai a IH]; intros [|pi p] [|vi v] Hl; simpl in *; try discriminate; try lra.
  rewrite IH by congruence. rewrite Hf. lra.
Qed.

(* the move x + t d, as in a hit-and-run step *)
Lemma dot_shift t a x d : length x = length d -> dot a (map2 (fun xi di => xi + t * di) x d) == dot a x + t * dot a d.
Proof. intro Hl. rewrite (dot_map2_affine _ 1 t) by (try exact Hl; intros; lra). lra. Qed.

Lemma in_box_map2_convex (f : Q -> Q -> Q) (al be : Q) :
  (forall x y, f x y == al * x + be * y) -> 0 <= al -> 0 <= be -> al + be == 1 ->
  forall bs p v, in_box bs p -> in_box bs v -> in_box bs (map2 f p v).
Proof.
  intros Hf Ha Hb Hab. induction bs as [|b bs IH]; intros p v Hp Hv.
  - inversion Hp; inversion Hv; subst. constructor.
  - inversion Hp as [|? pi ? p' [P1 P2] P3]; subst. inversion Hv as [|? vi ? v' [V1 V2] V3]; subst.
    simpl. constructor; [|apply IH; assumption].
    rewrite Hf. split; nra.
Qed.

Lemma combine_affine e x y : x * e + (1 - e) * y == e * x + (1 - e) * y.
Proof. lra. Qed.
Lemma dot_combine e a p v : length p = length v ->
  dot a (combine_toward e p v) == e * dot a p + (1 - e) * dot a v.
Proof. intros Hl. unfold combine_toward. apply (dot_map2_affine _ e (1 - e)); [intros; lra|exact Hl]. Qed.
Lemma in_box_combine e bs p v : 0 <= e <= 1 -> in_box bs p -> in_box bs v -> in_box bs (combine_toward e p v).
Proof.
  intros [H0 H1]. unfold combine_toward. apply (in_box_map2_convex _ e (1 - e)); try lra. intros; lra.
Qed.

(* The scalar core (one constraint): P = a.p (clipped point), V = a.v (viable point), B = right-hand side, e = weight left on p *)
Lemma fix_violated P V B e :
  V < B -> B < P -> e <= 1 - (B - P) / (V - P) -> e * P + (1 - e) * V <= B.
Proof.
  intros HV HP He.
  assert (Hd : ~ V - P == 0) by lra. pose proof (Qmult_div_r (B - P) (V - P) Hd) as Em.
  nra.
Qed.
Lemma keep_satisfied P V B e : P <= B -> V <= B -> 0 <= e -> e <= 1 -> e * P + (1 - e) * V <= B.
Proof. intros. nra. Qed.

Lemma valid_0 : valid 0 = false.
Proof. reflexivity. Qed.
Lemma valid_iff m : valid m = true <-> 0 < m /\ m < 1.
Proof. unfold valid. rewrite andb_true_iff, !Qltb_lt. reflexivity. Qed.

(* a valid multiplier (strictly between 0 and 1) can only come from a violated constraint when v is feasible *)
Lemma valid_implies_violated v p h :
  sat v h -> valid (multiplier v p h) = true -> snd h < dot (fst h) p.
Proof.
  unfold sat, multiplier. set (P := dot (fst h) p). set (V := dot (fst h) v). set (B := snd h). intros HV.
  destruct (Qeq_bool (V - P) 0) eqn:E; [rewrite valid_0; discriminate|].
  intros Hval. apply valid_iff in Hval. destruct Hval as [H0 H1].
  assert (Hd : ~ V - P == 0). { intros C. apply Qeq_bool_iff in C. congruence. }
  set (m := (B - P) / (V - P)) in *.
  pose proof (Qmult_div_r (B - P) (V - P) Hd : (V - P) * m == B - P) as Em.
  (* B - P is the fraction m in (0,1) of V - P, and V <= B: were P <= B, then 0 <= V - P <= m (V - P), so V - P = 0 *)
  nra.
Qed.

(* a violated constraint yields a valid multiplier when v is strictly feasible *)
Lemma violated_implies_valid v p h :
  strict v h -> snd h < dot (fst h) p ->
  valid (multiplier v p h) = true /\
  multiplier v p h == (snd h - dot (fst h) p) / (dot (fst h) v - dot (fst h) p).
Proof.
  unfold strict, multiplier. set (P := dot (fst h) p). set (V := dot (fst h) v). set (B := snd h). intros HV HP.
  assert (Hd : ~ V - P == 0) by lra.
  destruct (Qeq_bool (V - P) 0) eqn:E; [apply Qeq_bool_iff in E; contradiction|].
  split; [|reflexivity].
  set (m := (B - P) / (V - P)).
  pose proof (Qmult_div_r (B - P) (V - P) Hd : (V - P) * m == B - P) as Em.
  apply valid_iff. split; nra.
Qed.

Lemma Qmaxb_l a b : a <= Qmaxb a b.
Proof. unfold Qmaxb. destruct (Qle_bool a b) eqn:E; [apply Qle_bool_iff, E|lra]. Qed.
Lemma Qmaxb_r a b : b <= Qmaxb a b.
Proof. unfold Qmaxb. destruct (Qle_bool a b) eqn:E; [lra|apply Qlt_le_weak, Qle_bool_false, E]. Qed.
Lemma Qmaxb_cases a b : Qmaxb a b = a \/ Qmaxb a b = b.
Proof. unfold Qmaxb. destruct (Qle_bool a b); auto. Qed.
Lemma Qminb_l a b : Qminb a b <= a.
Proof. unfold Qminb. destruct (Qle_bool a b) eqn:E; [lra|apply Qlt_le_weak, Qle_bool_false, E]. Qed.
Lemma Qminb_r a b : Qminb a b <= b.
Proof. unfold Qminb. destruct (Qle_bool a b) eqn:E; [apply Qle_bool_iff, E|lra]. Qed.
Lemma Qminb_cases a b : Qminb a b = a \/ Qminb a b = b.
Proof. unfold Qminb. destruct (Qle_bool a b); auto. Qed.

Lemma masked_range v p h : 0 <= masked v p h /\ masked v p h < 1.
Proof.
  unfold masked. destruct (valid (multiplier v p h)) eqn:E; [apply valid_iff in E|]; lra.
Qed.
Lemma max_correction_range hs v p : 0 <= max_correction hs v p /\ max_correction hs v p < 1.
Proof.
  induction hs as [|h hs IH]; simpl; [lra|].
  destruct (Qmaxb_cases (masked v p h) (max_correction hs v p)) as [E|E]; rewrite E; [apply masked_range|exact IH].
Qed.
Lemma max_correction_ge hs v p h : In h hs -> masked v p h <= max_correction hs v p.
Proof.
  induction hs as [|h' hs IH]; simpl; [contradiction|]. intros [->|Hin].
  - apply Qmaxb_l.
  - eapply Qle_trans; [apply IH, Hin|apply Qmaxb_r].
Qed.

Lemma restrict_one_unchanged hs v on p us :
  sat_all hs v -> sat_all hs p -> restrict_one hs v on p us = (p, us).
Proof.
  intros Hv Hp. unfold restrict_one.
  destruct (needs_correction hs v p) eqn:E; [|reflexivity]. exfalso.
  unfold needs_correction in E. apply existsb_exists in E. destruct E as [h [Hin Hval]].
  apply valid_implies_violated in Hval; [|apply Hv, Hin].
  specialize (Hp h Hin). unfold sat in Hp. lra.
Qed.

(* moving p toward the strictly feasible v, leaving weight e <= 1 - max_correction on p, repairs every violated row *)
Lemma combine_toward_correct bs hs v p e :
  in_box bs v -> strict_all hs v -> in_box bs p -> 0 <= e -> e <= 1 - max_correction hs v p ->
  in_box bs (combine_toward e p v) /\ sat_all hs (combine_toward e p v).
Proof.
  intros Bv Sv Bp He0 He. pose proof (max_correction_range hs v p) as Hmc.
  split; [apply in_box_combine; [lra|assumption|assumption]|].
  intros h Hin. unfold sat.
  rewrite dot_combine by (rewrite (in_box_length _ _ Bp), (in_box_length _ _ Bv); reflexivity).
  pose proof (Sv h Hin) as HV. unfold strict in HV.
  destruct (Qlt_le_dec (snd h) (dot (fst h) p)) as [L|L]; [|apply keep_satisfied; lra].
  destruct (violated_implies_valid v p h (Sv h Hin) L) as [Hval Hm].
  pose proof (max_correction_ge hs v p h Hin) as Hge. unfold masked in Hge. rewrite Hval, Hm in Hge.
  apply fix_violated; lra.
Qed.
Lemma no_correction_sat hs v p : strict_all hs v -> needs_correction hs v p = false -> sat_all hs p.
Proof.
  intros Sv E h Hin. unfold sat. destruct (Qlt_le_dec (snd h) (dot (fst h) p)) as [L|L]; [exfalso|exact L].
  destruct (violated_implies_valid v p h (Sv h Hin) L) as [Hval _].
  unfold needs_correction in E. rewrite <- not_true_iff_false in E. apply E, existsb_exists. exists h. split; assumption.
Qed.

Lemma restrict_one_correct bs hs v on p us :
  in_box bs v -> strict_all hs v -> in_box bs p -> Forall unit_interval us ->
  let r := restrict_one hs v on p us in
  in_box bs (fst r) /\ sat_all hs (fst r) /\ Forall unit_interval (snd r).
Proof.
  intros Bv Sv Bp Hus. cbv zeta. unfold restrict_one.
  destruct (needs_correction hs v p) eqn:E; [|split; [exact Bp|split; [exact (no_correction_sat hs v p Sv E)|exact Hus]]].
  pose proof (max_correction_range hs v p) as Hmc.
  assert (core : forall u us', unit_interval u -> Forall unit_interval us' ->
            in_box bs (combine_toward ((1 - max_correction hs v p) * u) p v) /\
            sat_all hs (combine_toward ((1 - max_correction hs v p) * u) p v) /\ Forall unit_interval us').
  { intros u us' [U0 U1] Hus'. apply and_assoc. split; [|exact Hus']. apply combine_toward_correct; try assumption; nra. }
  destruct on; [apply core; [split; lra|exact Hus]|].
  destruct us as [|u us']; [apply core; [split; lra|constructor]|].
  inversion Hus; subst. apply core; assumption.
Qed.

Lemma restrict_list_correct bs hs v on : in_box bs v -> strict_all hs v ->
  forall ps us, Forall (in_box bs) ps -> Forall unit_interval us ->
  let r := restrict_list hs v on ps us in
  Forall (in_box bs) (fst r) /\ Forall (sat_all hs) (fst r) /\ Forall unit_interval (snd r) /\ length (fst r) = length ps.
Proof.
  intros Bv Sv. induction ps as [|p ps IH]; intros us Hps Hus; cbv zeta; simpl.
  - repeat split; try constructor. exact Hus.
  - inversion Hps; subst.
    pose proof (restrict_one_correct bs hs v on p us Bv Sv H1 Hus) as R. cbv zeta in R.
    destruct (restrict_one hs v on p us) as [q us1]. simpl in R. destruct R as [R1 [R2 R3]].
    specialize (IH us1 H2 R3). cbv zeta in IH.
    destruct (restrict_list hs v on ps us1) as [qs us2]. simpl in *. destruct IH as [I1 [I2 [I3 I4]]].
    repeat split; try constructor; auto.
Qed.

Lemma restrict_list_unchanged hs v on : sat_all hs v ->
  forall ps us, Forall (sat_all hs) ps -> restrict_list hs v on ps us = (ps, us).
Proof.
  intros Hv. induction ps as [|p ps IH]; intros us Hps; simpl; [reflexivity|].
  inversion Hps; subst. rewrite (restrict_one_unchanged hs v on p us Hv H1). rewrite (IH us H2). reflexivity.
Qed.

Lemma clip_in_box : forall bs p, (forall b, In b bs -> fst b <= snd b) -> length p = length bs -> in_box bs (clip bs p).
Proof.
  induction bs as [|b bs IH]; intros [|x p] Hb Hl; simpl in Hl; try discriminate; [constructor|].
  unfold clip. simpl. constructor.
  - assert (B := Hb b (or_introl eq_refl)). unfold clip1.
    destruct (Qltb x (fst b)) eqn:E1; [lra|]. apply Qltb_ge in E1.
    destruct (Qltb (snd b) x) eqn:E2; [lra|]. apply Qltb_ge in E2. lra.
  - apply IH; [intros b' Hin; apply Hb; right; exact Hin|congruence].
Qed.
Lemma clip_id : forall bs p, in_box bs p -> clip bs p = p.
Proof.
  induction bs as [|b bs IH]; intros p Hp; inversion Hp as [|? x ? p' [H1 H2] H3]; subst; [reflexivity|].
  unfold clip. simpl. f_equal; [|apply IH, H3].
  unfold clip1. destruct (Qltb x (fst b)) eqn:E1; [apply Qltb_lt in E1; lra|].
  destruct (Qltb (snd b) x) eqn:E2; [apply Qltb_lt in E2; lra|reflexivity].
Qed.
Lemma in_box_bounds_ordered bs c : in_box bs c -> forall b, In b bs -> fst b <= snd b.
Proof.
  induction 1 as [|b x bs c [H1 H2] _ IH]; intros b' Hin; simpl in Hin; [contradiction|].
  destruct Hin as [->|Hin]; [lra|apply IH, Hin].
Qed.

Lemma dot_repeat0 : forall k x, dot (repeat 0 k) x == 0.
Proof. induction k as [|k IH]; intros [|xi x]; simpl; try reflexivity. rewrite IH. lra. Qed.
Lemma dot_skip : forall pre xs a y, length xs = pre -> dot (repeat 0 pre ++ a) (xs ++ y) == dot a y.
Proof.
  induction pre as [|pre IH]; intros [|xi xs] a y Hl; simpl in Hl; try discriminate; [reflexivity|].
  simpl. rewrite IH by congruence. lra.
Qed.
Lemma sat_all_cons h hs x : sat_all (h :: hs) x <-> sat x h /\ sat_all hs x.
Proof.
  unfold sat_all. split.
  - intros H. split; [apply H; left; reflexivity|intros h' Hin; apply H; right; exact Hin].
  - intros [H1 H2] h' [<-|Hin]; [exact H1|apply H2, Hin].
Qed.
Lemma forall_in_app {A} (P : A -> Prop) l1 l2 :
  (forall a, In a (l1 ++ l2) -> P a) <-> (forall a, In a l1 -> P a) /\ (forall a, In a l2 -> P a).
Proof.
  split.
  - intros H. split; intros a Hin; apply H, in_or_app; [left|right]; exact Hin.
  - intros [H1 H2] a Hin. apply in_app_or in Hin. destruct Hin; [apply H1|apply H2]; assumption.
Qed.
Lemma sat_all_app hs1 hs2 x : sat_all (hs1 ++ hs2) x <-> sat_all hs1 x /\ sat_all hs2 x.
Proof. exact (forall_in_app (sat x) hs1 hs2). Qed.
Lemma strict_all_app hs1 hs2 x : strict_all (hs1 ++ hs2) x <-> strict_all hs1 x /\ strict_all hs2 x.
Proof. exact (forall_in_app (strict x) hs1 hs2). Qed.

(* the row of coordinate `pre` with coefficient v reads v * x_pre *)
Lemma unit_row_dot v pre k xs xi x : length xs = pre ->
  dot (repeat 0 pre ++ v :: repeat 0 k) (xs ++ xi :: x) == v * xi.
Proof. intros Hp. rewrite dot_skip by exact Hp. simpl. rewrite dot_repeat0. lra. Qed.

Lemma bound_rows_sat_from : forall bs pre xs x, length xs = pre -> length x = length bs ->
  (sat_all (lower_rows pre bs ++ upper_rows pre bs) (xs ++ x) <-> in_box bs x).
Proof.
  induction bs as [|b bs IH]; intros pre xs [|xi x] Hp Hl; simpl in Hl; try discriminate.
  - split; [constructor|intros _ h []].
  - pose proof (unit_row_dot (-(1)) pre (length bs) xs xi x Hp) as El.
    pose proof (unit_row_dot 1 pre (length bs) xs xi x Hp) as Eu.
    specialize (IH (S pre) (xs ++ [xi]) x). rewrite <- app_assoc, app_length, Nat.add_1_r, Hp in IH. cbn [app] in IH.
    specialize (IH eq_refl (eq_add_S _ _ Hl)).
    cbn [lower_rows upper_rows]. split; intros H.
    + apply sat_all_app in H. destruct H as [HL HU]. apply sat_all_cons in HL, HU.
      destruct HL as [H1 HL], HU as [H2 HU]. unfold sat in H1, H2. cbn [fst snd] in H1, H2.
      constructor; [lra|]. apply IH, sat_all_app. split; assumption.
    + inversion H as [|? ? ? ? [H1 H2] H3]; subst. apply IH, sat_all_app in H3.
      apply sat_all_app. split; apply sat_all_cons; (split; [unfold sat; cbn [fst snd]; lra|apply H3]).
Qed.
Lemma bound_rows_sat bs x : length x = length bs ->
  (sat_all (lower_rows 0 bs ++ upper_rows 0 bs) x <-> in_box bs x).
Proof. apply (bound_rows_sat_from bs 0 []). reflexivity. Qed.

Lemma dot_opp : forall a y, dot (map Qopp a) y == - dot a y.
Proof. induction a as [|ai a IH]; intros [|yi y]; simpl; try reflexivity. rewrite IH. lra. Qed.
Lemma cons_rows_sat d x : sat_all (cons_rows d) x <-> forall c, In c (cstrs d) -> snd c <= dot (fst c) x.
Proof.
  unfold sat_all, cons_rows, sat. split.
  - intros H c Hc. specialize (H _ (in_map _ _ _ Hc)). cbn [fst snd] in H. pose proof (dot_opp (fst c) x). lra.
  - intros H h Hh. apply in_map_iff in Hh. destruct Hh as [c [<- Hc]]. cbn [fst snd].
    specialize (H c Hc). pose proof (dot_opp (fst c) x). lra.
Qed.

Lemma halfspaces_sat_iff d x : length x = length (bounds d) -> (sat_all (halfspaces d) x <-> feasible d x).
Proof.
  intros Hl. unfold halfspaces, feasible. rewrite sat_all_app, (bound_rows_sat _ _ Hl), cons_rows_sat. tauto.
Qed.

Lemma strict_sat hs x : strict_all hs x -> sat_all hs x.
Proof. intros H h Hin. specialize (H h Hin). unfold strict in H. unfold sat. lra. Qed.
Lemma sat_all_filter f hs x : sat_all hs x -> sat_all (filter f hs) x.
Proof. intros H h Hin. apply filter_In in Hin. apply H, Hin. Qed.
Lemma strict_all_filter f hs x : strict_all hs x -> strict_all (filter f hs) x.
Proof. intros H h Hin. apply filter_In in Hin. apply H, Hin. Qed.

Definition interior (d : domain) (c : point) : Prop := length c = length (bounds d) /\ strict_all (halfspaces d) c.

Lemma interior_in_box d c : interior d c -> in_box (bounds d) c.
Proof.
  intros [Hl Hs]. apply strict_sat in Hs. apply (halfspaces_sat_iff d c Hl) in Hs. apply Hs.
Qed.

Lemma viable_point_is_strict d c vp :
  is_constrained d = true -> interior d c -> interior d (select_viable d c vp).
Proof.
  intros Hc Hi. destruct vp as [v|]; simpl; [|exact Hi].
  destruct (acceptable d v) eqn:Ea; simpl; [|exact Hi].
  unfold acceptable in Ea. rewrite Hc in Ea. simpl in Ea. apply andb_true_iff in Ea. destruct Ea as [Eb Es].
  apply in_box_b_iff in Eb. apply sat_all_b_iff in Es.
  assert (Hlv : length v = length (bounds d)) by apply (in_box_length _ _ Eb).
  destruct Hi as [Hlc Hs].
  destruct (on_boundary d safety_margin v) eqn:Eo.
  - (* on a face: 99% of v (feasible) plus 1% of c (strictly feasible) *)
    assert (Hl : length v = length c) by congruence. split; [rewrite map2_length; congruence|].
    intros h Hin. unfold strict.
    rewrite (dot_map2_affine _ (1 - push_fraction) push_fraction) by (try exact Hl; intros; lra).
    specialize (Hs h Hin). specialize (Es h Hin). unfold strict in Hs. unfold sat in Es. unfold push_fraction. lra.
  - split; [exact Hlv|]. intros h Hin. unfold strict.
    destruct (Qlt_le_dec (dot (fst h) v) (snd h)) as [L|L]; [exact L|exfalso].
    specialize (Es h Hin). unfold sat in Es.
    assert (X : existsb (fun h => Qle_bool (Qabs (dot (fst h) v - snd h)) safety_margin) (halfspaces d) = true).
    { apply existsb_exists. exists h. split; [exact Hin|]. apply Qle_bool_iff. apply Qabs_Qle_condition.
      unfold safety_margin. split; lra. }
    unfold on_boundary in Eo. congruence.
Qed.

Theorem restrict_points_correct d c vp on us ps :
  interior d c -> Forall (fun p => length p = length (bounds d)) ps -> Forall unit_interval us ->
  let out := fst (restrict_points d c vp on us ps) in
  length out = length ps /\
  Forall (in_box (bounds d)) out /\
  Forall (sat_all (no_bound_rows (halfspaces d))) out.
Proof.
  intros Hi Hps Hus. cbv zeta. unfold restrict_points.
  assert (Bc : in_box (bounds d) c) by apply (interior_in_box _ _ Hi).
  assert (Hclip : Forall (in_box (bounds d)) (map (clip (bounds d)) ps)).
  { apply Forall_map. eapply Forall_impl; [|exact Hps]. intros p. apply clip_in_box, (in_box_bounds_ordered _ _ Bc). }
  destruct (is_constrained d) eqn:Ec.
  - pose proof (viable_point_is_strict d c vp Ec Hi) as Hv. set (v := select_viable d c vp) in *.
    pose proof (restrict_list_correct (bounds d) (no_bound_rows (halfspaces d)) v on
                  (interior_in_box _ _ Hv) (strict_all_filter _ _ _ (proj2 Hv)) _ us Hclip Hus) as R.
    cbv zeta in R. destruct R as [R1 [R2 [_ R4]]]. rewrite map_length in R4. auto.
  - cbn [fst]. rewrite map_length. split; [reflexivity|]. split; [exact Hclip|].
    (* no constraint rows: every remaining row is a bound row, satisfied inside the box *)
    eapply Forall_impl; [|exact Hclip]. intros q Hq.
    apply sat_all_filter, halfspaces_sat_iff; [apply in_box_length, Hq|].
    split; [exact Hq|]. unfold is_constrained in Ec. destruct (cstrs d); [intros ? []|discriminate].
Qed.

(* when every constraint has at least two non-zero weights (the property's precondition) the result is in the region *)
Lemma restrict_points_feasible d c vp on us ps :
  interior d c -> Forall (fun p => length p = length (bounds d)) ps -> Forall unit_interval us ->
  (forall h, In h (cons_rows d) -> (2 <= nnz (fst h))%nat) ->
  length (fst (restrict_points d c vp on us ps)) = length ps /\ Forall (feasible d) (fst (restrict_points d c vp on us ps)).
Proof.
  intros Hi Hps Hus Hnz.
  destruct (restrict_points_correct d c vp on us ps Hi Hps Hus) as [H0 [H1 H2]]. split; [exact H0|].
  eapply Forall_impl; [|exact (Forall_and H1 H2)]. intros q [B2 S2].
  split; [exact B2|]. apply cons_rows_sat. intros h Hin. apply S2. unfold no_bound_rows. apply filter_In. split.
  - unfold halfspaces. apply in_or_app. left. exact Hin.
  - apply Nat.ltb_lt. specialize (Hnz h Hin). lia.
Qed.
Theorem restrict_in_domain d c vp on us ps :
  interior d c -> Forall (fun p => length p = length (bounds d)) ps -> Forall unit_interval us ->
  (forall h, In h (cons_rows d) -> (2 <= nnz (fst h))%nat) ->
  Forall (feasible d) (fst (restrict_points d c vp on us ps)).
Proof. intros Hi Hps Hus Hnz. apply (restrict_points_feasible d c vp on us ps Hi Hps Hus Hnz). Qed.

Theorem restrict_fixes_feasible d c vp on us ps :
  interior d c -> Forall (feasible d) ps -> restrict_points d c vp on us ps = (ps, us).
Proof.
  intros Hi Hps. unfold restrict_points.
  assert (E : map (clip (bounds d)) ps = ps).
  { induction ps as [|p ps IH]; [reflexivity|]. inversion Hps; subst. simpl. rewrite IH by assumption.
    rewrite clip_id; [reflexivity|apply H1]. }
  rewrite E. destruct (is_constrained d) eqn:Ec; [|reflexivity].
  apply restrict_list_unchanged.
  - apply sat_all_filter, strict_sat. apply (viable_point_is_strict d c vp Ec Hi).
  - eapply Forall_impl; [|exact Hps]. intros p Hp.
    apply sat_all_filter, halfspaces_sat_iff; [apply in_box_length, Hp|exact Hp].
Qed.

Theorem near_point_in_domain d c pt on zs us out rest :
  interior d c -> Forall unit_interval us -> Forall (fun z => length z = length (bounds d)) zs ->
  (forall h, In h (cons_rows d) -> (2 <= nnz (fst h))%nat) ->
  near_point d c pt on zs us = Some (out, rest) ->
  length out = length zs /\ Forall (feasible d) out.
Proof.
  intros Hi Hus Hzs Hnz. unfold near_point. destruct (acceptable d pt) eqn:Ea; [|discriminate].
  intros E. injection E as E.
  assert (Hpt : length pt = length (bounds d)).
  { unfold acceptable in Ea. apply andb_true_iff in Ea. destruct Ea as [Eb _]. apply in_box_b_iff in Eb. apply in_box_length, Eb. }
  set (ps := map (fun z => map2 Qplus pt (map2 Qmult z (widths (bounds d)))) zs) in *.
  assert (Hps : Forall (fun p => length p = length (bounds d)) ps).
  { apply Forall_map. eapply Forall_impl; [|exact Hzs]. intros z Hz. cbv beta in Hz |- *.
    rewrite map2_length; [exact Hpt|]. rewrite map2_length; [congruence|]. unfold widths. rewrite map_length. exact Hz. }
  destruct (restrict_points_feasible d c (Some pt) on us ps Hi Hps Hus Hnz) as [R0 F].
  rewrite E in R0, F. cbn [fst] in R0, F. split; [|exact F]. rewrite R0. apply map_length.
Qed.

Lemma dot_set_nth_zero : forall a j val p, nth j a 0 == 0 -> dot a (set_nth j val p) == dot a p.
Proof.
  induction a as [|ai a IH]; intros j val [|x p] Hz; try reflexivity.
  - destruct j; reflexivity.
  - destruct j as [|j]; simpl in *.
    + nra.
    + rewrite (IH j val p Hz). reflexivity.
Qed.
Lemma in_box_set_nth : forall bs j val p, in_box bs p ->
  fst (nth j bs (0, 0)) <= val <= snd (nth j bs (0, 0)) -> in_box bs (set_nth j val p).
Proof.
  induction bs as [|b bs IH]; intros j val p Hp Hv; inversion Hp as [|? x ? p' Hx Hp']; subst; [destruct j; constructor|].
  destruct j as [|j]; simpl in *.
  - constructor; assumption.
  - constructor; [assumption|apply IH; assumption].
Qed.

(* a fixed index must not be mentioned by any constraint, and the value must lie in its bounds *)
Definition fixed_valid (d : domain) (fixed : list (nat * Q)) : Prop :=
  forall iv, In iv fixed ->
    (fst iv < length (bounds d))%nat /\
    fst (nth (fst iv) (bounds d) (0, 0)) <= snd iv <= snd (nth (fst iv) (bounds d) (0, 0)) /\
    forall c, In c (cstrs d) -> nth (fst iv) (fst c) 0 == 0.

Theorem fixed_point_feasible d fixed : fixed_valid d fixed -> forall p, feasible d p -> feasible d (fix_point fixed p).
Proof.
  unfold fix_point. induction fixed as [|iv fixed IH]; intros Hf p Hp; simpl; [exact Hp|].
  apply IH; [intros iv' Hin; apply Hf; right; exact Hin|].
  destruct (Hf iv (or_introl eq_refl)) as [H1 [H2 H3]]. destruct Hp as [Hb Hc]. split.
  - apply in_box_set_nth; assumption.
  - intros c Hin. rewrite dot_set_nth_zero; [apply Hc, Hin|apply H3, Hin].
Qed.

Theorem fixed_wrappers_in_domain d fixed c vp on us ps :
  interior d c -> Forall (fun p => length p = length (bounds d)) ps -> Forall unit_interval us ->
  (forall h, In h (cons_rows d) -> (2 <= nnz (fst h))%nat) -> fixed_valid d fixed ->
  Forall (feasible d) (fixed_restrict d fixed c vp on us ps).
Proof.
  intros Hi Hps Hus Hnz Hf. unfold fixed_restrict.
  pose proof (restrict_in_domain d c vp on us ps Hi Hps Hus Hnz) as F.
  apply Forall_map. eapply Forall_impl; [|exact F]. intros p. apply fixed_point_feasible, Hf.
Qed.
