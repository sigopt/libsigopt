(* C03: every Gram matrix of the SquareExponential kernel is positive semi-definite, for all n, dimensions, point sets and length scales,
   by a finite-dimensional argument: exp(-|u_a - u_b|^2 / 2) = g a * exp <u_a, u_b> * g b, exp is the limit of its series, and the matrix
   <u_a, u_b> has the factor u.  The class that carries the argument is that of SCHUR MULTIPLIERS (schur: the entrywise product with any
   PSD matrix is PSD): unlike "factored" or "PSD" it is closed under the entrywise product for free, and it is what the multitask kernel
   (physical kernel x task kernel) needs.
   In order: sums and limits of bigsum; closure of psdR and of schur (sums, limits, congruence, diagonal, exp); the Gaussian kernel of
   feature vectors; then, for any kernel whose generated entry points apply a profile phi to the weighted distance (radial_kernel) with
   phi(|u_a - u_b|) a Schur multiplier on every finite point set, the Gram matrices of the entry points and the multitask kernels; last
   SquareExponential as such a kernel. *)
From Coq Require Import Reals Psatz.
From Coquelicot Require Import Coquelicot.
From LV Require Import Lib.RBase Gen.GenCovariance Gen.GenMultitask Proofs.Hadamard Proofs.Covariance.
Open Scope R_scope.

Lemma bigsum_zero n : bigsum n (fun _ => 0) = 0.
Proof. induction n as [|n IH]; simpl; [reflexivity|rewrite IH; lra]. Qed.

Lemma bigsum_delta n a (f : nat -> R) : (a < n)%nat -> bigsum n (fun b => if Nat.eqb a b then f b else 0) = f a.
Proof.
  intros Ha. rewrite (bigsum_split n _ a Ha). rewrite Nat.eqb_refl.
  rewrite (bigsum_ext n _ (fun _ => 0)); [rewrite bigsum_zero; lra|].
  intros k _. destruct (Nat.eqb_spec k a) as [->|Hne]; [reflexivity|].
  destruct (Nat.eqb_spec a k); [congruence|reflexivity].
Qed.

Lemma bigsum_app m1 m2 (f : nat -> R) : bigsum (m1 + m2) f = bigsum m1 f + bigsum m2 (fun k => f (m1 + k)%nat).
Proof.
  induction m2 as [|m2 IH]; simpl.
  - rewrite Nat.add_0_r. lra.
  - rewrite Nat.add_succ_r. simpl. rewrite IH. lra.
Qed.

Lemma is_lim_seq_bigsum n (f : nat -> nat -> R) (l : nat -> R) :
  (forall k, (k < n)%nat -> is_lim_seq (fun N => f N k) (l k)) ->
  is_lim_seq (fun N => bigsum n (f N)) (bigsum n l).
Proof.
  induction n as [|n IH]; intros H; simpl.
  - apply is_lim_seq_const.
  - apply is_lim_seq_plus'; [apply IH; intros k Hk; apply H; lia|apply H; lia].
Qed.

Lemma sum_n_bigsum (f : nat -> R) N : sum_n f N = bigsum (S N) f.
Proof. induction N as [|N IH]; [rewrite sum_O; simpl; lra|rewrite sum_Sn, IH; reflexivity]. Qed.

Lemma exp_series_lim t : is_lim_seq (fun N => bigsum N (fun m => t ^ m / INR (fact m))) (exp t).
Proof.
  apply is_lim_seq_incr_1.
  apply is_lim_seq_ext with (sum_n (fun k => scal (pow_n t k) (/ INR (fact k)))).
  - intros N. rewrite sum_n_bigsum. apply bigsum_ext. intros k _. rewrite pow_n_pow. reflexivity.
  - exact (is_exp_Reals t).
Qed.

Lemma psd_zero n : psdR n (fun _ _ => 0).
Proof. intros v. apply bigsum_nonneg. intros a _. apply bigsum_nonneg. intros b _. right. lra. Qed.

Lemma psd_plus n K1 K2 : psdR n K1 -> psdR n K2 -> psdR n (fun a b => K1 a b + K2 a b).
Proof.
  intros H1 H2 v.
  rewrite (bigsum_ext n _ (fun a => bigsum n (fun b => v a * K1 a b * v b) + bigsum n (fun b => v a * K2 a b * v b))).
  - rewrite bigsum_plus. pose proof (H1 v). pose proof (H2 v). lra.
  - intros a _. rewrite <- bigsum_plus. apply bigsum_ext. intros; lra.
Qed.

Lemma psd_bigsum n N (K : nat -> nat -> nat -> R) :
  (forall m, (m < N)%nat -> psdR n (K m)) -> psdR n (fun a b => bigsum N (fun m => K m a b)).
Proof.
  induction N as [|N IH]; intros H; simpl.
  - apply psd_zero.
  - apply (psd_plus n (fun a b => bigsum N (fun m => K m a b)) (K N)); [apply IH; intros m Hm; apply H; lia|apply H; lia].
Qed.

(* substitute v a := g a * v a *)
Lemma psd_congr n (g : nat -> R) K : psdR n K -> psdR n (fun a b => g a * K a b * g b).
Proof.
  intros HK v.
  rewrite (bigsum_ext2 n n _ (fun a b => (g a * v a) * K a b * (g b * v b))) by (intros; ring).
  apply (HK (fun a => g a * v a)).
Qed.

(* for fixed v the quadratic form is a finite sum of products of the entries *)
Lemma psd_lim n (K : nat -> nat -> nat -> R) (Kl : nat -> nat -> R) :
  (forall N, psdR n (K N)) ->
  (forall a b, (a < n)%nat -> (b < n)%nat -> is_lim_seq (fun N => K N a b) (Kl a b)) ->
  psdR n Kl.
Proof.
  intros HK HL v.
  assert (Hlim : is_lim_seq (fun N => bigsum n (fun a => bigsum n (fun b => v a * K N a b * v b)))
                            (bigsum n (fun a => bigsum n (fun b => v a * Kl a b * v b)))).
  { apply (is_lim_seq_bigsum n (fun N a => bigsum n (fun b => v a * K N a b * v b))). intros a Ha.
    apply (is_lim_seq_bigsum n (fun N b => v a * K N a b * v b)). intros b Hb.
    apply is_lim_seq_mult'; [apply is_lim_seq_mult'|]; [apply is_lim_seq_const|apply HL; assumption|apply is_lim_seq_const]. }
  pose proof (is_lim_seq_le (fun _ => 0) _ 0 _ (fun N => HK N v) (is_lim_seq_const 0) Hlim) as Hle.
  exact Hle.
Qed.

(* v := the a-th unit vector *)
Lemma psd_diag_nonneg n K a : psdR n K -> (a < n)%nat -> 0 <= K a a.
Proof.
  intros HK Ha. pose proof (HK (fun c => if Nat.eqb a c then 1 else 0)) as H.
  rewrite (bigsum_ext n _ (fun c => if Nat.eqb a c then K c c else 0)) in H.
  - rewrite bigsum_delta in H by exact Ha. exact H.
  - intros c Hc. destruct (Nat.eqb_spec a c) as [<-|Hne].
    + rewrite (bigsum_ext n _ (fun b => if Nat.eqb a b then K a b else 0)).
      * apply bigsum_delta, Ha.
      * intros b _. destruct (Nat.eqb a b); lra.
    + rewrite (bigsum_ext n _ (fun _ => 0)) by (intros; ring). apply bigsum_zero.
Qed.

Lemma psd_diag n (d : nat -> R) : (forall a, (a < n)%nat -> 0 <= d a) -> psdR n (fun a b => if Nat.eqb a b then d a else 0).
Proof.
  intros Hd v. apply bigsum_nonneg. intros a Ha.
  rewrite (bigsum_ext n _ (fun b => if Nat.eqb a b then v a * d a * v b else 0)) by (intros b _; destruct (Nat.eqb a b); ring).
  rewrite bigsum_delta by exact Ha. specialize (Hd a Ha). nra.
Qed.

Definition schur (n : nat) (A : nat -> nat -> R) : Prop :=
  forall B, psdR n B -> psdR n (fun a b => A a b * B a b).

Lemma schur_factored n m A L : factored n m A L -> schur n A.
Proof. intros HF B HB. exact (hadamard_psd n m A L B HF HB). Qed.

Lemma schur_psdR n A : schur n A -> psdR n A.
Proof. intros HA. apply (psd_ext n (fun a b => A a b * 1)); [intros; lra|]. apply HA, psd_ones. Qed.

Lemma schur_ext n A A' : (forall a b, (a < n)%nat -> (b < n)%nat -> A a b = A' a b) -> schur n A -> schur n A'.
Proof.
  intros HE HA B HB. apply (psd_ext n (fun a b => A a b * B a b)); [|apply HA, HB].
  intros a b Ha Hb. rewrite (HE a b Ha Hb). reflexivity.
Qed.

Lemma schur_one n : schur n (fun _ _ => 1).
Proof. intros B HB. apply (psd_ext n B); [intros; lra|exact HB]. Qed.

Lemma schur_zero n : schur n (fun _ _ => 0).
Proof. intros B _. apply (psd_ext n (fun _ _ => 0)); [intros; lra|apply psd_zero]. Qed.

Lemma schur_mult n A A' : schur n A -> schur n A' -> schur n (fun a b => A a b * A' a b).
Proof.
  intros HA HA' B HB. apply (psd_ext n (fun a b => A a b * (A' a b * B a b))); [intros; lra|].
  apply HA. apply HA', HB.
Qed.

Lemma schur_pow n A p : schur n A -> schur n (fun a b => A a b ^ p).
Proof.
  intros HA. induction p as [|p IH]; simpl.
  - apply schur_one.
  - apply (schur_mult n A (fun a b => A a b ^ p)); assumption.
Qed.

Lemma schur_scale n c A : 0 <= c -> schur n A -> schur n (fun a b => c * A a b).
Proof.
  intros Hc HA B HB. apply (psd_ext n (fun a b => c * (A a b * B a b))); [intros; lra|].
  apply psd_scale; [exact Hc|apply HA, HB].
Qed.

Lemma schur_plus n A A' : schur n A -> schur n A' -> schur n (fun a b => A a b + A' a b).
Proof.
  intros HA HA' B HB. apply (psd_ext n (fun a b => A a b * B a b + A' a b * B a b)); [intros; lra|].
  apply (psd_plus n (fun a b => A a b * B a b) (fun a b => A' a b * B a b)); [apply HA|apply HA']; exact HB.
Qed.

Lemma schur_bigsum n N (A : nat -> nat -> nat -> R) :
  (forall m, (m < N)%nat -> schur n (A m)) -> schur n (fun a b => bigsum N (fun m => A m a b)).
Proof.
  intros H B HB. apply (psd_ext n (fun a b => bigsum N (fun m => A m a b * B a b))); [intros; apply bigsum_scal_r|].
  apply (psd_bigsum n N (fun m a b => A m a b * B a b)). intros m Hm. apply (H m Hm), HB.
Qed.

Lemma schur_lim n (A : nat -> nat -> nat -> R) (Al : nat -> nat -> R) :
  (forall N, schur n (A N)) ->
  (forall a b, (a < n)%nat -> (b < n)%nat -> is_lim_seq (fun N => A N a b) (Al a b)) ->
  schur n Al.
Proof.
  intros HA HL B HB. apply (psd_lim n (fun N a b => A N a b * B a b)).
  - intros N. apply HA, HB.
  - intros a b Ha Hb. apply is_lim_seq_mult'; [apply HL; assumption|apply is_lim_seq_const].
Qed.

Lemma schur_congr n (g : nat -> R) A : schur n A -> schur n (fun a b => g a * A a b * g b).
Proof.
  intros HA B HB. apply (psd_ext n (fun a b => A a b * (g a * B a b * g b))); [intros; lra|].
  apply HA. apply psd_congr, HB.
Qed.

Lemma schur_diag n (d : nat -> R) : (forall a, (a < n)%nat -> 0 <= d a) -> schur n (fun a b => if Nat.eqb a b then d a else 0).
Proof.
  intros Hd B HB. apply (psd_ext n (fun a b => if Nat.eqb a b then d a * B a a else 0)).
  - intros a b _ _. destruct (Nat.eqb_spec a b) as [->|_]; lra.
  - apply (psd_diag n (fun a => d a * B a a)). intros a Ha.
    apply Rmult_le_pos; [apply Hd, Ha|apply (psd_diag_nonneg n B a HB Ha)].
Qed.

Lemma exp_partial_schur n A N : schur n A -> schur n (fun a b => bigsum N (fun m => A a b ^ m / INR (fact m))).
Proof.
  intros HA. apply (schur_bigsum n N (fun m a b => A a b ^ m / INR (fact m))). intros m _.
  apply (schur_ext n (fun a b => / INR (fact m) * A a b ^ m)); [intros; unfold Rdiv; lra|].
  apply schur_scale; [left; apply Rinv_0_lt_compat, INR_fact_lt_0|apply schur_pow, HA].
Qed.

Lemma exp_schur n A : schur n A -> schur n (fun a b => exp (A a b)).
Proof.
  intros HA. apply (schur_lim n (fun N a b => bigsum N (fun m => A a b ^ m / INR (fact m)))).
  - intros N. apply exp_partial_schur, HA.
  - intros a b _ _. apply exp_series_lim.
Qed.

Definition dotu (m : nat) (u : nat -> nat -> R) (a b : nat) : R := bigsum m (fun k => u a k * u b k).
Definition gaussu (m : nat) (u : nat -> nat -> R) (a b : nat) : R := exp (- (1/2) * bigsum m (fun k => (u a k - u b k) ^ 2)).

Lemma gaussu_split m u a b :
  gaussu m u a b = exp (- (1/2) * dotu m u a a) * exp (dotu m u a b) * exp (- (1/2) * dotu m u b b).
Proof.
  unfold gaussu, dotu. rewrite <- !exp_plus. f_equal.
  rewrite <- (expand_square m (fun k => u a k) (fun k => u b k)).
  rewrite (bigsum_ext m (fun k => u a k ^ 2) (fun k => u a k * u a k)) by (intros; ring).
  rewrite (bigsum_ext m (fun k => u b k ^ 2) (fun k => u b k * u b k)) by (intros; ring).
  lra.
Qed.

Theorem gaussu_schur n m u : schur n (gaussu m u).
Proof.
  apply (schur_ext n (fun a b => exp (- (1/2) * dotu m u a a) * exp (dotu m u a b) * exp (- (1/2) * dotu m u b b))).
  - intros a b _ _. symmetry. apply gaussu_split.
  - apply (schur_congr n (fun a => exp (- (1/2) * dotu m u a a)) (fun a b => exp (dotu m u a b))).
    apply exp_schur. apply (schur_factored n m _ u). intros a b _ _. reflexivity.
Qed.

Theorem gaussu_psd n m u : psdR n (gaussu m u).
Proof. apply schur_psdR, gaussu_schur. Qed.

(* concatenated coordinates: the product of two Gaussian kernels on disjoint coordinate blocks is ONE Gaussian kernel *)
Definition concat (m1 : nat) (u w : nat -> nat -> R) (a k : nat) : R := if Nat.ltb k m1 then u a k else w a (k - m1)%nat.
Definition cat (m : nat) (f g : nat -> R) (k : nat) : R := if Nat.ltb k m then f k else g (k - m)%nat.

Lemma bigsum_cat m1 m2 f g : bigsum (m1 + m2) (cat m1 f g) = bigsum m1 f + bigsum m2 g.
Proof.
  rewrite bigsum_app. f_equal; apply bigsum_ext; intros k Hk; unfold cat.
  - destruct (Nat.ltb_spec k m1); [reflexivity|lia].
  - destruct (Nat.ltb_spec (m1 + k) m1); [lia|]. f_equal. lia.
Qed.

Lemma gaussu_concat m1 m2 u w a b : gaussu m1 u a b * gaussu m2 w a b = gaussu (m1 + m2) (concat m1 u w) a b.
Proof.
  unfold gaussu. rewrite <- exp_plus. f_equal.
  rewrite (bigsum_ext (m1 + m2) _ (cat m1 (fun k => (u a k - u b k) ^ 2) (fun k => (w a k - w b k) ^ 2))).
  - rewrite bigsum_cat. lra.
  - intros k _. unfold concat, cat. destruct (Nat.ltb k m1); reflexivity.
Qed.

Definition du2 (m : nat) (u : nat -> nat -> R) (a b : nat) : R := bigsum m (fun k => (u a k - u b k) ^ 2).
Definition sdist (dim : nat) (ls p q : nat -> R) : R := sqrt (bigsum dim (fun k => (p k / ls k - q k / ls k) ^ 2)).

Lemma sumsq_nonneg n (f : nat -> R) : 0 <= bigsum n (fun k => f k ^ 2).
Proof. apply bigsum_nonneg. intros k _. apply pow2_ge_0. Qed.

Lemma du2_nonneg m u a b : 0 <= du2 m u a b.
Proof. apply sumsq_nonneg. Qed.

Lemma sdist_du2 dim ls (xs : nat -> nat -> R) a b : sdist dim ls (xs a) (xs b) = sqrt (du2 dim (fun a k => xs a k / ls k) a b).
Proof. reflexivity. Qed.

Lemma sdist_sym dim ls p q : sdist dim ls p q = sdist dim ls q p.
Proof. unfold sdist. f_equal. apply bigsum_ext. intros k _. lra. Qed.
Lemma sdist_refl dim ls p : sdist dim ls p p = 0.
Proof. unfold sdist. rewrite (bigsum_ext dim _ (fun _ => 0)) by (intros; ring). rewrite bigsum_zero. apply sqrt_0. Qed.

(* the squared distance of two points p q under the length scales ls as the generated code writes it (no condition on ls: x / 0 is a
   real number): kernel_matrix_cross by the clamped expansion, covariance / _covariance by dividing the differences *)
Lemma cross_d2 dim (ls p q : nat -> R) :
  Rmax 0 (bigsum dim (fun k => (p k / ls k) ^ 2) + bigsum dim (fun k => (q k / ls k) ^ 2)
          - 2 * bigsum dim (fun k => p k / ls k * (q k / ls k)))
  = bigsum dim (fun k => (p k / ls k - q k / ls k) ^ 2).
Proof.
  rewrite (expand_square dim (fun k => p k / ls k) (fun k => q k / ls k)).
  apply Rmax_right, sumsq_nonneg.
Qed.
Lemma pair_d2 dim (ls p q : nat -> R) :
  bigsum dim (fun k => ((p k - q k) / ls k) ^ 2) = bigsum dim (fun k => (p k / ls k - q k / ls k) ^ 2).
Proof. apply bigsum_ext. intros k _. unfold Rdiv. lra. Qed.

(* what the four entry points regenerated from covariance.py compute for a kernel with profile phi: _covariance and covariance on row i
   of two point sets, kernel_matrix_cross (ROW i = point i of its second point set, COLUMN j = point j of the first), kernel_matrix_sym *)
Record radial_kernel (phi : R -> R)
    (kcov_ kcov : nat -> (nat -> nat -> R) -> (nat -> nat -> R) -> (nat -> R) -> (nat -> R) -> (nat -> R) -> R -> nat -> R)
    (kcross : nat -> (nat -> nat -> R) -> (nat -> nat -> R) -> (nat -> R) -> (nat -> R) -> (nat -> R) -> R -> nat -> nat -> R)
    (ksym : nat -> (nat -> nat -> R) -> (nat -> R) -> (nat -> R) -> (nat -> R) -> (nat -> R) -> R -> nat -> nat -> R) : Prop := {
  cov_profile_ : forall dim x z ls lsq lcu alpha i, kcov_ dim x z ls lsq lcu alpha i = phi (sdist dim ls (x i) (z i));
  cov_profile : forall dim x z ls lsq lcu alpha i, kcov dim x z ls lsq lcu alpha i = alpha * phi (sdist dim ls (x i) (z i));
  cross_profile : forall dim xs xe ls lsq lcu alpha i j,
    kcross dim xs xe ls lsq lcu alpha i j = alpha * phi (sdist dim ls (xe i) (xs j));
  sym_profile : forall dim xs noise ls lsq lcu alpha a b,
    ksym dim xs noise ls lsq lcu alpha a b = alpha * phi (sdist dim ls (xs a) (xs b)) + (if Nat.eqb a b then noise a else 0) }.
Arguments cov_profile_ {phi kcov_ kcov kcross ksym}.
Arguments cov_profile {phi kcov_ kcov kcross ksym}.
Arguments cross_profile {phi kcov_ kcov kcross ksym}.
Arguments sym_profile {phi kcov_ kcov kcross ksym}.

(* Gram matrices over one point set xs: Schur multipliers as soon as phi(|u_a - u_b|) is one for every finite point set u *)
Section RadialGram.
Context {phi : R -> R} {kcov_ kcov kcross ksym} (HK : radial_kernel phi kcov_ kcov kcross ksym).
Hypothesis phi_schur : forall n m u, schur n (fun a b => phi (sqrt (du2 m u a b))).

Lemma radial_schur n dim xs ls alpha (A : nat -> nat -> R) :
  0 <= alpha -> (forall a b, A a b = alpha * phi (sdist dim ls (xs a) (xs b))) -> schur n A.
Proof.
  intros Ha HA. apply (schur_ext n (fun a b => alpha * phi (sqrt (du2 dim (fun a k => xs a k / ls k) a b)))).
  - intros a b _ _. rewrite HA, sdist_du2. reflexivity.
  - apply schur_scale; [exact Ha|apply phi_schur].
Qed.

(* covariance(x, z)[i] on the pairs (point a, point b) of one set, and _covariance (no process variance) *)
Theorem radial_pair_schur_ n dim xs ls lsq lcu alpha i :
  schur n (fun a b => kcov_ dim (fun _ => xs a) (fun _ => xs b) ls lsq lcu alpha i).
Proof. apply (radial_schur n dim xs ls 1 _ Rle_0_1). intros a b. rewrite (cov_profile_ HK). lra. Qed.
Theorem radial_pair_schur n dim xs ls lsq lcu alpha i : 0 <= alpha ->
  schur n (fun a b => kcov dim (fun _ => xs a) (fun _ => xs b) ls lsq lcu alpha i).
Proof. intros Ha. apply (radial_schur n dim xs ls alpha _ Ha). intros a b. rewrite (cov_profile HK). reflexivity. Qed.
Theorem radial_cross_schur n dim xs ls lsq lcu alpha : 0 <= alpha ->
  schur n (fun a b => kcross dim xs xs ls lsq lcu alpha a b).
Proof. intros Ha. apply (radial_schur n dim xs ls alpha _ Ha). intros a b. rewrite (cross_profile HK). reflexivity. Qed.
Theorem radial_sym_schur n dim xs noise ls lsq lcu alpha : 0 <= alpha -> (forall j, 0 <= noise j) ->
  schur n (fun a b => ksym dim xs noise ls lsq lcu alpha a b).
Proof.
  intros Ha Hn.
  apply (schur_ext n (fun a b => alpha * phi (sdist dim ls (xs a) (xs b)) + (if Nat.eqb a b then noise a else 0))).
  - intros a b _ _. rewrite (sym_profile HK). reflexivity.
  - apply (schur_plus n (fun a b => alpha * phi (sdist dim ls (xs a) (xs b))) (fun a b => if Nat.eqb a b then noise a else 0)).
    + apply (radial_schur n dim xs ls alpha _ Ha). reflexivity.
    + apply schur_diag. intros a _. apply Hn.
Qed.
Theorem radial_sym_psd n dim xs noise ls lsq lcu alpha : 0 <= alpha -> (forall j, 0 <= noise j) ->
  psdR n (fun a b => ksym dim xs noise ls lsq lcu alpha a b).
Proof. intros Ha Hn. apply schur_psdR, radial_sym_schur; assumption. Qed.
End RadialGram.

(* the multitask kernel: MultitaskTensorCovariance._covariance multiplies the physical and the task value, so its Gram matrix is the
   entrywise product of the two Gram matrices: PSD when one is a Schur multiplier and the other PSD *)
Lemma multitask_psd_l n (P T : nat -> nat -> R) pg tg ph th : schur n P -> psdR n T ->
  psdR n (fun a b => GenMultitask._covariance (fun _ => P a b) (fun _ => T a b) pg tg ph th 0%nat).
Proof. intros HP HT. exact (HP T HT). Qed.
Lemma multitask_psd_r n (P T : nat -> nat -> R) pg tg ph th : psdR n P -> schur n T ->
  psdR n (fun a b => GenMultitask._covariance (fun _ => P a b) (fun _ => T a b) pg tg ph th 0%nat).
Proof.
  intros HP HT. apply (psd_ext n (fun a b => T a b * P a b)); [|exact (HT P HP)].
  intros. unfold GenMultitask._covariance. lra.
Qed.

(* physical and task kernel both radial with Schur profiles (in the library the task kernel is SquareExponential on the task
   coordinate, dimt = 1) *)
Section RadialMultitask.
Context {phi : R -> R} {kcov_ kcov kcross ksym} (HK : radial_kernel phi kcov_ kcov kcross ksym).
Context {psi : R -> R} {tcov_ tcov tcross tsym} (HT : radial_kernel psi tcov_ tcov tcross tsym).
Hypothesis phi_schur : forall n m u, schur n (fun a b => phi (sqrt (du2 m u a b))).
Hypothesis psi_schur : forall n m u, schur n (fun a b => psi (sqrt (du2 m u a b))).

(* process variance alpha >= 0 applied to the product, as the library does *)
Theorem radial_multitask_psd n dim xs ls lsq lcu alphap dimt ts lst lsqt lcut alphat alpha pg tg ph th :
  0 <= alpha ->
  psdR n (fun a b => alpha * GenMultitask._covariance
                       (fun i => kcov_ dim (fun _ => xs a) (fun _ => xs b) ls lsq lcu alphap i)
                       (fun i => tcov_ dimt (fun _ => ts a) (fun _ => ts b) lst lsqt lcut alphat i) pg tg ph th 0%nat).
Proof.
  intros Ha. apply psd_scale; [exact Ha|].
  apply (multitask_psd_l n (fun a b => kcov_ dim (fun _ => xs a) (fun _ => xs b) ls lsq lcu alphap 0%nat)
                           (fun a b => tcov_ dimt (fun _ => ts a) (fun _ => ts b) lst lsqt lcut alphat 0%nat) pg tg ph th).
  - apply (radial_pair_schur_ HK phi_schur).
  - apply schur_psdR, (radial_pair_schur_ HT psi_schur).
Qed.

(* the kernel-matrix path: _build_kernel_matrix multiplies the two kernel matrices entrywise; the physical one may carry the noise *)
Theorem radial_multitask_matrix_psd n dim xs noise ls lsq lcu alpha dimt ts lst lsqt lcut alphat pg tg ph th :
  0 <= alpha -> 0 <= alphat -> (forall j, 0 <= noise j) ->
  psdR n (fun a b => GenMultitask._covariance
                       (fun _ => ksym dim xs noise ls lsq lcu alpha a b)
                       (fun _ => tcross dimt ts ts lst lsqt lcut alphat a b) pg tg ph th 0%nat).
Proof.
  intros Ha Hat Hn.
  apply (multitask_psd_l n (fun a b => ksym dim xs noise ls lsq lcu alpha a b) (fun a b => tcross dimt ts ts lst lsqt lcut alphat a b)
           pg tg ph th).
  - apply (radial_sym_schur HK phi_schur); assumption.
  - apply schur_psdR, (radial_cross_schur HT psi_schur), Hat.
Qed.
End RadialMultitask.

Lemma phiSE_sqrt d : 0 <= d -> exp (- (1 / 2) * d) = phiSE (sqrt d).
Proof. exact (valSE_profile d). Qed.

Lemma SE_kernel : radial_kernel phiSE SquareExponential._covariance SquareExponential.covariance
                    SquareExponential.kernel_matrix_cross SquareExponential.kernel_matrix_sym.
Proof.
  split; intros.
  - unfold SquareExponential._covariance. rewrite pair_d2. unfold phiSE, sdist. f_equal. lra.
  - unfold SquareExponential.covariance. rewrite pair_d2. unfold phiSE, sdist. f_equal. f_equal. lra.
  - unfold SquareExponential.kernel_matrix_cross. rewrite cross_d2, phiSE_sqrt by apply sumsq_nonneg. reflexivity.
  - unfold SquareExponential.kernel_matrix_sym. rewrite phiSE_sqrt by apply sumsq_nonneg. reflexivity.
Qed.

Theorem SE_profile_schur n m u : schur n (fun a b => phiSE (sqrt (du2 m u a b))).
Proof.
  apply (schur_ext n (gaussu m u)); [|apply gaussu_schur].
  intros a b _ _. apply phiSE_sqrt, du2_nonneg.
Qed.

(* SE x SE on disjoint coordinate blocks is ONE SquareExponential kernel on the concatenated coordinates with the concatenated length
   scales: the multitask kernel with two SquareExponential factors IS a SquareExponential kernel in dim + dimt coordinates *)
Theorem SE_product_is_SE dim dimt x z t s ls lst lsq lcu alpha lsq' lcu' alpha' lsq'' lcu'' alpha'' i :
  SquareExponential._covariance dim x z ls lsq lcu alpha i * SquareExponential._covariance dimt t s lst lsq' lcu' alpha' i
  = SquareExponential._covariance (dim + dimt) (fun j => cat dim (x j) (t j)) (fun j => cat dim (z j) (s j)) (cat dim ls lst)
      lsq'' lcu'' alpha'' i.
Proof.
  unfold SquareExponential._covariance. rewrite !pow2_sqrt by apply sumsq_nonneg.
  rewrite <- exp_plus. f_equal.
  rewrite (bigsum_ext (dim + dimt) _ (cat dim (fun k => ((x i k - z i k) / ls k) ^ 2) (fun k => ((t i k - s i k) / lst k) ^ 2))).
  - rewrite bigsum_cat. lra.
  - intros k _. unfold cat. destruct (Nat.ltb k dim); reflexivity.
Qed.
