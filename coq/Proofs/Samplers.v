(* C08: every sampler returns points of the (constrained) box; Latin hypercube strata.  One part per sampler (cube, Latin
   hypercube, rejection, hit-and-run, grid); the facts about seq, floor, firstn, folds and quotients a part needs stand in it,
   before their first use. *)
From Coq Require Import List QArith Qround Lia Lqa Permutation.
From LV Require Import Model.Restrict Model.Samplers Proofs.Restrict.
Import ListNotations.
Open Scope Q_scope.

Definition ordered_bounds (bs : list (Q * Q)) : Prop := forall b, In b bs -> fst b <= snd b.

Theorem cube_transform_in_box : forall bs u, ordered_bounds bs -> length u = length bs -> Forall unit_interval u ->
  in_box bs (cube_transform bs u).
Proof.
  induction bs as [|b bs IH]; intros [|ui u] Hb Hl Hu; simpl in Hl; try discriminate; [constructor|].
  inversion Hu as [|? ? [U0 U1] Hu']; subst. unfold cube_transform. simpl. constructor.
  - assert (B := Hb b (or_introl eq_refl)). split; nra.
  - apply IH; [intros b' Hin; apply Hb; right; exact Hin|congruence|exact Hu'].
Qed.

Theorem cube_sampler_in_box bs rows : ordered_bounds bs ->
  Forall (fun u => length u = length bs /\ Forall unit_interval u) rows -> Forall (in_box bs) (cube_sampler bs rows).
Proof.
  intros Hb Hr. unfold cube_sampler. apply Forall_map. eapply Forall_impl; [|exact Hr].
  intros u [Hl Hu]. apply cube_transform_in_box; assumption.
Qed.

Lemma nth_map_seq {A} (f : nat -> A) n i d : (i < n)%nat -> nth i (map f (seq 0 n)) d = f i.
Proof.
  intros Hi. rewrite (nth_indep _ d (f O)) by (rewrite map_length, seq_length; exact Hi).
  rewrite map_nth. rewrite seq_nth by exact Hi. reflexivity.
Qed.

Lemma Qfloor_unique (y : Q) (k : Z) : inject_Z k <= y -> y < inject_Z (k + 1) -> Qfloor y = k.
Proof.
  intros H1 H2.
  assert (A : (k <= Qfloor y)%Z). { rewrite <- (Qfloor_Z k). apply Qfloor_resp_le, H1. }
  assert (B : (Qfloor y < k + 1)%Z). { rewrite Zlt_Qlt. eapply Qle_lt_trans; [apply Qfloor_le|exact H2]. }
  lia.
Qed.

Definition lhs_draws_ok (n dim : nat) (U : list point) : Prop :=
  forall k j, (k < n)%nat -> (j < dim)%nat -> 0 <= nth j (nth k U []) 0 /\ nth j (nth k U []) 0 < 1 / inject_Z (Z.of_nat n).

Lemma lhs_entry n dim U perms i j : (i < n)%nat -> (j < dim)%nat ->
  nth j (nth i (lhs_unit n dim U perms) []) 0 =
  (let k := nth i (nth j perms []) O in inject_Z (Z.of_nat k) / inject_Z (Z.of_nat n) + nth j (nth k U []) 0).
Proof. intros Hi Hj. unfold lhs_unit. rewrite nth_map_seq by exact Hi. rewrite nth_map_seq by exact Hj. reflexivity. Qed.

Lemma inject_nat_le (i k : nat) : (i <= k)%nat -> inject_Z (Z.of_nat i) <= inject_Z (Z.of_nat k).
Proof. intro H. rewrite <- Zle_Qle. lia. Qed.
Lemma inject_nat_pos (n : nat) : (0 < n)%nat -> 0 < inject_Z (Z.of_nat n).
Proof. intro H. change 0 with (inject_Z 0). rewrite <- Zlt_Qlt. lia. Qed.

Lemma lhs_value_range n (k : nat) u : (k < n)%nat -> 0 <= u -> u < 1 / inject_Z (Z.of_nat n) ->
  let x := inject_Z (Z.of_nat k) / inject_Z (Z.of_nat n) + u in
  inject_Z (Z.of_nat k) <= inject_Z (Z.of_nat n) * x /\ inject_Z (Z.of_nat n) * x < inject_Z (Z.of_nat k + 1) /\ 0 <= x /\ x <= 1.
Proof.
  intros Hk U0 U1. cbv zeta.
  assert (HN : 0 < inject_Z (Z.of_nat n)) by (apply inject_nat_pos; lia).
  pose proof (inject_nat_le 0 k (Nat.le_0_l k)) as HK. pose proof (inject_nat_le (S k) n Hk) as HKN.
  rewrite Nat2Z.inj_succ in HKN. unfold Z.succ in HKN. rewrite inject_Z_plus in *. change (inject_Z 1) with 1 in *.
  change (inject_Z (Z.of_nat 0)) with 0 in HK.
  set (N := inject_Z (Z.of_nat n)) in *. set (K := inject_Z (Z.of_nat k)) in *.
  pose proof (Qmult_div_r K N) as Eq. pose proof (Qmult_div_r 1 N) as Ew.
  set (q := K / N) in *. set (w := 1 / N) in *.
  repeat split; nra.
Qed.

Lemma perm_nth_lt n (l : list nat) i : Permutation (seq 0 n) l -> (i < n)%nat -> (nth i l O < n)%nat.
Proof.
  intros HP Hi. assert (I : In (nth i l O) l) by (apply nth_In; rewrite <- (Permutation_length HP), seq_length; exact Hi).
  apply (Permutation_in _ (Permutation_sym HP)), in_seq in I. lia.
Qed.

Theorem lhs_stratum n dim U perms i j : lhs_draws_ok n dim U -> (i < n)%nat -> (j < dim)%nat ->
  (nth i (nth j perms []) O < n)%nat ->
  stratum n (nth j (nth i (lhs_unit n dim U perms) []) 0) = Z.of_nat (nth i (nth j perms []) O).
Proof.
  intros HU Hi Hj Hk. rewrite lhs_entry by assumption. cbv zeta. set (k := nth i (nth j perms []) O) in *.
  destruct (HU k j Hk Hj) as [U0 U1].
  destruct (lhs_value_range n k _ Hk U0 U1) as [A [B _]]. unfold stratum. apply Qfloor_unique; assumption.
Qed.

Lemma lhs_unit_length n dim U perms : length (lhs_unit n dim U perms) = n.
Proof. unfold lhs_unit. rewrite map_length. apply seq_length. Qed.

(* in every dimension the strata of the n points are that dimension's own permutation of 0..n-1: exactly one point per
   stratum, and the model takes one permutation per dimension, independently *)
Theorem lhs_one_per_stratum n dim U perms j : lhs_draws_ok n dim U -> (j < dim)%nat ->
  Permutation (seq 0 n) (nth j perms []) ->
  strata_of_dim n j (lhs_unit n dim U perms) = map Z.of_nat (nth j perms []) /\
  Permutation (map Z.of_nat (seq 0 n)) (strata_of_dim n j (lhs_unit n dim U perms)).
Proof.
  intros HU Hj HP. set (pj := nth j perms []) in *.
  assert (Hlen : length pj = n). { rewrite <- (Permutation_length HP). apply seq_length. }
  assert (E : strata_of_dim n j (lhs_unit n dim U perms) = map Z.of_nat pj).
  { unfold strata_of_dim. apply (nth_ext _ _ (stratum n (nth j [] 0)) (Z.of_nat 0)); rewrite map_length, lhs_unit_length.
    - rewrite map_length. symmetry. exact Hlen.
    - intros i Hi. rewrite (map_nth (fun p => stratum n (nth j p 0))), (map_nth Z.of_nat).
      apply lhs_stratum; [exact HU|exact Hi|exact Hj|exact (perm_nth_lt n pj i HP Hi)]. }
  split; [exact E|]. rewrite E. apply Permutation_map, HP.
Qed.

Theorem lhs_points_in_box bs n U perms : ordered_bounds bs -> lhs_draws_ok n (length bs) U ->
  (forall j, (j < length bs)%nat -> Permutation (seq 0 n) (nth j perms [])) ->
  length (lhs_points bs n U perms) = n /\ Forall (in_box bs) (lhs_points bs n U perms).
Proof.
  intros Hb HU HP. unfold lhs_points. split.
  - unfold cube_sampler. rewrite map_length. apply lhs_unit_length.
  - apply cube_sampler_in_box; [exact Hb|]. unfold lhs_unit. apply Forall_forall. intros row Hr.
    apply in_map_iff in Hr. destruct Hr as [i [<- Hi]]. apply in_seq in Hi. split; [rewrite map_length; apply seq_length|].
    apply Forall_forall. intros x Hx. apply in_map_iff in Hx. destruct Hx as [j [<- Hj]]. apply in_seq in Hj.
    assert (Hk : (nth i (nth j perms []) O < n)%nat) by (apply perm_nth_lt; [apply HP|]; lia).
    destruct (HU _ j Hk ltac:(lia)) as [U0 U1].
    destruct (lhs_value_range n _ _ Hk U0 U1) as [_ [_ [X0 X1]]]. split; assumption.
Qed.

Lemma firstn_In {A} (n : nat) (l : list A) x : In x (firstn n l) -> In x l.
Proof. intros H. rewrite <- (firstn_skipn n l). apply in_or_app. left. exact H. Qed.
Lemma Forall_firstn_skipn {A} (P : A -> Prop) n l : Forall P l -> Forall P (firstn n l) /\ Forall P (skipn n l).
Proof. intro H. rewrite <- (firstn_skipn n l) in H. apply Forall_app, H. Qed.

Lemma rejection_loop_inv hs bsz (P : point -> Prop) : forall blocks acc lft budget,
  Forall P acc -> (forall blk p, In blk blocks -> In p blk -> sat_all hs p -> P p) ->
  Forall P (fst (rejection_loop hs bsz blocks acc lft budget)).
Proof.
  induction blocks as [|blk blocks IH]; intros acc lft budget Ha Hb; simpl.
  - destruct (Z.ltb 0 lft && Z.ltb 0 budget); exact Ha.
  - destruct (Z.ltb 0 lft && Z.ltb 0 budget); [|exact Ha].
    apply IH.
    + apply Forall_app. split; [exact Ha|]. apply Forall_forall. intros p Hp. apply filter_In in Hp. destruct Hp as [Hp Hs].
      apply (Hb blk p); [left; reflexivity|exact Hp|apply sat_all_b_iff, Hs].
    + intros blk' p Hin. apply Hb. right. exact Hin.
Qed.
Lemma rejection_loop_count hs bsz : forall blocks acc lft budget,
  snd (rejection_loop hs bsz blocks acc lft budget) =
  (lft + Z.of_nat (length acc) - Z.of_nat (length (fst (rejection_loop hs bsz blocks acc lft budget))))%Z.
Proof.
  induction blocks as [|blk blocks IH]; intros acc lft budget; simpl.
  - destruct (Z.ltb 0 lft && Z.ltb 0 budget); simpl; lia.
  - destruct (Z.ltb 0 lft && Z.ltb 0 budget); simpl; [|lia]. rewrite IH. rewrite app_length. lia.
Qed.

(* every point handed back satisfies every row and comes from a candidate block; success means exactly num points *)
Theorem rejection_outputs_feasible hs num bsz budget blocks (R : point -> Prop) :
  (forall blk p, In blk blocks -> In p blk -> R p) ->
  let r := rejection_sampling hs num bsz budget blocks in
  Forall (fun p => sat_all hs p /\ R p) (fst r) /\ (snd r = true -> length (fst r) = num).
Proof.
  intros HQ. cbv zeta. unfold rejection_sampling. destruct num as [|m]; [split; [constructor|discriminate]|].
  cbv iota. generalize (S m). intro num.
  pose proof (rejection_loop_inv hs bsz (fun p => sat_all hs p /\ R p) blocks [] (Z.of_nat num) budget (Forall_nil _)) as I.
  pose proof (rejection_loop_count hs bsz blocks [] (Z.of_nat num) budget) as C.
  destruct (rejection_loop hs bsz blocks [] (Z.of_nat num) budget) as [pts lft]. cbn [fst snd length] in I, C.
  assert (F : Forall (fun p => sat_all hs p /\ R p) pts).
  { apply I. intros blk p Hb Hp Hs. split; [exact Hs|apply (HQ blk p Hb Hp)]. }
  destruct (Z.ltb 0 lft) eqn:E; cbn [fst snd].
  - split; [exact F|discriminate].
  - split; [|intros _; apply Z.ltb_ge in E; apply firstn_length_le; lia].
    apply (Forall_firstn_skipn _ num pts F).
Qed.

(* folding a binary choice f that is an upper bound of its arguments for the preorder R yields an R-greatest member *)
Lemma fold_select_spec (R : Q -> Q -> Prop) (f : Q -> Q -> Q) :
  (forall a, R a a) -> (forall a b c, R a b -> R b c -> R a c) ->
  (forall a b, R a (f a b)) -> (forall a b, R b (f a b)) -> (forall a b, f a b = a \/ f a b = b) ->
  forall r x, (forall y, In y (x :: r) -> R y (fold_left f r x)) /\ In (fold_left f r x) (x :: r).
Proof.
  intros Rrefl Rtrans fl fr fcases. induction r as [|z r IH]; intros x; simpl.
  - split; [intros y [->|[]]; apply Rrefl|left; reflexivity].
  - destruct (IH (f x z)) as [H1 H2]. split.
    + intros y [->|[->|Hy]].
      * apply (Rtrans _ (f y z)); [apply fl|apply H1; left; reflexivity].
      * apply (Rtrans _ (f x y)); [apply fr|apply H1; left; reflexivity].
      * apply H1. right. exact Hy.
    + destruct H2 as [H2|H2]; [|right; right; exact H2].
      destruct (fcases x z) as [E|E]; [left|right; left]; congruence.
Qed.
Lemma max_list_spec l m : max_list l = Some m -> (forall y, In y l -> y <= m) /\ In m l.
Proof.
  destruct l as [|x r]; [discriminate|]. simpl. intros E. injection E as <-.
  apply (fold_select_spec Qle Qmaxb Qle_refl Qle_trans Qmaxb_l Qmaxb_r Qmaxb_cases).
Qed.
Lemma min_list_spec l m : min_list l = Some m -> (forall y, In y l -> m <= y) /\ In m l.
Proof.
  destruct l as [|x r]; [discriminate|]. simpl. intros E. injection E as <-.
  apply (fold_select_spec (fun a b => b <= a) Qminb Qle_refl (fun a b c H1 H2 => Qle_trans _ _ _ H2 H1) Qminb_l Qminb_r Qminb_cases).
Qed.

(* the step lengths on one side of the current point: the quotients (b_i - a_i.x) / (a_i.d) of the rows selected by f *)
Lemma in_hr_side f hs x d c :
  In c (map snd (filter f (hr_params hs x d))) <->
  exists h, In h hs /\ f (dot (fst h) d, (snd h - dot (fst h) x) / dot (fst h) d) = true /\
            c = (snd h - dot (fst h) x) / dot (fst h) d.
Proof.
  unfold hr_params. rewrite in_map_iff. split.
  - intros (p & <- & Hp). apply filter_In in Hp. destruct Hp as [Hp Hf]. apply in_map_iff in Hp.
    destruct Hp as (h & <- & Hh). exists h. auto.
  - intros (h & Hh & Hf & ->). exists (dot (fst h) d, (snd h - dot (fst h) x) / dot (fst h) d).
    split; [reflexivity|]. apply filter_In. split; [|exact Hf].
    apply in_map_iff. exists h. split; [reflexivity|exact Hh].
Qed.

(* one row, s = b - a.x its slack at x, z = a.d: a step t between the largest negative-side and the smallest
   positive-side quotient keeps the row *)
Lemma hr_row_kept s z t : 0 <= s -> (z < 0 -> s / z <= t) -> (0 < z -> t <= s / z) -> t * z <= s.
Proof.
  intros Hs Hn Hp. destruct (Qlt_le_dec z 0) as [Zn|Zn]; [|destruct (Qlt_le_dec 0 z) as [Zp|Zp]].
  - specialize (Hn Zn). pose proof (Qmult_div_r s z) as Ec. nra.
  - specialize (Hp Zp). pose proof (Qmult_div_r s z) as Ec. nra.
  - assert (z == 0) by lra. nra.
Qed.
Lemma Qdiv_nonneg_neg s z : 0 <= s -> z < 0 -> s / z <= 0.
Proof. intros Hs Hz. pose proof (Qmult_div_r s z) as Ec. nra. Qed.
Lemma Qdiv_nonneg_pos s z : 0 <= s -> 0 < z -> 0 <= s / z.
Proof. intros Hs Hz. pose proof (Qmult_div_r s z) as Ec. nra. Qed.

Theorem hitandrun_step_inside hs x d u x' :
  sat_all hs x -> unit_interval u -> length x = length d -> hr_step hs x d u = Some x' -> sat_all hs x'.
Proof.
  intros Hx [U0 U1] Hl. unfold hr_step.
  destruct (max_list _) as [tmin|] eqn:Emax; [|discriminate].
  destruct (min_list _) as [tmax|] eqn:Emin; [|discriminate].
  intros E. injection E as <-.
  destruct (max_list_spec _ _ Emax) as [Mx1 Mx2]. destruct (min_list_spec _ _ Emin) as [Mn1 Mn2].
  assert (Hs : forall h, In h hs -> 0 <= snd h - dot (fst h) x).
  { intros h Hh. specialize (Hx h Hh). unfold sat in Hx. lra. }
  (* x itself is the step 0, so tmin <= 0 <= tmax *)
  assert (Tmin : tmin <= 0).
  { apply in_hr_side in Mx2. destruct Mx2 as (h & Hh & Hz & ->). apply Qltb_lt in Hz. apply Qdiv_nonneg_neg; auto. }
  assert (Tmax : 0 <= tmax).
  { apply in_hr_side in Mn2. destruct Mn2 as (h & Hh & Hz & ->). apply Qltb_lt in Hz. apply Qdiv_nonneg_pos; auto. }
  set (t := tmin + (tmax - tmin) * u).
  assert (Ht : tmin <= t /\ t <= tmax) by (unfold t; split; nra).
  intros h Hh. unfold sat.
  rewrite (dot_shift t _ x d Hl).
  assert (G : t * dot (fst h) d <= snd h - dot (fst h) x); [|lra].
  apply hr_row_kept; [apply Hs, Hh| |]; intros Hz.
  - apply (Qle_trans _ tmin); [|apply Ht]. apply Mx1, in_hr_side. exists h. split; [exact Hh|]. split; [apply Qltb_lt, Hz|reflexivity].
  - apply (Qle_trans _ tmax); [apply Ht|]. apply Mn1, in_hr_side. exists h. split; [exact Hh|]. split; [apply Qltb_lt, Hz|reflexivity].
Qed.

Lemma hr_step_length hs x d u x' : length x = length d -> hr_step hs x d u = Some x' -> length x' = length x.
Proof.
  intros Hl. unfold hr_step. destruct (max_list _); [|discriminate]. destruct (min_list _); [|discriminate].
  intros E. injection E as <-. apply map2_length, Hl.
Qed.

Definition hr_draws_ok (n : nat) (draws : list (point * Q * nat)) : Prop :=
  Forall (fun zur => length (fst (fst zur)) = n /\ unit_interval (snd (fst zur))) draws.

Lemma hr_loop_inside hs runup n : forall draws it x mean pts out,
  hr_draws_ok n draws -> length x = n -> length mean = n -> Forall (fun p => length p = n) pts ->
  sat_all hs x -> Forall (sat_all hs) pts ->
  hr_loop hs runup it x mean pts draws = Some out -> Forall (sat_all hs) out.
Proof.
  induction draws as [|[[z u] r] draws IH]; intros it x mean pts out Hd Hx Hm Hp Sx Sp; simpl.
  - intros E. injection E as <-. exact Sp.
  - apply Forall_cons_iff in Hd. destruct Hd as [[Hz Hu] Hd']. cbn [fst snd] in Hz, Hu.
    set (d := if Nat.ltb it runup then z else let w := map2 Qminus (nth r pts []) mean in if is_zero_vec w then z else w).
    assert (Hdl : length d = length x).
    { unfold d. destruct (Nat.ltb it runup); [congruence|]. cbv zeta.
      destruct (is_zero_vec (map2 Qminus (nth r pts []) mean)) eqn:Ez; [congruence|].
      destruct (nth_in_or_default r pts []) as [Hin|E0]; [|rewrite E0 in Ez; discriminate].
      rewrite Forall_forall in Hp. rewrite map2_length; rewrite (Hp _ Hin); congruence. }
    destruct (hr_step hs x d u) as [x'|] eqn:Es; [|discriminate].
    pose proof (hitandrun_step_inside hs x d u x' Sx Hu (eq_sym Hdl) Es) as Sx'.
    pose proof (hr_step_length hs x d u x' (eq_sym Hdl) Es) as Hx'.
    apply IH; [exact Hd'|congruence|rewrite map2_length; congruence| |exact Sx'|].
    + apply Forall_app. split; [exact Hp|]. constructor; [congruence|constructor].
    + apply Forall_app. split; [exact Sp|]. constructor; [exact Sx'|constructor].
Qed.

Theorem hitandrun_inside hs dim num x0 draws out :
  hr_draws_ok dim draws -> length x0 = dim -> sat_all hs x0 -> hitandrun hs dim num x0 draws = Some out ->
  Forall (sat_all hs) out.
Proof.
  intros Hd Hx Sx. unfold hitandrun.
  destruct (hr_loop hs (10 * (dim + 1)) 0 x0 (repeat 0 dim) [] (firstn (10 * (dim + 1) + 25 * (dim + 1) + num) draws)) as [pts|] eqn:E; [|discriminate].
  intros E'. injection E' as <-.
  assert (F : Forall (sat_all hs) pts).
  { apply (hr_loop_inside hs _ dim _ _ _ _ _ pts) in E; try assumption; try constructor; [|apply repeat_length].
    apply (Forall_firstn_skipn _ _ draws Hd). }
  apply (Forall_firstn_skipn _ _ pts F).
Qed.

Theorem rejection_with_padding_feasible hs dim num bsz budget blocks x0 draws out ok :
  hr_draws_ok dim draws -> length x0 = dim -> sat_all hs x0 ->
  rejection_with_padding hs dim num bsz budget blocks x0 draws = Some (out, ok) -> Forall (sat_all hs) out.
Proof.
  intros Hd Hx Sx. unfold rejection_with_padding.
  pose proof (rejection_outputs_feasible hs num bsz budget blocks (fun _ => True) (fun _ _ _ _ => I)) as R. cbv zeta in R.
  destruct (rejection_sampling hs num bsz budget blocks) as [pts ok']. simpl in R. destruct R as [R _].
  assert (Fp : Forall (sat_all hs) pts) by (eapply Forall_impl; [|exact R]; intros p Hp; apply Hp).
  destruct (negb ok' && Nat.ltb 0 num).
  - destruct (hitandrun hs dim (num - length pts) x0 draws) as [more|] eqn:E; [|discriminate].
    intros E'. injection E' as <- _. apply Forall_app. split; [exact Fp|].
    apply (hitandrun_inside hs dim _ x0 draws more Hd Hx Sx E).
  - intros E'. injection E' as <- _. exact Fp.
Qed.

Lemma linspace_in_range lo hi k : lo <= hi -> Forall (fun a => lo <= a <= hi) (linspace lo hi k).
Proof.
  intros H. destruct k as [|[|k']]; [constructor|repeat constructor; lra|]. unfold linspace.
  apply Forall_forall. intros a Ha. apply in_map_iff in Ha. destruct Ha as [i [<- Hi]]. apply in_seq in Hi.
  assert (HK : 0 < inject_Z (Z.of_nat (S k'))) by (apply inject_nat_pos; lia).
  pose proof (inject_nat_le 0 i (Nat.le_0_l i)) as HI. change (inject_Z (Z.of_nat 0)) with 0 in HI.
  assert (HIK : inject_Z (Z.of_nat i) <= inject_Z (Z.of_nat (S k'))) by (apply inject_nat_le; lia).
  set (K := inject_Z (Z.of_nat (S k'))) in *. set (I := inject_Z (Z.of_nat i)) in *.
  pose proof (Qmult_div_r (hi - lo) K) as Es. set (s := (hi - lo) / K) in *.
  assert (0 <= s) by nra. split; nra.
Qed.

Lemma product_in_box : forall bs axes, Forall2 (fun b ax => Forall (fun a => fst b <= a <= snd b) ax) bs axes ->
  Forall (in_box bs) (product axes).
Proof.
  induction 1 as [|b ax bs axes Hax _ IH]; simpl.
  - repeat constructor.
  - apply Forall_forall. intros p Hp. apply in_flat_map in Hp. destruct Hp as [a [Ha Hp]].
    apply in_map_iff in Hp. destruct Hp as [q [<- Hq]]. rewrite Forall_forall in Hax, IH.
    constructor; [apply Hax, Ha|apply IH, Hq].
Qed.

Lemma axes_in_range : forall bs ks, length ks = length bs -> ordered_bounds bs ->
  Forall2 (fun b ax => Forall (fun a => fst b <= a <= snd b) ax) bs (map2 (fun b k => linspace (fst b) (snd b) k) bs ks).
Proof.
  induction bs as [|b bs IH]; intros [|k ks] Hl Hb; simpl in Hl; try discriminate.
  - constructor.
  - simpl. constructor; [apply linspace_in_range, Hb; left; reflexivity|].
    apply IH; [congruence|intros b' Hin; apply Hb; right; exact Hin].
Qed.

Theorem grid_in_box bs ppd : ordered_bounds bs -> (length ppd = length bs \/ length ppd = 1%nat) ->
  Forall (in_box bs) (grid_points ppd bs).
Proof.
  intros Hb Hl. unfold grid_points. destruct ppd as [|k0 ppd0]; [constructor|].
  destruct (existsb (Nat.eqb 0) (k0 :: ppd0)); [constructor|].
  apply product_in_box. apply axes_in_range; [|exact Hb].
  destruct ppd0; [apply repeat_length|]. destruct Hl as [Hl|Hl]; [exact Hl|simpl in Hl; congruence].
Qed.
