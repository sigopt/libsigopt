(* C20: process_error, the translation of a jsonschema ValidationError record into the library's errors.  A well-formed record
   (wf_verr: what jsonschema can raise) is always translated to a library error, and for each keyword to the one that exposes
   the documented fields.  The regular expression that recovers the keys from the additionalProperties message is the
   scanner `scan`; its result on the message texts jsonschema builds is computed by cutting the text at the quotes. *)
From Coq Require Import List NArith Bool String.
From LV Require Import Model.Schema.
Import ListNotations.

Lemma str_eqb_eq a : forall b, str_eqb a b = true -> a = b.
Proof.
  induction a as [|x a IH]; intros [|y b] H; cbn in H; try discriminate; auto.
  apply andb_true_iff in H as [H1 H2]. apply N.eqb_eq in H1. subst. f_equal. auto.
Qed.

Lemma str_eqb_refl a : str_eqb a a = true.
Proof. induction a as [|x a IH]; cbn; auto. rewrite N.eqb_refl, IH. reflexivity. Qed.

Lemma mem_str_In k l : mem_str k l = true <-> In k l.
Proof.
  unfold mem_str. rewrite existsb_exists. split.
  - intros [x [Hin He]]. apply str_eqb_eq in He. subst. exact Hin.
  - intros H. exists k. split; auto. apply str_eqb_refl.
Qed.

Lemma forallb_impl {A} (f g : A -> bool) l : (forall x, f x = true -> g x = true) ->
  forallb f l = true -> forallb g l = true.
Proof. intros I H. apply forallb_forall. intros x Hx. apply I, (proj1 (forallb_forall f l) H x Hx). Qed.

(* induction along the first element of the context list: the only recursion process_error performs *)
Lemma verr_ind_first (P : verr -> Prop) :
  (forall k vv i st sp pt pts p m ctx, match ctx with c :: _ => P c | [] => True end -> P (VErr k vv i st sp pt pts p m ctx)) ->
  forall e, P e.
Proof.
  intros H. fix IH 1. intros [k vv i st sp pt pts p m ctx]. apply H. destruct ctx as [|c cs]; [exact I|apply IH].
Qed.

Lemma existsb_hd_filter {A} (f : A -> bool) l :
  existsb f l = true -> exists x, hd_error (filter f l) = Some x /\ In x l /\ f x = true.
Proof.
  induction l as [|a l IH]; cbn; intros H; try discriminate.
  destruct (f a) eqn:Hf.
  - exists a. cbn. auto.
  - cbn in H. destruct (IH H) as [x [Hh [Hi Hx]]]. exists x. auto.
Qed.

Lemma m_type_ne b : msg_nonempty (m_type b) = true. Proof. destruct b; reflexivity. Qed.

Definition msg_ok (o : outcome) : Prop :=
  match o with Lib le => msg_nonempty (err_msg le) = true | Raw _ => True end.

Lemma match_JBool_both {T} (P : T -> Prop) (vv : json) a b : P a -> P b -> P (match vv with JBool _ => a | _ => b end).
Proof. destruct vv; auto. Qed.
Lemma required_outcome_msg vv inst path : msg_ok (required_outcome vv inst path).
Proof.
  unfold required_outcome. generalize (iter_json vv) as it, (subscript0 vv) as s0. intros it s0.
  apply match_JBool_both; [reflexivity|].
  destruct inst; try (destruct s0; reflexivity). destruct it as [ks|]; [destruct (forallb hashable ks)|]; reflexivity.
Qed.

Lemma process_error_msg_ok : forall e, msg_ok (process_error e).
Proof.
  apply verr_ind_first. intros k vv i st sp pt pts p m ctx IH. cbn [process_error].
  destruct k; try reflexivity.
  - destruct (is_false vv); reflexivity.
  - destruct st; [apply m_type_ne|exact I].
  - apply required_outcome_msg.
  - destruct (iter_json vv); reflexivity.
  - destruct ctx; [reflexivity|exact IH].
  - destruct ctx; [reflexivity|exact IH].
Qed.

Lemma process_error_msg_nonempty e le : process_error e = Lib le -> msg_nonempty (err_msg le) = true.
Proof. intro H. pose proof (process_error_msg_ok e) as M. rewrite H in M. exact M. Qed.

Lemma is_str_hashable ks : forallb is_str ks = true -> forallb hashable ks = true.
Proof. apply forallb_impl. intros [] H; try discriminate; reflexivity. Qed.

(* a `required` record of either shape - the list of required keys of draft 4 and later, or the boolean of draft 3 whose
   key ends the path - is translated to MissingJsonKeyError exposing a key that is required and absent from the instance *)
Theorem required_exposes_key pm e :
  wf_verr pm e = true -> v_kind e = VRequired ->
  exists k kvs m,
    v_inst e = JObj kvs /\
    process_error e = Lib (EMissingKey (Some (JStr k)) m) /\
    ~ In k (keys kvs) /\
    ((exists ks, v_value e = JArr ks /\ In (JStr k) ks) \/
     (v_value e = JBool true /\ last_part (v_path e) = Some (PKey k) /\ In k (v_sprops e))).
Proof.
  destruct e as [k vv i st sp pt pts p m ctx]. cbn [v_kind v_inst v_value v_path v_sprops]. intros H Hk. subst k.
  cbn in H. destruct i; try discriminate. destruct vv; try discriminate.
  - (* draft 3 *)
    destruct b; try discriminate.
    destruct (last_part p) as [[n|k]|] eqn:Hl; try discriminate.
    apply andb_true_iff in H as [H1 H2]. apply negb_true_iff in H1.
    exists k, kvs, m_missing. repeat split.
    + cbn [process_error]. unfold required_outcome. rewrite Hl. reflexivity.
    + intros Hin. apply mem_str_In in Hin. rewrite Hin in H1. discriminate.
    + right. repeat split; auto. apply mem_str_In. exact H2.
  - (* draft 4 and later *)
    apply andb_true_iff in H as [H1 H2].
    destruct (existsb_hd_filter _ _ H2) as [x [Hh [Hi Hx]]].
    assert (Hs : is_str x = true) by (rewrite forallb_forall in H1; auto).
    destruct x; try discriminate.
    exists s, kvs, m_missing. repeat split.
    + cbn [process_error]. unfold required_outcome. cbn [iter_json]. rewrite (is_str_hashable _ H1). rewrite Hh. reflexivity.
    + intros Hin. apply mem_str_In in Hin. cbn in Hx. rewrite Hin in Hx. discriminate.
    + left. exists l. split; auto.
Qed.

Lemma last_part_app p : forall q, last_part p = Some q -> exists front, p = front ++ [q].
Proof.
  induction p as [|a [|a' p'] IH]; intros q Hq; [discriminate| |].
  - inversion Hq. exists []. reflexivity.
  - destruct (IH q Hq) as [front Ef]. exists (a :: front). rewrite Ef. reflexivity.
Qed.

(* the draft-3 shape alone, for every such record: the exposed key is the last element of the error's path *)
Theorem required_draft3_exposes_path_key pm e b :
  wf_verr pm e = true -> v_kind e = VRequired -> v_value e = JBool b ->
  exists k kvs m front,
    b = true /\ v_inst e = JObj kvs /\ v_path e = front ++ [PKey k] /\
    process_error e = Lib (EMissingKey (Some (JStr k)) m) /\
    ~ In k (keys kvs) /\ In k (v_sprops e).
Proof.
  intros H Hk Hv. destruct (required_exposes_key pm e H Hk) as [k [kvs [m [Hi [Hp [Hn [[ks [E _]]|[E [Hl Hs]]]]]]]]].
  - rewrite Hv in E. discriminate.
  - rewrite Hv in E. inversion E. destruct (last_part_app _ _ Hl) as [front Ef].
    exists k, kvs, m, front. repeat split; auto.
Qed.

(* a `type` record exposes value and type; the message takes the keyless form of InvalidTypeError.__init__ exactly when
   the path is empty *)
Lemma type_outcome pm e :
  wf_verr pm e = true -> v_kind e = VType ->
  exists t ts,
    v_sty e = Some t /\ type_decl t = Some ts /\
    process_error e = Lib (EInvalidType (v_inst e) t (m_type (match v_path e with [] => false | _ => true end))) /\
    existsb (has_type (v_inst e)) ts = false.
Proof.
  destruct e as [k vv i st sp pt pts p m ctx]. cbn [v_kind v_inst v_sty v_path]. intros H Hk. subst k.
  cbn in H. destruct st as [t|]; try discriminate. destruct (type_decl t) as [ts|] eqn:Ht; try discriminate.
  apply andb_true_iff in H as [_ H2]. apply negb_true_iff in H2.
  exists t, ts. repeat split; auto.
Qed.

Theorem type_exposes_value_and_type pm e :
  wf_verr pm e = true -> v_kind e = VType ->
  exists t ts m,
    v_sty e = Some t /\ type_decl t = Some ts /\
    process_error e = Lib (EInvalidType (v_inst e) t m) /\
    existsb (has_type (v_inst e)) ts = false.
Proof. intros H Hk. destruct (type_outcome pm e H Hk) as (t & ts & R). exists t, ts. eexists. exact R. Qed.

(* the record with an EMPTY path - a type error on the document itself, or the first branch of a oneOf / anyOf whose own
   `type` fails (a context record's path is relative to its parent) *)
Theorem type_keyless_exposes_value_and_type pm e :
  wf_verr pm e = true -> v_kind e = VType -> v_path e = [] ->
  exists t ts,
    v_sty e = Some t /\ type_decl t = Some ts /\
    process_error e = Lib (EInvalidType (v_inst e) t (m_type false)) /\
    existsb (has_type (v_inst e)) ts = false.
Proof. intros H Hk Hp. pose proof (type_outcome pm e H Hk) as R. rewrite Hp in R. exact R. Qed.

(* a oneOf / anyOf record with a context is translated as its FIRST context record, whatever that is *)
Theorem combinator_translates_first_context e c rest :
  (v_kind e = VOneOf \/ v_kind e = VAnyOf) -> v_ctx e = c :: rest -> process_error e = process_error c.
Proof.
  destruct e as [k vv i st sp pt pts p m ctx]. cbn [v_kind v_ctx]. intros [Hk|Hk] Hc; subst k ctx; reflexivity.
Qed.

Lemma process_error_wf_lib pm : forall e, wf_verr pm e = true -> exists le, process_error e = Lib le.
Proof.
  apply (verr_ind_first (fun e => wf_verr pm e = true -> exists le, process_error e = Lib le)).
  intros k vv i st sp pt pts p m ctx IH H.
  destruct k; try (eexists; reflexivity).
  - cbn [process_error]. destruct (is_false vv); eexists; reflexivity.
  - destruct (type_exposes_value_and_type pm _ H eq_refl) as (t & ts & m' & _ & _ & E & _). eexists. exact E.
  - destruct (required_exposes_key pm _ H eq_refl) as (k & kvs & m' & _ & E & _). eexists. exact E.
  - cbn in H |- *. destruct vv; try discriminate. eexists; reflexivity.
  - cbn in H |- *. destruct vv; try discriminate. destruct ctx as [|c cs]; [eexists; reflexivity|].
    cbn in H. apply andb_true_iff in H as [H1 _]. apply IH. exact H1.
  - cbn in H |- *. destruct vv; try discriminate. destruct ctx as [|c cs]; [eexists; reflexivity|].
    cbn in H. apply andb_true_iff in H as [H1 _]. apply IH. exact H1.
Qed.

Theorem process_error_total_lib pm e :
  wf_verr pm e = true -> exists le, process_error e = Lib le /\ msg_nonempty (err_msg le) = true.
Proof.
  intros H. destruct (process_error_wf_lib pm e H) as [le Hle]. exists le. split; [exact Hle|].
  apply (process_error_msg_nonempty e le Hle).
Qed.

Fixpoint run (st : sstate) (s : str) : sstate :=
  match s with [] => st | c :: r => run (fst (step st c)) r end.

Lemma scan_app a : forall st b, scan st (a ++ b) = scan st a ++ scan (run st a) b.
Proof.
  induction a as [|c a IH]; intros st b; cbn [app scan run]; auto.
  destruct (step st c) as [st' [w|]]; cbn [fst]; rewrite IH; reflexivity.
Qed.

Lemma run_app a : forall st b, run st (a ++ b) = run (run st a) b.
Proof. induction a as [|c a IH]; intros st b; cbn [app run]; auto. Qed.

(* The scanner returns a word only at a closing quote: a string without quote yields nothing and can be a word's body.
   The states from which an opening quote starts a word afresh are neutral. *)
Definition no_quote (p : str) : bool := forallb (fun c => negb (N.eqb c c_quote)) p.
Definition neutral (st : sstate) : Prop := st = Idle \/ st = SawU \/ st = AfterClose \/ st = InWord [].

Lemma filter_all {A} (f : A -> bool) l : forallb f l = true -> filter f l = l.
Proof.
  induction l as [|x l IH]; cbn; [reflexivity|]. intro H. apply andb_true_iff in H as [Hx Hl]. rewrite Hx, (IH Hl). reflexivity.
Qed.

Lemma wordchar_quote : wordchar c_quote = false. Proof. reflexivity. Qed.
Lemma ident_no_quote k : ident k = true -> no_quote k = true.
Proof.
  destruct k as [|c0 k0]; [discriminate|]. apply forallb_impl. intros c Hc. apply negb_true_iff, N.eqb_neq. intros ->.
  rewrite wordchar_quote in Hc. discriminate.
Qed.

Lemma scan_no_quote s : no_quote s = true -> forall st, scan st s = [].
Proof.
  induction s as [|c s IH]; intros H st; [reflexivity|].
  cbn in H. apply andb_true_iff in H as [Hc Hs]. apply negb_true_iff in Hc. cbn [scan].
  destruct st as [| |acc|]; cbn [step].
  - apply IH, Hs.
  - apply IH, Hs.
  - destruct (wordchar c); [apply IH, Hs|]. rewrite Hc. apply IH, Hs.
  - destruct (N.eqb c c_comma); apply IH, Hs.
Qed.
(* ... and outside a word the scanner stays outside *)
Lemma run_quiet s : no_quote s = true -> forall st, st = Idle \/ st = SawU -> run st s = Idle \/ run st s = SawU.
Proof.
  induction s as [|c s IH]; intros H st Hst; [exact Hst|].
  cbn in H. apply andb_true_iff in H as [Hc Hs]. apply negb_true_iff in Hc.
  assert (E : step st c = (step_idle c, None)) by (destruct Hst; subst; reflexivity).
  cbn [run]. rewrite E. cbn [fst]. apply (IH Hs).
  unfold step_idle. destruct (N.eqb c c_u); [right; reflexivity|]. rewrite Hc. left; reflexivity.
Qed.
(* a space ends whatever was going on *)
Lemma step_space st : fst (step st 32%N) = Idle.
Proof. destruct st; reflexivity. Qed.

(* inside the quotes, with acc read so far: up to the closing quote a quote-free p yields the word read, if it is one *)
Lemma scan_word_body p : no_quote p = true -> forall acc,
  scan (InWord acc) (p ++ [c_quote]) =
    (if forallb wordchar p then match rev acc ++ p with [] => [] | w => [w] end else []) /\
  (run (InWord acc) (p ++ [c_quote]) = AfterClose \/ run (InWord acc) (p ++ [c_quote]) = InWord []).
Proof.
  induction p as [|c p IH]; intros Hq acc.
  - rewrite app_nil_r. destruct acc as [|a acc]; [split; [reflexivity|right; reflexivity]|].
    cbn [app scan run step rev]. rewrite wordchar_quote, N.eqb_refl. cbn [fst].
    split; [destruct (rev acc); reflexivity|left; reflexivity].
  - cbn in Hq. apply andb_true_iff in Hq as [Hc Hp]. apply negb_true_iff in Hc.
    cbn [app scan run step forallb]. destruct (wordchar c).
    + cbn [fst andb]. replace (rev acc ++ c :: p) with (rev (c :: acc) ++ p) by (cbn [rev]; rewrite <- app_assoc; reflexivity).
      apply (IH Hp).
    + (* a character that is neither of a word nor the quote leaves the word; the rest yields nothing *)
      rewrite Hc. cbn [fst andb]. rewrite scan_app, run_app, (scan_no_quote p Hp).
      destruct (run_quiet p Hp Idle (or_introl eq_refl)) as [Q|Q]; rewrite Q; split; (reflexivity || (right; reflexivity)).
Qed.

Lemma scan_quoted p st : no_quote p = true -> neutral st ->
  scan st (py_repr_plain p) = (if ident p then [p] else []) /\
  (run st (py_repr_plain p) = AfterClose \/ run st (py_repr_plain p) = InWord []).
Proof.
  intros Hq Hst. unfold py_repr_plain.
  assert (E : step st c_quote = (InWord [], None)) by (destruct Hst as [H|[H|[H|H]]]; subst; reflexivity).
  cbn [scan run]. rewrite E. cbn [fst]. destruct (scan_word_body p Hq []) as [S R]. split; [|exact R].
  rewrite S. destruct p; reflexivity.
Qed.

Lemma scan_sep st : st = AfterClose \/ st = InWord [] ->
  scan st [c_comma; 32%N] = [] /\ run st [c_comma; 32%N] = Idle.
Proof. intros [H|H]; subst; split; reflexivity. Qed.

(* a comma-separated list of quoted quote-free strings: exactly the identifier-like ones are returned *)
Lemma scan_words ws : forallb no_quote ws = true -> forall st, neutral st ->
  scan st (join_comma (map py_repr_plain ws)) = filter ident ws.
Proof.
  induction ws as [|p r IH]; intros H st Hst; [reflexivity|].
  cbn in H. apply andb_true_iff in H as [Hp Hr]. destruct (scan_quoted p st Hp Hst) as [E1 E2].
  destruct r as [|p2 r'].
  - cbn [map join_comma filter]. rewrite E1. destruct (ident p); reflexivity.
  - change (join_comma (map py_repr_plain (p :: p2 :: r')))
      with (py_repr_plain p ++ [c_comma; 32%N] ++ join_comma (map py_repr_plain (p2 :: r'))).
    destruct (scan_sep _ E2) as [S1 S2]. rewrite !scan_app, E1, S1, S2. cbn [app].
    rewrite (IH Hr Idle (or_introl eq_refl)). cbn [filter]. destruct (ident p); reflexivity.
Qed.

Lemma join_reprs_comma ks : join_reprs ks = join_comma (map py_repr_plain ks).
Proof.
  induction ks as [|k r IH]; [reflexivity|]. destruct r as [|k2 r']; [reflexivity|].
  change (join_reprs (k :: k2 :: r')) with (py_repr_plain k ++ [c_comma; 32%N] ++ join_reprs (k2 :: r')).
  rewrite IH. reflexivity.
Qed.
Lemma scan_join ks : forallb ident ks = true -> scan Idle (join_reprs ks) = ks.
Proof.
  intros H. rewrite join_reprs_comma, scan_words by (try apply (forallb_impl _ _ _ ident_no_quote H); left; reflexivity).
  apply filter_all, H.
Qed.

Lemma addl_suffix_quiet n st : scan st (addl_suffix n) = [].
Proof. apply scan_no_quote. unfold addl_suffix. destruct (Nat.eqb n 1); reflexivity. Qed.

(* on the message jsonschema builds, the regular expression returns exactly the listed keys *)
Theorem findall_addl_message ks : forallb ident ks = true -> findall_keys (addl_message ks) = ks.
Proof.
  intros H. unfold findall_keys, addl_message. rewrite scan_app.
  change (scan Idle addl_prefix) with (@nil str).
  assert (Ep : run Idle addl_prefix = Idle) by (vm_compute; reflexivity).
  rewrite Ep, scan_app, (scan_join ks H), addl_suffix_quiet. apply app_nil_r.
Qed.

(* the text between the keys and the patterns, named so that rewriting does not carry the literal along *)
Definition verb_text (b : bool) : str :=
  (if b then codes " does" else codes " do") ++ codes " not match any of the regexes: ".
Lemma addl_pat_head_verb ks : addl_pat_head ks = join_reprs ks ++ verb_text (Nat.eqb (List.length ks) 1).
Proof. reflexivity. Qed.
Lemma scan_verb (b : bool) st : scan st (verb_text b) = [] /\ run st (verb_text b) = Idle.
Proof.
  split; [apply scan_no_quote; destruct b; vm_compute; reflexivity|]. unfold verb_text.
  change (codes " not match any of the regexes: ") with (codes " not match any of the regexes:" ++ [32%N]).
  rewrite !run_app. apply step_space.
Qed.

(* on every message that starts the way jsonschema starts it with patternProperties, the regular expression returns
   the listed keys first; what follows them comes from the text after the keys (the patterns) *)
Lemma scan_pat_head ks tail : forallb ident ks = true ->
  findall_keys (addl_pat_head ks ++ tail) = ks ++ findall_keys tail.
Proof.
  intros H. unfold findall_keys. rewrite addl_pat_head_verb, <- app_assoc, scan_app, (scan_join ks H), scan_app.
  destruct (scan_verb (Nat.eqb (List.length ks) 1) (run Idle (join_reprs ks))) as [V1 V2]. rewrite V1, V2. reflexivity.
Qed.

(* the complete result of the regular expression on the patternProperties message, for patterns whose repr is the
   plain one: printable ASCII without single quote and backslash (double quotes allowed: without a single quote in the
   string Python still delimits with single quotes).  Such a pattern is returned iff it is identifier-like. *)
Definition plain_char (c : N) : bool :=
  N.leb 32 c && N.ltb c 127 && negb (N.eqb c c_quote) && negb (N.eqb c c_bslash).
Definition plain_pat (p : str) : bool := forallb plain_char p.

Lemma repr_char_plain c : plain_char c = true -> repr_char c_quote c = [c].
Proof.
  unfold plain_char, repr_char. intros H.
  apply andb_true_iff in H as [H H4]. apply andb_true_iff in H as [H H3]. apply andb_true_iff in H as [H1 H2].
  apply negb_true_iff in H3. apply negb_true_iff in H4. rewrite H3, H4, N.ltb_antisym, H1. cbn [orb negb].
  (* the four special code points are outside [32, 127) *)
  destruct (N.eqb_spec c 9) as [->|_]; [discriminate H1|]. destruct (N.eqb_spec c 10) as [->|_]; [discriminate H1|].
  destruct (N.eqb_spec c 13) as [->|_]; [discriminate H1|]. destruct (N.eqb_spec c 127) as [->|_]; [discriminate H2|].
  reflexivity.
Qed.

Lemma plain_char_facts c : plain_char c = true -> N.ltb c 128 = true /\ N.eqb c_quote c = false.
Proof.
  unfold plain_char. intros H.
  apply andb_true_iff in H as [H H4]. apply andb_true_iff in H as [H H3]. apply andb_true_iff in H as [H1 H2].
  apply negb_true_iff in H3. apply N.ltb_lt in H2. split.
  - apply N.ltb_lt, (N.lt_trans c 127 128 H2). reflexivity.
  - rewrite N.eqb_sym. exact H3.
Qed.
Lemma plain_no_quote p : plain_pat p = true -> no_quote p = true.
Proof. apply forallb_impl. intros c H. rewrite N.eqb_sym, (proj2 (plain_char_facts c H)). reflexivity. Qed.

Lemma flat_map_repr_plain p : plain_pat p = true -> flat_map (repr_char c_quote) p = p.
Proof.
  induction p as [|c p IH]; [reflexivity|]. cbn. intro H. apply andb_true_iff in H as [Hc Hp].
  rewrite (repr_char_plain c Hc), (IH Hp). reflexivity.
Qed.
Lemma py_repr_plain_pat p : plain_pat p = true -> py_repr p = Some (py_repr_plain p).
Proof.
  intros H. unfold py_repr, py_repr_plain.
  assert (Ha : is_ascii p = true) by (revert H; apply forallb_impl; intros c Hc; apply (plain_char_facts c Hc)).
  assert (Hq : has_char c_quote p = false).
  { apply not_true_is_false. intros E. apply existsb_exists in E as [c [Hc Ec]].
    unfold plain_pat in H. rewrite forallb_forall in H. rewrite (proj2 (plain_char_facts c (H c Hc))) in Ec. discriminate. }
  rewrite Ha, Hq. cbn [andb]. rewrite (flat_map_repr_plain p H). reflexivity.
Qed.

Lemma py_reprs_plain pats : forallb plain_pat pats = true -> py_reprs pats = Some (map py_repr_plain pats).
Proof.
  induction pats as [|p r IH]; intros H; [reflexivity|]. cbn in H. apply andb_true_iff in H as [Hp Hr].
  unfold py_reprs in *. cbn [fold_right map]. rewrite (IH Hr), (py_repr_plain_pat p Hp). reflexivity.
Qed.

Theorem findall_addl_message_pat ks pats :
  forallb ident ks = true -> forallb plain_pat pats = true ->
  exists m, addl_message_pat ks pats = Some m /\ findall_keys m = ks ++ filter ident pats.
Proof.
  intros Hk Hp. unfold addl_message_pat. rewrite (py_reprs_plain pats Hp). eexists. split; [reflexivity|].
  rewrite (scan_pat_head ks _ Hk). f_equal. apply scan_words; [|left; reflexivity]. apply (forallb_impl _ _ _ plain_no_quote Hp).
Qed.

Lemma insert_str_In x l y : In y (insert_str x l) <-> x = y \/ In y l.
Proof.
  induction l as [|a l IH]; cbn; [reflexivity|]. destruct (str_leb x a); cbn; [reflexivity|].
  split.
  - intros [H|H]; [auto|]. apply IH in H as [H|H]; auto.
  - intros [H|[H|H]]; [right; apply IH; left; exact H|left; exact H|right; apply IH; right; exact H].
Qed.

Lemma sort_strs_In l y : In y (sort_strs l) <-> In y l.
Proof.
  induction l as [|a l IH]; cbn; [reflexivity|]. split.
  - intro H. apply insert_str_In in H as [H|H]; [left; exact H|right; apply IH; exact H].
  - intros [H|H]; apply insert_str_In; [left; exact H|right; apply IH; exact H].
Qed.

Lemma sort_strs_forallb f l : forallb f l = true -> forallb f (sort_strs l) = true.
Proof. rewrite !forallb_forall. intros H x Hx. apply H, sort_strs_In, Hx. Qed.

Lemma extras_pat_nil pm inst sp : extras_pat pm inst sp [] = extras_of inst sp.
Proof.
  unfold extras_pat, extras_of. destruct inst; auto. apply filter_ext. intros k.
  unfold pat_matched. cbn. apply andb_true_r.
Qed.

Lemma prefix_str_app p : forall m, prefix_str p m = true -> exists t, m = p ++ t.
Proof.
  induction p as [|x p IH]; intros m H.
  - exists m. reflexivity.
  - destruct m as [|y m]; cbn in H; try discriminate. apply andb_true_iff in H as [H1 H2].
    apply N.eqb_eq in H1. subst y. destruct (IH m H2) as [t Et]. exists t. rewrite Et. reflexivity.
Qed.

Lemma sort_strs_nonempty l : l <> [] -> sort_strs l <> [].
Proof.
  destruct l as [|x l]; [contradiction|]. intros _ E.
  assert (H : In x (sort_strs (x :: l))) by (apply sort_strs_In; left; reflexivity). rewrite E in H. contradiction.
Qed.

(* what the contract on the message gives: the regular expression returns the keys first, and only them without
   patternProperties *)
Lemma addl_msg_ok_findall pt ks pats m : forallb ident ks = true -> addl_msg_ok pt ks pats m = true ->
  exists rest, findall_keys m = ks ++ rest /\ (pt = false -> rest = []).
Proof.
  intros Hs Hm. unfold addl_msg_ok in Hm. destruct pt.
  - apply andb_true_iff in Hm as [Hpre _]. apply prefix_str_app in Hpre as [tail Et]. subst m.
    eexists. split; [apply (scan_pat_head _ tail Hs)|discriminate].
  - apply str_eqb_eq in Hm. subst m. exists []. rewrite app_nil_r. split; [apply findall_addl_message; exact Hs|reflexivity].
Qed.

Theorem additional_exposes_key_patterns pm e :
  wf_verr pm e = true -> v_kind e = VAdditional ->
  forallb ident (extras_pat pm (v_inst e) (v_sprops e) (v_spats e)) = true ->
  exists k kvs m rest,
    v_inst e = JObj kvs /\
    process_error e = Lib (EInvalidKey (Some k) m) /\
    In k (keys kvs) /\ ~ In k (v_sprops e) /\ pat_matched pm (v_spats e) k = false /\ ident k = true /\
    hd_error (sort_strs (extras_pat pm (v_inst e) (v_sprops e) (v_spats e))) = Some k /\
    findall_keys (v_message e) = sort_strs (extras_pat pm (v_inst e) (v_sprops e) (v_spats e)) ++ rest /\
    (v_spat e = false -> rest = []).
Proof.
  destruct e as [kd vv i st sp pt pts p m ctx]. cbn [v_kind v_inst v_spat v_spats v_sprops v_message]. intros H Hk Hid. subst kd.
  cbn [wf_verr] in H. apply andb_true_iff in H as [H H4]. apply andb_true_iff in H as [H H3].
  apply andb_true_iff in H as [H1 H2].
  destruct i; try discriminate. cbv zeta in H4. apply andb_true_iff in H4 as [Hne Hm].
  rewrite Hid in Hm.
  set (ex := extras_pat pm (JObj kvs) sp pts) in *.
  assert (Hex : ex <> []) by (intros E; rewrite E in Hne; discriminate).
  assert (Hs : forallb ident (sort_strs ex) = true) by (apply sort_strs_forallb; exact Hid).
  assert (Hsn : sort_strs ex <> []) by (apply sort_strs_nonempty; exact Hex).
  destruct (addl_msg_ok_findall pt _ pts m Hs Hm) as [rest [Hf Hr]].
  destruct (sort_strs ex) as [|k r] eqn:Es; [contradiction|].
  assert (Hin : In k ex) by (apply sort_strs_In; rewrite Es; left; reflexivity).
  unfold ex, extras_pat in Hin. apply filter_In in Hin as [Hk1 Hk2]. apply andb_true_iff in Hk2 as [Hk2 Hk3].
  apply negb_true_iff in Hk2. apply negb_true_iff in Hk3.
  exists k, kvs, m_unknown_keys, rest. repeat split; try assumption.
  - cbn [process_error]. rewrite H1, Hf. reflexivity.
  - intros Hc. apply mem_str_In in Hc. rewrite Hc in Hk2. discriminate.
  - cbn in Hs. apply andb_true_iff in Hs as [Hs _]. exact Hs.
Qed.

(* the case without patternProperties (the list of patterns is then empty and no key is matched) *)
Theorem additional_exposes_key_partial pm e :
  wf_verr pm e = true -> v_kind e = VAdditional -> v_spat e = false ->
  forallb ident (extras_of (v_inst e) (v_sprops e)) = true ->
  exists k kvs m,
    v_inst e = JObj kvs /\
    process_error e = Lib (EInvalidKey (Some k) m) /\
    In k (keys kvs) /\ ~ In k (v_sprops e) /\ ident k = true /\
    hd_error (sort_strs (extras_of (v_inst e) (v_sprops e))) = Some k.
Proof.
  intros H Hk Hp Hid.
  assert (Hps : v_spats e = []).
  { destruct e as [kd vv i st sp pt pts p m ctx]. cbn [v_kind v_spat v_spats] in *. subst kd pt.
    cbn [wf_verr] in H. apply andb_true_iff in H as [H _]. apply andb_true_iff in H as [_ H3].
    destruct pts; [reflexivity|discriminate]. }
  pose proof (additional_exposes_key_patterns pm e H Hk) as T. rewrite Hps, extras_pat_nil in T.
  destruct (T Hid) as [k [kvs [m [rest [A [B [C [D [_ [E [F _]]]]]]]]]]].
  exists k, kvs, m. repeat split; auto.
Qed.

(* what the premise "there is an unknown key" buys: a record with NO unknown key (jsonschema never raises one: the
   error is yielded only `elif not aP and extras`) whose message has the patternProperties form exposes a PATTERN *)
Definition no_unknown_key_error : verr :=
  VErr VAdditional (JBool false) (JObj [(codes "abc1"%string, JNull)]) None [] true [codes "abc"%string] []
       (match addl_message_pat [] [codes "abc"%string] with Some m => m | None => [] end) [].

Theorem additional_no_unknown_key_exposes_pattern :
  let pm := fun _ _ => true in
  v_kind no_unknown_key_error = VAdditional /\
  extras_pat pm (v_inst no_unknown_key_error) (v_sprops no_unknown_key_error) (v_spats no_unknown_key_error) = [] /\
  addl_message_pat [] (v_spats no_unknown_key_error) = Some (v_message no_unknown_key_error) /\
  process_error no_unknown_key_error = Lib (EInvalidKey (Some (codes "abc"%string)) m_unknown_keys) /\
  In (codes "abc"%string) (v_spats no_unknown_key_error) /\
  wf_verr pm no_unknown_key_error = false.
Proof. vm_compute. repeat split; auto. Qed.

(* in general, for patterns with plain reprs: a record without unknown key exposes the first identifier-like pattern
   (in sorted order), or None when no pattern is identifier-like *)
Theorem additional_no_unknown_key_general vv inst sty sp pts path ctx m :
  is_false vv = true -> forallb plain_pat pts = true -> addl_message_pat [] pts = Some m ->
  process_error (VErr VAdditional vv inst sty sp true pts path m ctx) =
  Lib (EInvalidKey (hd_error (filter ident pts)) m_unknown_keys).
Proof.
  intros Hv Hp Hm. destruct (findall_addl_message_pat [] pts eq_refl Hp) as [m' [E1 E2]].
  rewrite Hm in E1. inversion E1. subst m'. cbn [process_error]. rewrite Hv, E2. reflexivity.
Qed.

Section Validate.
  Variable rxm : N -> str -> bool.
  Variable pm : list str -> str -> bool.
  Variable js : json -> schema -> js_result.
  (* the contract on jsonschema: it raises ValidationError exactly on non-conforming values, and the record is well-formed *)
  Hypothesis js_iff : forall v s, js v s = JsOk <-> conforms rxm pm s v = true.
  Hypothesis js_wf : forall v s e, js v s = JsError e -> wf_verr pm e = true.

  Theorem validate_silent_iff_conforms v s : validate js v s = Silent <-> conforms rxm pm s v = true.
  Proof.
    unfold validate. rewrite <- js_iff. destruct (js v s); split; intros H; try reflexivity; discriminate.
  Qed.

  Theorem validate_raises_lib_only v s :
    (validate js v s = Silent /\ conforms rxm pm s v = true) \/
    (exists le, validate js v s = Raises (Lib le) /\ msg_nonempty (err_msg le) = true /\ conforms rxm pm s v = false).
  Proof.
    unfold validate. destruct (js v s) as [|e] eqn:E.
    - left. split; auto. apply js_iff. exact E.
    - right. destruct (process_error_total_lib pm e (js_wf _ _ _ E)) as [le [H1 H2]].
      exists le. rewrite H1. repeat split; auto.
      destruct (conforms rxm pm s v) eqn:C; auto. apply js_iff in C. rewrite C in E. discriminate.
  Qed.
End Validate.

(* the contract is satisfiable: a jsonschema that reports every failure as an untranslated keyword *)
Definition js_trivial (rxm : N -> str -> bool) (pm : list str -> str -> bool) (v : json) (s : schema) : js_result :=
  if conforms rxm pm s v then JsOk else JsError (VErr VOther JNull v None [] false [] [] [] []).

Lemma js_trivial_contract rxm pm :
  (forall v s, js_trivial rxm pm v s = JsOk <-> conforms rxm pm s v = true) /\
  (forall v s e, js_trivial rxm pm v s = JsError e -> wf_verr pm e = true).
Proof.
  split; intros v s; unfold js_trivial; destruct (conforms rxm pm s v).
  - split; auto.
  - split; discriminate.
  - discriminate.
  - intros e H. inversion H. reflexivity.
Qed.

(* draft 3: the record jsonschema raises for validate({}, {"$schema": draft-03, "properties": {"a": {"required": true}}}) - a
   boolean validator value, the missing key at the end of the path - is well-formed and is translated to the library's
   MissingJsonKeyError exposing "a" (before the repair of process_error the boolean was iterated: TypeError). *)
Definition draft3_required_error : verr :=
  VErr VRequired (JBool true) (JObj []) None [codes "a"%string] false [] [PKey (codes "a"%string)]
       (codes "'a' is a required property"%string) [].

Theorem draft3_required_translated :
  (forall pm, wf_verr pm draft3_required_error = true) /\
  process_error draft3_required_error = Lib (EMissingKey (Some (JStr (codes "a"%string))) m_missing).
Proof. split; [intros pm|]; vm_compute; reflexivity. Qed.
