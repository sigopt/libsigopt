(* Theorems about Model.ScipyCons: the inequality handed to SciPy is the user's constraint tightened by MARGIN * |rhs|. *)
From Coq Require Import List Qabs Lqa.
From LV Require Import Model.Restrict Model.ScipyCons Proofs.Restrict.
Import ListNotations.
Open Scope Q_scope.

(* (1 + m sign r) r = r + m |r| *)
Lemma scipy_rhs_abs r : scipy_rhs r == r + safety_margin * Qabs r.
Proof.
  unfold scipy_rhs, sgn. destruct (Qltb 0 r) eqn:P; [|destruct (Qltb r 0) eqn:N].
  - apply Qltb_lt in P. rewrite (Qabs_pos r) by lra. lra.
  - apply Qltb_lt in N. rewrite (Qabs_neg r) by lra. lra.
  - apply Qltb_ge in P, N. rewrite (Qabs_pos r) by lra. unfold safety_margin. lra.
Qed.

Lemma margin_pos : 0 < safety_margin. Proof. reflexivity. Qed.

Lemma scipy_rhs_tightens r : r <= scipy_rhs r.
Proof.
  rewrite scipy_rhs_abs. pose proof (Qabs_nonneg r). pose proof margin_pos. nra.
Qed.

Lemma scipy_rhs_strict r : ~ r == 0 -> r < scipy_rhs r.
Proof.
  intro H. rewrite scipy_rhs_abs. pose proof margin_pos.
  assert (0 < Qabs r) by (apply Qabs_case; intros; lra).
  nra.
Qed.

(* the SciPy inequality, even when violated by an absolute error delta, leaves slack m |r| - delta in the user's one *)
Lemma scipy_fun_slack w r x delta :
  - delta <= scipy_fun w r x -> r + (safety_margin * Qabs r - delta) <= dot w x.
Proof.
  unfold scipy_fun. rewrite scipy_rhs_abs. intro H. lra.
Qed.

Lemma scipy_fun_implies_constraint w r x : 0 <= scipy_fun w r x -> r <= dot w x.
Proof.
  intro H. assert (Hs : - 0 <= scipy_fun w r x) by lra. apply scipy_fun_slack in Hs.
  pose proof (Qabs_nonneg r). pose proof margin_pos. nra.
Qed.

Lemma scipy_jac_is_gradient w r x h : length x = length h ->
  scipy_fun w r (map2 Qplus x h) - scipy_fun w r x == dot (scipy_jac w x) h.
Proof.
  intro L. unfold scipy_fun, scipy_jac. rewrite (dot_map2_affine Qplus 1 1) by (try exact L; intros; lra). lra.
Qed.

(* whole domain: a point SLSQP-feasible up to delta satisfies every user constraint with slack min_c (m |rhs_c|) - delta;
   stated per constraint *)
Lemma scipy_feasible_slack d x delta :
  scipy_feasible_b delta d x = true ->
  Forall (fun c => snd c + (safety_margin * Qabs (snd c) - delta) <= dot (fst c) x) (cstrs d).
Proof.
  unfold scipy_feasible_b, scipy_funs, scipy_constraints. rewrite forallb_forall. intro H.
  apply Forall_forall. intros c Hc. apply scipy_fun_slack. apply Qle_bool_iff. apply H.
  apply in_map_iff. exists c. split; [reflexivity|exact Hc].
Qed.

Lemma scipy_feasible_sound d x :
  scipy_feasible_b 0 d x = true -> Forall (fun c => snd c <= dot (fst c) x) (cstrs d).
Proof.
  intro H. apply scipy_feasible_slack in H. eapply Forall_impl; [|exact H]. cbv beta. intros c Hc.
  pose proof (Qabs_nonneg (snd c)). pose proof margin_pos. nra.
Qed.

Lemma scipy_constraints_count d : length (scipy_funs d nil) = length (cstrs d) /\ (cstrs d = [] -> scipy_constraints d = []).
Proof.
  unfold scipy_funs, scipy_constraints. rewrite map_length. split; [reflexivity|auto].
Qed.

(* an SLSQP feasibility error not larger than the margin of a constraint is absorbed by it *)
Lemma scipy_feasible_inside d x delta :
  scipy_feasible_b delta d x = true ->
  Forall (fun c => snd c + (safety_margin * Qabs (snd c) - delta) <= dot (fst c) x) (cstrs d) /\
  Forall (fun c => delta <= safety_margin * Qabs (snd c) -> snd c <= dot (fst c) x) (cstrs d).
Proof.
  intro H. pose proof (scipy_feasible_slack d x delta H) as S. split; [exact S|].
  eapply Forall_impl; [|exact S]. cbv beta. intros c Hc Hd. lra.
Qed.
