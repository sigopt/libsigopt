(* C19: the search acquisition value is the failure model's probability, or exactly 0 within the squared radius of a repulsor;
   geometry of the normalised search coordinates (unit cube, one-hot blocks); batching; the pick loop and its repulsors. *)
From Coq Require Import List QArith Lia Lqa.
From LV Require Import Model.SearchAF.
Import ListNotations.
Open Scope Q_scope.

Lemma Qltb_lt x y : Qltb x y = true <-> x < y.
Proof.
  unfold Qltb. rewrite negb_true_iff, <- not_true_iff_false, Qle_bool_iff. split; [apply Qnot_le_lt|apply Qlt_not_le].
Qed.

Lemma Qltb_ge x y : Qltb x y = false <-> y <= x.
Proof.
  unfold Qltb. rewrite negb_false_iff. apply Qle_bool_iff.
Qed.

Lemma Qltb_comp x x' y y' : x == x' -> y == y' -> Qltb x y = Qltb x' y'.
Proof. intros A B. unfold Qltb. f_equal. exact (Qleb_comp y y' B x x' A). Qed.

Lemma Qmaxb_nonneg v : 0 <= v -> Qmaxb 0 v == v.
Proof. intros H. unfold Qmaxb. apply Qle_bool_iff in H. rewrite H. reflexivity. Qed.

Lemma zipw_length {A B C} (f : A -> B -> C) la lb : length (zipw f la lb) = Nat.min (length la) (length lb).
Proof. revert lb; induction la as [|a la IH]; intros [|b lb]; simpl; auto. Qed.

Lemma zipw_app {A B C} (f : A -> B -> C) a1 a2 b1 b2 :
  length a1 = length b1 -> zipw f (a1 ++ a2) (b1 ++ b2) = zipw f a1 b1 ++ zipw f a2 b2.
Proof.
  revert b1; induction a1 as [|x a1 IH]; intros [|y b1] H; try discriminate; [reflexivity|].
  cbn [app zipw]. f_equal. apply IH, eq_add_S, H.
Qed.

Lemma firstn_app_len {A} (a b : list A) k : length a = k -> firstn k (a ++ b) = a.
Proof. intros <-. rewrite firstn_app, Nat.sub_diag, firstn_all. simpl. apply app_nil_r. Qed.

Lemma skipn_app_len {A} (a b : list A) k : length a = k -> skipn k (a ++ b) = b.
Proof. intros <-. rewrite skipn_app, Nat.sub_diag, skipn_all. reflexivity. Qed.

Lemma split_at {A} (l : list A) k n : length l = (k + n)%nat -> exists a b, l = a ++ b /\ length a = k /\ length b = n.
Proof.
  intros H. exists (firstn k l), (skipn k l). rewrite firstn_skipn, firstn_length, skipn_length, H.
  repeat split; lia.
Qed.

Lemma sumsq_cons a x : sumsq (a :: x) = a * a + sumsq x.
Proof. reflexivity. Qed.
Lemma dot_cons a b x z : dot (a :: x) (b :: z) = a * b + dot x z.
Proof. reflexivity. Qed.
Lemma sqdist_cons a b x z : sqdist (a :: x) (b :: z) = (a - b) * (a - b) + sqdist x z.
Proof. reflexivity. Qed.

Lemma sq_nn (a : Q) : 0 <= a * a.
Proof. nra. Qed.

Lemma sqdist_nonneg x z : 0 <= sqdist x z.
Proof.
  revert z; induction x as [|a x IH]; intros [|b z]; try (unfold sqdist; simpl; lra).
  rewrite sqdist_cons. specialize (IH z). pose proof (sq_nn (a - b)). lra.
Qed.

Lemma expand_sqdist x z : length x = length z -> sumsq x + sumsq z - 2 * dot x z == sqdist x z.
Proof.
  revert z; induction x as [|a x IH]; intros [|b z] H; simpl in H; try discriminate.
  - unfold sumsq, dot, sqdist. simpl. lra.
  - rewrite !sumsq_cons, dot_cons, sqdist_cons. pose proof (IH z (eq_add_S _ _ H)) as E. lra.
Qed.

(* the library's formula is the sum of squared coordinate differences *)
Lemma dist2_sqdist x z : length x = length z -> dist2 x z == sqdist x z.
Proof.
  intros H. unfold dist2. rewrite Qmaxb_nonneg; rewrite (expand_sqdist x z H); [reflexivity|apply sqdist_nonneg].
Qed.

Lemma sqdist_refl x : sqdist x x == 0.
Proof. induction x as [|a x IH]; [reflexivity|]. rewrite sqdist_cons. lra. Qed.

Lemma sqdist_sym x z : sqdist x z == sqdist z x.
Proof.
  revert z; induction x as [|a x IH]; intros [|b z]; try reflexivity.
  rewrite !sqdist_cons. specialize (IH z). lra.
Qed.

Lemma sqdist_app a1 a2 b1 b2 : length a1 = length b1 ->
  sqdist (a1 ++ a2) (b1 ++ b2) == sqdist a1 b1 + sqdist a2 b2.
Proof.
  revert b1; induction a1 as [|x a1 IH]; intros [|y b1] H; simpl in H; try discriminate.
  - simpl. unfold sqdist at 2. simpl. lra.
  - simpl app. rewrite !sqdist_cons. pose proof (IH b1 (eq_add_S _ _ H)) as E. lra.
Qed.

Lemma near_spec dp rs s : near dp rs s = true <-> exists r, In r rs /\ dist2 r s < dp.
Proof.
  unfold near. rewrite existsb_exists. split; intros [r [I H]]; exists r; split; auto; now apply Qltb_lt.
Qed.

(* a repulsor repels itself *)
Lemma near_self dp rs s : In s rs -> 0 < dp -> near dp rs s = true.
Proof.
  intros I Pos. apply near_spec. exists s. split; [exact I|]. rewrite dist2_sqdist, sqdist_refl by reflexivity. exact Pos.
Qed.

Lemma near_sqdist dp rs s : (forall r, In r rs -> length r = length s) ->
  (near dp rs s = true <-> exists r, In r rs /\ sqdist r s < dp).
Proof.
  intros L. rewrite near_spec. split; intros [r [I H]]; exists r; split; auto.
  - rewrite <- (dist2_sqdist r s (L r I)). exact H.
  - rewrite (dist2_sqdist r s (L r I)). exact H.
Qed.

Lemma oh_bounds_length d : length (oh_bounds d) = one_hot_dim d.
Proof.
  induction d as [|c d IH]; [reflexivity|]. unfold oh_bounds in *. simpl. rewrite app_length, IH.
  destruct c; simpl; [reflexivity|]. now rewrite repeat_length.
Qed.

Lemma one_hot_block_length k b t : length (one_hot_block k b t) = k.
Proof. unfold one_hot_block. now rewrite map_length, seq_length. Qed.

Lemma round_cats_length d t : forall u, length u = one_hot_dim d -> length (round_cats d t u) = one_hot_dim d.
Proof.
  induction d as [|c d IH]; intros u H; [reflexivity|].
  destruct c as [lo hi|k]; cbn [round_cats one_hot_dim comp_width] in *; rewrite app_length.
  - rewrite firstn_length, IH; [lia|]. rewrite skipn_length. lia.
  - rewrite one_hot_block_length, IH; [congruence|]. rewrite skipn_length. lia.
Qed.

Lemma to_search_length d t p : length p = one_hot_dim d -> length (to_search d t p) = one_hot_dim d.
Proof.
  intros H. unfold to_search. apply round_cats_length. unfold to_unit. rewrite zipw_length, oh_bounds_length. lia.
Qed.

Lemma wf_points_iff d pts : forallb (wf_point d) pts = true <-> forall p, In p pts -> length p = one_hot_dim d.
Proof. rewrite forallb_forall. split; intros H p I; apply Nat.eqb_eq, H, I. Qed.

Definition reps_wf (d : domain) (s : st) : Prop := forall r, In r (reps s) -> length r = one_hot_dim d.

Lemma add_repulsors_spec d t s pts s' : add_repulsors d t s pts = Some s' ->
  reps s' = reps s ++ map (to_search d t) pts /\ dpar s' = dpar s /\ (forall p, In p pts -> length p = one_hot_dim d).
Proof.
  unfold add_repulsors. destruct (forallb (wf_point d) pts) eqn:E; [|discriminate]. intros H. injection H as <-.
  split; [reflexivity|]. split; [reflexivity|]. apply wf_points_iff, E.
Qed.

Lemma add_repulsors_wf d t s pts s' : reps_wf d s -> add_repulsors d t s pts = Some s' -> reps_wf d s'.
Proof.
  intros W H. destruct (add_repulsors_spec _ _ _ _ _ H) as [R [_ L]]. intros r I. rewrite R in I.
  apply in_app_or in I. destruct I as [I|I]; [now apply W|].
  apply in_map_iff in I. destruct I as [p [<- I]]. apply to_search_length, L, I.
Qed.

Lemma pi_search_init_wf d t dp r0 s : pi_search_init d t dp r0 = Some s -> reps_wf d s.
Proof.
  destruct r0 as [pts|]; simpl; intros H.
  - eapply add_repulsors_wf; [|exact H]. intros r [].
  - inversion H. intros r [].
Qed.

Theorem value_is_probability_or_zero d t s fm p :
  reps_wf d s -> length p = one_hot_dim d -> 0 <= fm p <= 1 ->
  let v := eval_point d t s fm p in
  ((exists r, In r (reps s) /\ sqdist r (to_search d t p) < dpar s) -> v = 0) /\
  ((forall r, In r (reps s) -> dpar s <= sqdist r (to_search d t p)) -> v = fm p) /\
  0 <= v <= 1.
Proof.
  intros W L R v. subst v. unfold eval_point.
  assert (LL : forall r, In r (reps s) -> length r = length (to_search d t p)).
  { intros r I. rewrite (W r I). symmetry. now apply to_search_length. }
  pose proof (near_sqdist (dpar s) (reps s) (to_search d t p) LL) as N.
  destruct (near (dpar s) (reps s) (to_search d t p)) eqn:E.
  - split; [reflexivity|]. split; [|lra].
    intros F. destruct (proj1 N eq_refl) as [r [I H]]. specialize (F r I). lra.
  - split; [|split; [reflexivity|exact R]].
    intros X. apply N in X. discriminate.
Qed.

Lemma eval_batch_spec d t s fm pts : (forall p, In p pts -> length p = one_hot_dim d) ->
  eval_batch d t s fm pts = Some (map (eval_point d t s fm) pts).
Proof.
  intros H. unfold eval_batch. rewrite (proj2 (wf_points_iff d pts) H). reflexivity.
Qed.

Lemma prodQ_range l : Forall (fun q => 0 <= q <= 1) l -> 0 <= prodQ l <= 1.
Proof.
  induction 1 as [|q l Hq _ IH]; unfold prodQ in *; simpl; [lra|]. nra.
Qed.

Theorem prod_fm_range fms p : (forall f, In f fms -> 0 <= f p <= 1) -> 0 <= prod_fm fms p <= 1.
Proof.
  intros H. unfold prod_fm. apply (prodQ_range (map (fun f => f p) fms)).
  apply Forall_forall. intros q I. apply in_map_iff in I. destruct I as [f [<- I]]. now apply H.
Qed.

Lemma logistic_range e : 0 <= e -> 0 < logistic e /\ logistic e <= 1.
Proof.
  intros H. unfold logistic. assert (P : 0 < 1 + e) by lra. split.
  - apply Qlt_shift_div_l; lra.
  - apply Qle_shift_div_r; lra.
Qed.

Lemma from_to_unit1 b x : ~ snd b == fst b -> from_unit1 b (to_unit1 b x) == x.
Proof. intros H. unfold from_unit1, to_unit1. field. intros C. apply H. lra. Qed.

Lemma to_from_unit1 b u : ~ snd b == fst b -> to_unit1 b (from_unit1 b u) == u.
Proof. intros H. unfold from_unit1, to_unit1. field. intros C. apply H. lra. Qed.

Lemma to_unit1_range b x : fst b < snd b -> fst b <= x <= snd b -> 0 <= to_unit1 b x <= 1.
Proof.
  intros H [A B]. unfold to_unit1. assert (P : 0 < snd b - fst b) by lra. split.
  - apply Qle_shift_div_l; lra.
  - apply Qle_shift_div_r; lra.
Qed.

Theorem unit_cube_roundtrip bs : Forall (fun b => ~ snd b == fst b) bs -> forall p, length p = length bs ->
  Forall2 Qeq (from_unit bs (to_unit bs p)) p /\ Forall2 Qeq (to_unit bs (from_unit bs p)) p.
Proof.
  induction 1 as [|b bs Hb _ IH]; intros [|x p] L; simpl in L; try discriminate.
  - split; constructor.
  - destruct (IH p ltac:(lia)) as [A B]. split; simpl; constructor; auto.
    + now apply from_to_unit1.
    + now apply to_from_unit1.
Qed.

Theorem unit_cube_range bs : forall p, Forall2 (fun b x => fst b < snd b /\ fst b <= x <= snd b) bs p ->
  Forall (fun u => 0 <= u <= 1) (to_unit bs p).
Proof.
  induction 1 as [|b x bs p [H1 H2] _ IH]; simpl; constructor; auto. now apply to_unit1_range.
Qed.

Lemma to_search_nil t p : to_search [] t p = [].
Proof. reflexivity. Qed.

Lemma to_search_num lo hi d t x p :
  to_search (Num lo hi :: d) t (x :: p) = to_unit1 (lo, hi) x :: to_search d t p.
Proof. reflexivity. Qed.

Lemma argmax_from_ext l l' : Forall2 Qeq l l' -> forall best best' bi i, best == best' ->
  argmax_from best bi i l = argmax_from best' bi i l'.
Proof.
  induction 1 as [|x x' l l' Hx _ IH]; intros best best' bi i Hb; simpl; [reflexivity|].
  rewrite (Qltb_comp best best' x x' Hb Hx). destruct (Qltb best' x'); apply IH; auto.
Qed.

Lemma argmax_ext l l' : Forall2 Qeq l l' -> argmax l = argmax l'.
Proof. intros H; destruct H as [|x x' l l' Hx H]; simpl; [reflexivity|]. now apply argmax_from_ext. Qed.

Lemma unit01_id blk : Forall2 Qeq (zipw to_unit1 (repeat (0, 1) (length blk)) blk) blk.
Proof.
  induction blk as [|x blk IH]; simpl; constructor; auto. unfold to_unit1. simpl. field.
Qed.

Lemma to_search_cat k d t blk p : length blk = k ->
  to_search (Cat k :: d) t (blk ++ p) = one_hot_block k (argmax blk) t ++ to_search d t p.
Proof.
  intros L. unfold to_search, to_unit, oh_bounds. simpl flat_map. fold (oh_bounds d).
  rewrite zipw_app by (now rewrite repeat_length). simpl round_cats.
  assert (LZ : length (zipw to_unit1 (repeat (0, 1) k) blk) = k).
  { rewrite zipw_length, repeat_length. lia. }
  rewrite (firstn_app_len _ _ k LZ), (skipn_app_len _ _ k LZ). f_equal. f_equal.
  apply argmax_ext. subst k. apply unit01_id.
Qed.

Lemma cat_choice_cat k d blk p : length blk = k -> cat_choice (Cat k :: d) (blk ++ p) = argmax blk :: cat_choice d p.
Proof. intros L. simpl. now rewrite (firstn_app_len _ _ k L), (skipn_app_len _ _ k L). Qed.

Lemma argmax_from_lt l : forall best bi i, (bi < i)%nat -> (argmax_from best bi i l < i + length l)%nat.
Proof.
  induction l as [|x l IH]; intros best bi i H; simpl; [lia|].
  destruct (Qltb best x).
  - specialize (IH x i (S i) ltac:(lia)). lia.
  - specialize (IH best bi (S i) ltac:(lia)). lia.
Qed.

Lemma argmax_lt l : l <> [] -> (argmax l < length l)%nat.
Proof.
  destruct l as [|x l]; [congruence|]. intros _. simpl. pose proof (argmax_from_lt l x 0%nat 1%nat ltac:(lia)). lia.
Qed.

(* a block of length S k: the hot index is either its head, or the hot index of the block of length k that follows *)
Lemma one_hot_block_S_O k t : one_hot_block (S k) 0 t = t :: repeat 0 k.
Proof.
  unfold one_hot_block. cbn [seq map Nat.eqb]. rewrite <- seq_shift, map_map. cbn [Nat.eqb]. f_equal.
  rewrite <- (seq_length k 0) at 2. induction (seq 0 k) as [|j l IH]; [reflexivity|]. cbn [map length repeat]. rewrite IH. reflexivity.
Qed.
Lemma one_hot_block_S_S k b t : one_hot_block (S k) (S b) t = 0 :: one_hot_block k b t.
Proof. unfold one_hot_block. cbn [seq map Nat.eqb]. rewrite <- seq_shift, map_map. reflexivity. Qed.

Lemma zero_block_dist t : forall k b, (b < k)%nat -> sqdist (repeat 0 k) (one_hot_block k b t) == t * t.
Proof.
  induction k as [|k IH]; intros b H; [inversion H|]. cbn [repeat]. destruct b as [|b].
  - rewrite one_hot_block_S_O, sqdist_cons. pose proof (sqdist_refl (repeat 0 k)) as E. lra.
  - rewrite one_hot_block_S_S, sqdist_cons. pose proof (IH b (proj2 (Nat.succ_lt_mono b k) H)) as E. lra.
Qed.

Lemma block_dist t : forall k a b, (a < k)%nat -> (b < k)%nat -> a <> b ->
  sqdist (one_hot_block k a t) (one_hot_block k b t) == 2 * (t * t).
Proof.
  induction k as [|k IH]; intros a b A B N; [inversion A|].
  destruct a as [|a], b as [|b]; [congruence| | |]; rewrite ?one_hot_block_S_O, ?one_hot_block_S_S, sqdist_cons.
  - pose proof (zero_block_dist t k b (proj2 (Nat.succ_lt_mono b k) B)) as E. lra.
  - pose proof (zero_block_dist t k a (proj2 (Nat.succ_lt_mono a k) A)) as E. rewrite sqdist_sym in E. lra.
  - pose proof (IH a b (proj2 (Nat.succ_lt_mono a k) A) (proj2 (Nat.succ_lt_mono b k) B) (fun E => N (f_equal S E))) as E. lra.
Qed.

(* two blocks of one categorical parameter with different hot indices (the width cannot be 0: both blocks would be empty
   and their argmax equal) *)
Lemma cat_blocks_apart t k (bp bq : point) : length bp = k -> length bq = k -> argmax bp <> argmax bq ->
  sqdist (one_hot_block k (argmax bp) t) (one_hot_block k (argmax bq) t) == 2 * (t * t).
Proof.
  intros Lp Lq NE.
  assert (A : forall blk : point, length blk = k -> (argmax blk < k)%nat).
  { intros blk L. rewrite <- L. apply argmax_lt. intros ->. subst k. destruct bp, bq; try discriminate. apply NE. reflexivity. }
  apply block_dist; [apply A, Lp|apply A, Lq|exact NE].
Qed.

Theorem categories_apart d t : forall p q, length p = one_hot_dim d -> length q = one_hot_dim d ->
  cat_choice d p <> cat_choice d q -> 2 * (t * t) <= sqdist (to_search d t p) (to_search d t q).
Proof.
  induction d as [|c d IH]; intros p q Lp Lq N; [simpl in N; congruence|].
  destruct c as [lo hi|k].
  - destruct p as [|x p]; [discriminate|]. destruct q as [|y q]; [discriminate|].
    rewrite !to_search_num, sqdist_cons.
    specialize (IH p q (eq_add_S _ _ Lp) (eq_add_S _ _ Lq) N).
    pose proof (sq_nn (to_unit1 (lo, hi) x - to_unit1 (lo, hi) y)). lra.
  - destruct (split_at p k _ Lp) as (bp & p' & -> & Lbp & Lp'). destruct (split_at q k _ Lq) as (bq & q' & -> & Lbq & Lq').
    rewrite !(cat_choice_cat k d) in N by assumption. rewrite !(to_search_cat k d t) by assumption.
    rewrite sqdist_app by (rewrite !one_hot_block_length; reflexivity).
    pose proof (sqdist_nonneg (one_hot_block k (argmax bp) t) (one_hot_block k (argmax bq) t)) as P1.
    pose proof (sqdist_nonneg (to_search d t p') (to_search d t q')) as P2.
    destruct (Nat.eq_dec (argmax bp) (argmax bq)) as [E|NE].
    + assert (N' : cat_choice d p' <> cat_choice d q') by (intros C; apply N; rewrite E, C; reflexivity).
      specialize (IH p' q' Lp' Lq' N'). lra.
    + pose proof (cat_blocks_apart t k bp bq Lbp Lbq NE) as B. lra.
Qed.

(* a repulsor whose category differs from the evaluated point's never zeroes it once the squared radius is at most 2 t^2 *)
Corollary categories_never_repel d t dp p q : length p = one_hot_dim d -> length q = one_hot_dim d ->
  cat_choice d p <> cat_choice d q -> dp <= 2 * (t * t) ->
  Qltb (dist2 (to_search d t q) (to_search d t p)) dp = false.
Proof.
  intros Lp Lq N H. apply Qltb_ge. rewrite dist2_sqdist by (now rewrite !to_search_length).
  pose proof (categories_apart d t q p Lq Lp (fun C => N (eq_sym C))). lra.
Qed.

Lemma inject_nat_le a b : (a <= b)%nat -> inject_Z (Z.of_nat a) <= inject_Z (Z.of_nat b).
Proof. intros H. rewrite <- Zle_Qle. apply Nat2Z.inj_le, H. Qed.

Lemma get_dp_range n w : (0 < n)%nat -> (w < 4)%nat ->
  0 < get_dp n w /\ get_dp n w <= inject_Z (Z.of_nat n) * (4 # 100).
Proof.
  intros Hn Hw. unfold get_dp. pose proof (inject_nat_le 1 n Hn) as P. change (inject_Z (Z.of_nat 1)) with 1 in P.
  destruct w as [|[|[|[|w]]]]; [..|exfalso; lia]; cbn [nth dist_consts]; split; lra.
Qed.

Lemma dim_le_one_hot_dim d : (forall k, In (Cat k) d -> (1 <= k)%nat) -> (length d <= one_hot_dim d)%nat.
Proof.
  induction d as [|c d IH]; intros H; simpl; [lia|].
  assert (W : (1 <= comp_width c)%nat).
  { destruct c; simpl; [lia|]. apply H. now left. }
  specialize (IH (fun k I => H k (or_intror I))). lia.
Qed.

(* with the scheduled radii and t^2 within 1% of the one-hot dimension, the radius never reaches across categories *)
Theorem schedule_below_category_gap d t w : d <> [] -> (forall k, In (Cat k) d -> (1 <= k)%nat) -> (w < 4)%nat ->
  inject_Z (Z.of_nat (one_hot_dim d)) * (99 # 100) <= t * t ->
  0 < get_dp (length d) w /\ get_dp (length d) w < 2 * (t * t).
Proof.
  intros Hd Hk Hw Ht.
  assert (Hn : (0 < length d)%nat) by (destruct d; [congruence|apply Nat.lt_0_succ]).
  destruct (get_dp_range (length d) w Hn Hw) as [L U]. split; [exact L|].
  pose proof (inject_nat_le _ _ (dim_le_one_hot_dim d Hk)) as Q1.
  pose proof (inject_nat_le 1 _ Hn) as Q0. change (inject_Z (Z.of_nat 1)) with 1 in Q0.
  clear L Hd Hk Hw Hn. lra.
Qed.

Lemma forallb_firstn_skipn {A} (f : A -> bool) k l : forallb f l = true ->
  forallb f (firstn k l) = true /\ forallb f (skipn k l) = true.
Proof. intros H. rewrite <- (firstn_skipn k l), forallb_app in H. now apply andb_true_iff in H. Qed.

Lemma eval_chunks_S f bs d t s fm p pts :
  eval_chunks (S f) bs d t s fm (p :: pts) =
  match eval_batch d t s fm (firstn bs (p :: pts)), eval_chunks f bs d t s fm (skipn bs (p :: pts)) with
  | Some a, Some b => Some (a ++ b)
  | _, _ => None
  end.
Proof. reflexivity. Qed.

Lemma eval_chunks_map d t s fm bs : (0 < bs)%nat -> forall fuel pts, (length pts <= fuel)%nat ->
  forallb (wf_point d) pts = true -> eval_chunks fuel bs d t s fm pts = Some (map (eval_point d t s fm) pts).
Proof.
  intros Hb. induction fuel as [|f IH]; intros pts L W.
  - destruct pts; [reflexivity|inversion L].
  - destruct pts as [|p pts']; [reflexivity|]. rewrite eval_chunks_S.
    destruct (forallb_firstn_skipn (wf_point d) bs _ W) as [W1 W2].
    unfold eval_batch. rewrite W1, IH; [|rewrite skipn_length; cbn [length] in *; lia|exact W2].
    rewrite <- map_app, firstn_skipn. reflexivity.
Qed.

Theorem batch_independent d t s fm pts b : pts <> [] -> (0 < b)%nat ->
  (forall p, In p pts -> length p = one_hot_dim d) ->
  evaluate (Some b) d t s fm pts = Some (map (eval_point d t s fm) pts) /\
  evaluate None d t s fm pts = Some (map (eval_point d t s fm) pts).
Proof.
  intros NE Hb L.
  pose proof (proj2 (wf_points_iff d pts) L) as W.
  assert (Ln : (0 < length pts)%nat) by (destruct pts; [congruence|simpl; lia]).
  unfold evaluate. rewrite W. split.
  - destruct b as [|b']; [lia|]. simpl Nat.eqb. cbv iota. apply eval_chunks_map; auto; lia.
  - destruct (length pts) as [|n] eqn:E; [lia|]. simpl Nat.eqb. cbv iota. rewrite <- E. apply eval_chunks_map; auto; congruence.
Qed.

Lemma nth_error_firstn_lt {A} (l : list A) : forall i j, (j < i)%nat -> nth_error (firstn i l) j = nth_error l j.
Proof.
  induction l as [|x l IH]; intros [|i] [|j] H; try reflexivity; [inversion H|inversion H|]. apply IH, Nat.succ_lt_mono, H.
Qed.

Section LoopProofs.
  Variable d : domain.
  Variable t : Q.
  Variable opt : st -> point.

  (* one iteration: the pick is recorded with the state it was chosen in, becomes a repulsor, and the radius is redrawn *)
  Lemma loop_cons s w r tr e : loop d t opt s (w :: r) = Some (tr, e) ->
    exists tr', tr = (s, opt s) :: tr' /\
      loop d t opt (mkst (reps s ++ [to_search d t (opt s)]) (get_dp (length d) w)) r = Some (tr', e).
  Proof.
    cbn [loop]. unfold add_repulsors. destruct (forallb (wf_point d) [opt s]); [|discriminate]. cbn [reps map].
    destruct (loop d t opt _ r) as [[tr' e']|]; [|discriminate].
    intros H. injection H as <- <-. exists tr'. split; reflexivity.
  Qed.

  Lemma loop_nth : forall draws s tr e, loop d t opt s draws = Some (tr, e) ->
    length tr = length draws /\
    forall i si pi, nth_error tr i = Some (si, pi) ->
      pi = opt si /\
      reps si = reps s ++ map (to_search d t) (firstn i (map snd tr)) /\
      dpar si = match i with O => dpar s | S j => get_dp (length d) (nth j draws O) end.
  Proof.
    induction draws as [|w r IH]; intros s tr e H.
    - injection H as <- _. split; [reflexivity|]. intros [|i] si pi X; discriminate.
    - apply loop_cons in H. destruct H as (tr' & -> & H). destruct (IH _ _ _ H) as [Len Nth].
      split; [cbn [length]; rewrite Len; reflexivity|].
      intros [|i] si pi X; cbn [nth_error] in X.
      + injection X as <- <-. split; [reflexivity|]. split; [symmetry; apply app_nil_r|reflexivity].
      + destruct (Nth i si pi X) as (P1 & P3 & P4). split; [exact P1|]. split.
        * rewrite P3. cbn [reps map snd firstn]. rewrite <- app_assoc. reflexivity.
        * rewrite P4. destruct i; reflexivity.
  Qed.

  Theorem picks_become_repulsors s0 draws picks s_after tr :
    search_opt d t opt s0 draws = Some (picks, s_after, tr) ->
    length picks = length draws /\ picks = map snd tr /\
    forall i si pi, nth_error tr i = Some (si, pi) ->
      pi = opt si /\
      reps si = reps s0 ++ map (to_search d t) (firstn i picks) /\
      dpar si = match i with O => dpar s0 | S j => get_dp (length d) (nth j draws O) end /\
      forall j pj, (j < i)%nat -> nth_error picks j = Some pj ->
        In (to_search d t pj) (reps si) /\
        (0 < dpar si -> forall fm, eval_point d t si fm pj = 0).
  Proof.
    unfold search_opt. destruct (loop d t opt s0 draws) as [[tr0 e]|] eqn:Lp; [|discriminate].
    intros H. injection H as <- _ <-.
    destruct (loop_nth _ _ _ _ Lp) as [Len Nth].
    split; [rewrite map_length; exact Len|]. split; [reflexivity|].
    intros i si pi X. destruct (Nth i si pi X) as (P1 & P3 & P4).
    split; [exact P1|]. split; [exact P3|]. split; [exact P4|].
    intros j pj Hj Xj.
    assert (I : In (to_search d t pj) (reps si)).
    { rewrite P3. apply in_or_app. right. apply in_map.
      rewrite <- (nth_error_firstn_lt (map snd tr0) i j Hj) in Xj. exact (nth_error_In _ _ Xj). }
    split; [exact I|].
    intros Pos fm. unfold eval_point. rewrite (near_self _ _ _ I Pos). reflexivity.
  Qed.

  Theorem state_restored s0 draws picks s_after tr :
    search_opt d t opt s0 draws = Some (picks, s_after, tr) ->
    reps s_after = reps s0 /\ dpar s_after = dpar s0.
  Proof.
    unfold search_opt. destruct (loop d t opt s0 draws) as [[tr0 e]|]; [|discriminate].
    intros H. injection H as _ <- _. split; reflexivity.
  Qed.
End LoopProofs.

Theorem view_repulsors d t sampled pending w s : view_init d t sampled pending w = Some s ->
  reps s = map (to_search d t) (sampled ++ pending) /\ dpar s = get_dp (length d) w /\ reps_wf d s.
Proof.
  intros H. pose proof (pi_search_init_wf _ _ _ _ _ H) as W. unfold view_init, pi_search_init in H.
  destruct (add_repulsors_spec _ _ _ _ _ H) as [R [D _]]. simpl in R, D.
  split; [|split; auto]. rewrite R. destruct pending; [now rewrite app_nil_r|reflexivity].
Qed.

Theorem repulsors_well_shaped d t dp r0 s pts s' :
  pi_search_init d t dp r0 = Some s -> add_repulsors d t s pts = Some s' ->
  reps_wf d s /\ reps_wf d s' /\ reps s' = reps s ++ map (to_search d t) pts /\ dpar s' = dpar s.
Proof.
  intros H A. pose proof (pi_search_init_wf _ _ _ _ _ H) as W.
  destruct (add_repulsors_spec _ _ _ _ _ A) as [R [D _]].
  split; [exact W|]. split; [eapply add_repulsors_wf; eauto|]. split; assumption.
Qed.
