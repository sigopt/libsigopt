(* C19: which data, threshold, objective and hyperparameters each failure model of the search view is built from. *)
From Coq Require Import List QArith.
From LV Require Import Model.Domain Model.Decode Model.Midpoint Model.Wiring Model.SearchView.
From LV Require Import Proofs.Wiring.
Import ListNotations.
Open Scope Q_scope.

Lemma sv_shape_lengths r : sv_shape_ok r = true ->
  length (q_values r) = length (q_points r) /\ length (q_vars r) = length (q_points r) /\
  length (q_fails r) = length (q_points r).
Proof.
  unfold sv_shape_ok. intros H. apply andb_prop in H. destruct H as [H H3]. apply andb_prop in H. destruct H as [H1 H2].
  apply Nat.eqb_eq in H1, H2, H3. auto.
Qed.

Theorem search_view_models r pfs : search_view_pfs r = Some pfs ->
  q_opt_ix r = [] /\ q_con_ix r <> [] /\
  exists pts pend,
    encode_rows (q_dom r) false (q_points r) [] = Some pts /\ encode_rows (q_dom r) false (q_pending r) [] = Some pend /\
    length pfs = length (q_con_ix r) /\
    forall k, (k < length (q_con_ix r))%nat ->
      let p := nth k pfs dpf in let m := nth k (q_con_ix r) O in
      p_kind p = PfCdf /\ g_metric (p_gp p) = m /\
      exists h i l t,
        nth_error (q_hypers r) m = Some h /\ hyper_vec (comps (q_dom r)) h = Some (g_hyp (p_gp p)) /\
        g_tik (p_gp p) = hp_tik h /\
        smmi (column m (q_values r)) (q_fails r) (nth m (q_objs r) NoObjective) = Some i /\
        lie_value i LieMin = Some l /\
        nth m (q_thr r) None = Some t /\ p_thr p = rel_value i t /\
        exists dp dv, length dp = length dv /\
          g_pts (p_gp p) = lied r dp pend /\ g_vals (p_gp p) = lied r dv (repeat (rel_value i l) (length pend)) /\
          Forall (row_pair r pts m i l) (combine dp dv) /\
          Forall (fun y => y <= rel_value i l) (g_vals (p_gp p)).
Proof.
  unfold search_view_pfs. intros H.
  destruct (sv_shape_ok r) eqn:Es; [|discriminate]. cbn [negb orb] in H.
  destruct (has_tasks r) eqn:Et; [discriminate|]. cbn [orb] in H.
  destruct (q_pareto r); [discriminate|].
  destruct (q_opt_ix r) as [|o0 os] eqn:Eo; [|discriminate].
  destruct (q_con_ix r) as [|c0 cx] eqn:Ec; [discriminate|]. rewrite <- Ec.
  destruct (encode_rows (q_dom r) false (q_points r) []) as [pts|] eqn:Ep; [|discriminate].
  destruct (encode_rows (q_dom r) false (q_pending r) []) as [pend|] eqn:Epe; [|discriminate].
  split; [reflexivity|]. split; [congruence|]. exists pts, pend. split; [reflexivity|]. split; [reflexivity|].
  destruct (sv_shape_lengths r Es) as (Lv & _ & Lf).
  destruct (encode_rows_spec _ _ _ _ _ Ep) as [Lp _].
  assert (Lfv : length (q_fails r) = length (q_values r)) by congruence.
  assert (Lpv : length pts = length (q_values r)) by congruence.
  destruct (con_pfs_origin r pts pend pfs H Lfv Lpv) as [Hlen Hn]. split; [exact Hlen|]. intros k Hk.
  (* C06's law of constraint model k, and the hyperparameters its Gaussian process was built with *)
  destruct (constraint_model_law r pts pend pfs k H Lfv Lpv Lv Hk) as (K & Em & i & l & t & D).
  destruct (Hn k Hk) as (c & _ & _ & _ & _ & keep & dn & E). destruct (single_gp_inv _ _ _ _ _ _ _ _ E).
  split; [exact K|]. split; [exact Em|]. exists h, i, l, t.
  split; [exact b_hyper|]. split; [exact b_vec|]. split; [exact b_tik|]. exact D.
Qed.
