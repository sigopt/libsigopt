(* C06: structural laws of the reference pipeline Model/Wiring.v, for all requests.  A successful run is inverted once
   (wire_inv, and single_gp_inv for one Gaussian process); every Gaussian process of the result is then traced to a column
   of a preprocessed block (from_block, origin), and the laws are read off that origin.  The laws about the scaled values
   come from C12's view_law (Proofs/Midpoint.v), the ones about the encoding from C09's round trip (Proofs/Decode.v);
   Proofs/Pareto.v and Proofs/Filters.v supply the list facts about select and col. *)
From Coq Require Import List QArith Lia.
From LV Require Import Model.Domain Model.Decode Model.Midpoint Model.Pareto Model.Phases Model.Filters Model.Wiring.
From LV Require Proofs.Decode Proofs.Midpoint Proofs.Pareto Proofs.Filters.
Import ListNotations.
Open Scope Q_scope.

Lemma sequence_map_seq_nth {A} (f : nat -> option A) n r d : sequence (map f (seq 0 n)) = Some r ->
  length r = n /\ forall i, (i < n)%nat -> f i = Some (nth i r d).
Proof.
  intros H. pose proof (Proofs.Midpoint.sequence_some _ _ H) as E.
  assert (L : length r = n) by (apply (f_equal (@length _)) in E; rewrite !map_length, seq_length in E; lia).
  split; [exact L|]. intros i Hi.
  apply (f_equal (fun l => nth i l None)) in E.
  rewrite (Proofs.Pareto.nth_map_in f (seq 0 n) i O None) in E by (rewrite seq_length; exact Hi).
  rewrite seq_nth in E by exact Hi. simpl in E. rewrite E.
  apply (Proofs.Pareto.nth_map_in Some r i d None). congruence.
Qed.

Lemma In_combine_nth {A B} (a : list A) (b : list B) x y da db : In (x, y) (combine a b) ->
  exists k, (k < length a)%nat /\ (k < length b)%nat /\ nth k a da = x /\ nth k b db = y.
Proof.
  revert b. induction a as [|p a IH]; intros [|q b] H; simpl in H; try contradiction.
  destruct H as [H|H].
  - injection H as -> ->. exists O. simpl. repeat split; lia.
  - destruct (IH b H) as (k & Ha & Hb & E1 & E2). exists (S k). simpl. repeat split; try lia; assumption.
Qed.

Lemma combine_app_eq {A B} (a a' : list A) (b b' : list B) : length a = length b ->
  combine (a ++ a') (b ++ b') = combine a b ++ combine a' b'.
Proof.
  revert b. induction a as [|x a IH]; intros [|y b] H; simpl in *; try discriminate; try reflexivity.
  f_equal. apply IH. congruence.
Qed.

Lemma encode_rows_spec d t : forall ps cs rows, encode_rows d t ps cs = Some rows ->
  length rows = length ps /\
  forall k, (k < length ps)%nat ->
    length (nth k ps []) = length (comps d) /\ encode_ok (comps d) (nth k ps []) = true /\
    (t = true -> (k < length cs)%nat) /\
    nth k rows [] = encode_with_task d (nth k ps []) (if t then Some (nth k cs 0) else None).
Proof.
  induction ps as [|p ps IH]; intros cs rows H; simpl in H.
  - injection H as <-. split; [reflexivity|]. intros k Hk. simpl in Hk. lia.
  - destruct (Nat.eqb (length p) (length (comps d)) && encode_ok (comps d) p) eqn:Eok; simpl in H; [|discriminate].
    apply andb_true_iff in Eok. destruct Eok as [El Eo]. apply Nat.eqb_eq in El.
    destruct t.
    + destruct cs as [|c cs]; [discriminate|].
      destruct (encode_rows d true ps cs) as [rs|] eqn:E; simpl in H; [|discriminate]. injection H as <-.
      destruct (IH cs rs E) as [L N]. split; [simpl; congruence|].
      intros [|k] Hk; simpl in *.
      * repeat split; auto. lia.
      * destruct (N k ltac:(lia)) as (A1 & A2 & A3 & A4). repeat split; auto. intros _. specialize (A3 eq_refl). lia.
    + destruct (encode_rows d false ps cs) as [rs|] eqn:E; simpl in H; [|discriminate]. injection H as <-.
      destruct (IH cs rs E) as [L N]. split; [simpl; congruence|].
      intros [|k] Hk; simpl in *.
      * repeat split; auto. discriminate.
      * destruct (N k ltac:(lia)) as (A1 & A2 & A3 & A4). repeat split; auto. discriminate.
Qed.

Definition is_cl (r : request) : bool := match q_par r with ConstantLiar => true | QEI => false end.
Definition lied {A} (r : request) (data extra : list A) : list A := if is_cl r then data ++ extra else data.

Inductive gp_built (r : request) (pend pts : list row) (vals noise : list Q) (lie : Q) (m : nat) (g : gp_desc) : Prop :=
  GpBuilt (h : hyper)
    (b_hyper : nth_error (q_hypers r) m = Some h) (b_vec : hyper_vec (comps (q_dom r)) h = Some (g_hyp g))
    (b_mean : poly_indices (q_mean r) (q_poly r) (dim_with_task r) = Some (g_mean g))
    (b_metric : g_metric g = m) (b_pts : g_pts g = lied r pts pend)
    (b_vals : g_vals g = lied r vals (repeat lie (length pend)))
    (b_kernel : g_kernel g = (if has_tasks r then KC4xSE else KC4)) (b_tik : g_tik g = hp_tik h)
    (b_len : length (g_hyp g) = S (dim_with_task r)) (b_pos : Forall (fun x => 0 < x) (g_hyp g)).

Lemma single_gp_inv r pend pts vals noise lie m g : single_gp r pend pts vals noise lie m = Some g ->
  gp_built r pend pts vals noise lie m g.
Proof.
  unfold single_gp. intros H.
  destruct (nth_error (q_hypers r) m) as [h|] eqn:Eh; [|discriminate].
  destruct (hyper_vec (comps (q_dom r)) h) as [hv|] eqn:Ehv; [|discriminate].
  destruct (poly_indices (q_mean r) (q_poly r) (dim_with_task r)) as [pi|] eqn:Epi; [|discriminate].
  cbv zeta in H.
  match type of H with (if ?c then _ else _) = _ => destruct c eqn:C; [|discriminate] end.
  injection H as <-.
  (* of the five guards, the two on the hyperparameter vector are what the laws below use *)
  do 3 (apply andb_true_iff in C; destruct C as [C _]). apply andb_true_iff in C. destruct C as [C1 C2].
  apply (GpBuilt r _ _ _ _ _ _ _ h); cbn [g_metric g_pts g_vals g_kernel g_hyp g_tik g_mean]; unfold lied, is_cl;
    try first [reflexivity|assumption].
  - apply Nat.eqb_eq; exact C1.
  - apply Forall_forall. intros x Hx. rewrite forallb_forall in C2. specialize (C2 x Hx).
    apply Proofs.Pareto.Qltb_lt. exact C2.
Qed.

Lemma single_gp_metric r pend pts vals noise lie m g : single_gp r pend pts vals noise lie m = Some g -> g_metric g = m.
Proof. intros H. destruct (single_gp_inv _ _ _ _ _ _ _ _ H). exact b_metric. Qed.

(* the data of a Gaussian process comes from column j of a preprocessed block (optimised or constraint metrics): its
   points and values are the encoded observations and the scaled values of column j, at the rows a mask keeps *)
Definition from_block (r : request) (pend allpts : list row) (src : view_out) (ix : list nat) (j : nat) (g : gp_desc) : Prop :=
  (j < length ix)%nat /\
  exists keep dnoise,
    single_gp r pend (Pareto.select keep allpts) (Pareto.select keep (col j (v_values src))) dnoise
              (nth j (v_lie src) 0) (nth j ix O) = Some g.

(* ... and the block is the preprocessing of the optimised or of the constraint metrics *)
Definition origin (r : request) (pend allpts : list row) (g : gp_desc) : Prop :=
  exists ix src j, In ix [q_opt_ix r; q_con_ix r] /\
    preprocess ix (q_values r) (q_vars r) (q_fails r) (q_objs r) (q_thr r) = Some src /\ from_block r pend allpts src ix j g.

Lemma gp_for_pf_block r src ix pts pend j g : gp_for_pf r src ix pts pend j = Some g -> (j < length ix)%nat ->
  length pts = length (v_values src) -> from_block r pend pts src ix j g.
Proof.
  intros H Hj L. split; [exact Hj|]. exists (repeat true (length pts)), (col j (v_vars src)).
  rewrite !Proofs.Filters.select_all by (rewrite ?Proofs.Filters.col_length; congruence). exact H.
Qed.

Lemma opt_of_nonempty r o : opt_of r = Some o -> q_opt_ix r <> [].
Proof. unfold opt_of. destruct (q_opt_ix r); discriminate. Qed.

Lemma opt_of_pre r o : opt_of r = Some o ->
  preprocess (q_opt_ix r) (q_values r) (q_vars r) (q_fails r) (q_objs r) (q_thr r) = Some o.
Proof. unfold opt_of. destruct (q_opt_ix r) eqn:E; [discriminate|]. intro H. exact H. Qed.

(* the phases that name two metrics name the two optimised ones, in either order *)
Lemma info_ok_pair r : info_ok r = true ->
  match q_info r with
  | OptOne om cm | EpsC om cm _ => length (q_opt_ix r) = 2%nat /\ (om + cm = 1)%nat
  | _ => True
  end.
Proof.
  unfold info_ok. intros Hi. destruct (q_info r) as [|om cm|w0 w1|om cm eps]; try exact I;
    apply andb_true_iff in Hi; destruct Hi as [Hi Hs]; apply andb_true_iff in Hi; destruct Hi as [_ Hl];
    apply Nat.eqb_eq in Hl; repeat (apply andb_true_iff in Hs; destruct Hs as [Hs _]); apply Nat.eqb_eq in Hs;
    split; assumption.
Qed.

Lemma opt_metric_lt r : info_ok r = true -> q_opt_ix r <> [] -> (opt_metric (q_info r) < length (q_opt_ix r))%nat.
Proof.
  intros Hi Hne. pose proof (info_ok_pair r Hi) as P.
  destruct (q_info r); cbn [opt_metric]; try lia; (destruct (q_opt_ix r); [congruence|simpl; lia]).
Qed.

Definition dgp : gp_desc := mkgp O [] [] [] KC4 [] None [].

Lemma main_origin r o pts pend gs ws : opt_of r = Some o -> info_ok r = true -> length pts = length (v_values o) ->
  main_gps r o pts pend = Some (gs, ws) ->
  Forall (fun g => exists j, from_block r pend pts o (q_opt_ix r) j g) gs /\
  match q_info r with
  | Convex w0 w1 => ws = [w0; w1] /\ length gs = length (q_opt_ix r) /\
                    forall i, (i < length (q_opt_ix r))%nat ->
                      gp_for_pf r o (q_opt_ix r) pts pend i = Some (nth i gs dgp)
  | EpsC om cm eps =>
      ws = [] /\ exists g, gs = [g] /\
        let keep := map negb (pf_labelling eps om cm (v_values o) (q_fails r)) in
        single_gp r pend (Pareto.select keep pts) (Pareto.select keep (col om (v_values o)))
                  (Pareto.select keep (col om (v_vars o))) (nth om (v_lie o) 0) (nth om (q_opt_ix r) O) = Some g
  | i => ws = [] /\ exists g, gs = [g] /\ gp_for_pf r o (q_opt_ix r) pts pend (opt_metric i) = Some g
  end.
Proof.
  intros Ho Hi L H. pose proof (opt_metric_lt r Hi (opt_of_nonempty r o Ho)) as Hlt.
  unfold main_gps in H.
  destruct (q_info r) as [|om cm|w0 w1|om cm eps] eqn:Ei;
    cbn [filter_gp filter_one_metric filter_sum_of_gps filter_prob_failure o_pts o_vals o_vars o_lie arr1 arr0 arr2
         opt_metric] in H, Hlt;
    (match type of H with match ?e with _ => _ end = _ => destruct e as [g|] eqn:E; [|discriminate] end);
    injection H as <- <-.
  1-2: assert (B : from_block r pend pts o (q_opt_ix r) _ g) by (apply gp_for_pf_block; [exact E|exact Hlt|exact L]);
       split; [constructor; [eexists; exact B|constructor]|]; split; [reflexivity|]; exists g; split; [reflexivity|exact E].
  - destruct (sequence_map_seq_nth _ _ _ dgp E) as [Hlen Hnth]. split; [|split; [reflexivity|split; assumption]].
    apply Forall_forall. intros g' Hg. destruct (In_nth _ _ dgp Hg) as (i & Hi' & <-). rewrite Hlen in Hi'. exists i.
    apply gp_for_pf_block; [exact (Hnth i Hi')|exact Hi'|exact L].
  - split.
    + constructor; [|constructor]. exists om. split; [exact Hlt|]. eexists _, _. exact E.
    + split; [reflexivity|]. exists g. split; [reflexivity|exact E].
Qed.

(* one optional threshold, one logistic model on column j *)
Lemma logistic_pf r o pts pend j (t : option Q) l : (j < length (q_opt_ix r))%nat ->
  match t with
  | None => Some []
  | Some t => option_map (fun g => [mkpf PfLogistic t g]) (gp_for_pf r o (q_opt_ix r) pts pend j)
  end = Some l ->
  Forall (fun p => p_kind p = PfLogistic /\
                   exists j, (j < length (q_opt_ix r))%nat /\ gp_for_pf r o (q_opt_ix r) pts pend j = Some (p_gp p)) l /\
  forall t', t = Some t' -> exists p, In p l /\ gp_for_pf r o (q_opt_ix r) pts pend j = Some (p_gp p) /\ p_thr p = t'.
Proof.
  intros Hj H. destruct t as [t|]; [|injection H as <-; split; [constructor|discriminate]].
  destruct (gp_for_pf r o (q_opt_ix r) pts pend j) as [g|] eqn:Eg; [|discriminate]. injection H as <-. split.
  - constructor; [|constructor]. split; [reflexivity|]. exists j. split; [exact Hj|exact Eg].
  - intros t' Et. injection Et as <-. exists (mkpf PfLogistic t g). split; [left; reflexivity|]. split; reflexivity.
Qed.

Lemma eps_pfs_origin r o pts pend pf : info_ok r = true ->
  eps_pfs r o pts pend = Some pf ->
  Forall (fun p => p_kind p = PfLogistic /\
                   exists j, (j < length (q_opt_ix r))%nat /\ gp_for_pf r o (q_opt_ix r) pts pend j = Some (p_gp p)) pf /\
  match q_info r with
  | EpsC om cm eps =>
      exists p, In p pf /\ gp_for_pf r o (q_opt_ix r) pts pend cm = Some (p_gp p) /\
                p_thr p = eps_threshold_view eps cm (v_values o) (v_thresholds o)
  | _ => pf = []
  end.
Proof.
  intros Hi H. unfold eps_pfs in H. apply info_ok_pair in Hi.
  destruct (q_info r) as [|om cm|w0 w1|om cm eps]; try (injection H as <-; split; [constructor|reflexivity]).
  destruct Hi as [Hl Hs]. cbv zeta in H.
  match type of H with match ?a with _ => _ end = _ => destruct a as [l0|] eqn:E0; [|discriminate] end.
  match type of H with match ?b with _ => _ end = _ => destruct b as [l1|] eqn:E1; [|discriminate] end.
  injection H as <-.
  apply logistic_pf in E0; [destruct E0 as [F0 T0]|lia]. apply logistic_pf in E1; [destruct E1 as [F1 T1]|lia].
  split; [apply Forall_app; split; assumption|].
  (* the constrained metric is one of the two, and its threshold is the epsilon one *)
  destruct (Nat.eqb_spec cm 0) as [->|Hcm].
  - destruct (T0 _ eq_refl) as (p & Hp & Eg & Et). exists p. split; [apply in_or_app; left; exact Hp|]. split; assumption.
  - assert (cm = 1%nat) by lia. subst cm.
    destruct (T1 _ eq_refl) as (p & Hp & Eg & Et). exists p. split; [apply in_or_app; right; exact Hp|]. split; assumption.
Qed.

Lemma shape_lengths r : shape_ok r = true ->
  length (q_values r) = length (q_points r) /\ length (q_vars r) = length (q_points r) /\
  length (q_fails r) = length (q_points r) /\ q_eval r <> [].
Proof.
  unfold shape_ok. intro H. repeat (apply andb_true_iff in H; destruct H as [H ?]).
  repeat match goal with E : Nat.eqb _ _ = true |- _ => apply Nat.eqb_eq in E end.
  repeat split; try assumption. intro E. rewrite E in *. discriminate.
Qed.

Lemma preprocess_rows ix vals vars fails objs thr o : length fails = length vals ->
  preprocess ix vals vars fails objs thr = Some o -> length (v_values o) = length vals.
Proof.
  intros L H. destruct (Proofs.Midpoint.view_law ix vals vars fails objs thr L) as (out & E & _ & Hl & _).
  rewrite E in H. injection H as <-. exact Hl.
Qed.

Definition dpf : pf_desc := mkpf PfCdf 0 (mkgp O [] [] [] KC4 [] None []).

(* the failure models of the constraint metrics: one per constraint metric, in order, each on its own column of the
   preprocessed constraint block *)
Lemma con_pfs_origin r pts pend pf : con_pfs r pts pend = Some pf ->
  length (q_fails r) = length (q_values r) -> length pts = length (q_values r) ->
  length pf = length (q_con_ix r) /\
  forall k, (k < length (q_con_ix r))%nat ->
    exists c, con_of r = Some c /\ p_kind (nth k pf dpf) = PfCdf /\
      nth k (v_thresholds c) None = Some (p_thr (nth k pf dpf)) /\
      from_block r pend pts c (q_con_ix r) k (p_gp (nth k pf dpf)).
Proof.
  unfold con_pfs. intros H Lf Lp. destruct (q_con_ix r) as [|c0 ix].
  - injection H as <-. split; [reflexivity|]. intros k Hk. inversion Hk.
  - destruct (con_of r) as [c|] eqn:Hc; [|discriminate].
    destruct (sequence_map_seq_nth _ _ _ dpf H) as [Hlen Hnth]. split; [exact Hlen|].
    intros k Hk. specialize (Hnth k Hk). cbv beta in Hnth. exists c. split; [reflexivity|].
    destruct (nth k (v_thresholds c) None) as [t|]; [|discriminate].
    destruct (gp_for_pf r c (c0 :: ix) pts pend k) as [g|] eqn:Eg; simpl in Hnth; [|discriminate].
    injection Hnth as Hn. rewrite <- Hn. split; [reflexivity|]. split; [reflexivity|].
    apply gp_for_pf_block; [exact Eg|exact Hk|]. unfold con_of in Hc. rewrite (preprocess_rows _ _ _ _ _ _ c Lf Hc). exact Lp.
Qed.

(* what a successful run fixes: the intermediate results, how the fields of the description are made of them, and the
   lengths that make the tables fit together *)
Inductive wired (r : request) (d : af_desc) : Prop :=
  Wired (o : view_out) (pts pend : list row) (pf1 pf2 : list pf_desc)
    (w_info : info_ok r = true) (w_opt : opt_of r = Some o)
    (w_pts : encode_rows (q_dom r) (has_tasks r) (q_points r) (q_costs r) = Some pts)
    (w_pend : encode_rows (q_dom r) (has_tasks r) (q_pending r) (q_pending_costs r) = Some pend)
    (w_eval : encode_rows (q_dom r) (has_tasks r) (q_eval r) (q_eval_costs r) = Some (a_eval d))
    (w_main : main_gps r o pts pend = Some (a_gps d, a_weights d))
    (w_eps : eps_pfs r o pts pend = Some pf1) (w_con : con_pfs r pts pend = Some pf2)
    (w_pfs : a_pfs d = pf1 ++ pf2) (w_cost : a_cost d = has_tasks r)
    (w_kind : a_kind d = choose_af (use_qei r pend) (negb (Nat.eqb (length (a_pfs d)) 0))
                                   (pred_noise (a_gps d) (a_weights d)))
    (w_pending : a_pending d = (if use_qei r pend then pend else []))
    (w_batch : a_batch d = (if use_qei r pend then Z.min (q_max_af r) MAX_QEI_POINTS else q_max_af r))
    (w_best : a_best d = match a_kind d with AfEI | AfQEI => min_q (pred_vals (a_gps d) (a_weights d)) | _ => None end)
    (w_fails : length (q_fails r) = length (q_values r)) (w_values : length (q_values r) = length (q_points r))
    (w_len : length pts = length (q_values r)) (w_len_o : length pts = length (v_values o)).

Lemma wire_inv r d : wire r = Some d -> wired r d.
Proof.
  unfold wire. intros H.
  destruct (shape_ok r && info_ok r) eqn:E1; simpl in H; [|discriminate].
  apply andb_true_iff in E1. destruct E1 as [Hs Hi].
  destruct (opt_of r) as [o|] eqn:Ho; [|discriminate].
  destruct (encode_rows (q_dom r) (has_tasks r) (q_points r) (q_costs r)) as [pts|] eqn:Ep; [|discriminate].
  destruct (encode_rows (q_dom r) (has_tasks r) (q_pending r) (q_pending_costs r)) as [pend|] eqn:Epe; [|discriminate].
  destruct (encode_rows (q_dom r) (has_tasks r) (q_eval r) (q_eval_costs r)) as [ev|] eqn:Eev; [|discriminate].
  destruct (main_gps r o pts pend) as [[gs ws]|] eqn:Em; [|discriminate].
  destruct (eps_pfs r o pts pend) as [pf1|] eqn:Ef1; [|discriminate].
  destruct (con_pfs r pts pend) as [pf2|] eqn:Ef2; [|discriminate].
  cbv zeta in H.
  match type of H with (if ?c then _ else _) = _ => destruct c; [discriminate|] end.
  injection H as <-.
  destruct (shape_lengths r Hs) as (Lv & _ & Lf & _). destruct (encode_rows_spec _ _ _ _ _ Ep) as [Lp _].
  assert (Lfv : length (q_fails r) = length (q_values r)) by congruence.
  assert (Lpv : length pts = length (q_values r)) by congruence.
  apply (Wired r _ o pts pend pf1 pf2); cbn [a_kind a_gps a_weights a_pfs a_pending a_cost a_batch a_eval a_best];
    try first [reflexivity|assumption].
  rewrite (preprocess_rows _ _ _ _ _ _ o Lfv (opt_of_pre r o Ho)). exact Lpv.
Qed.

Lemma wire_origins r d : wire r = Some d ->
  exists pts pend,
    encode_rows (q_dom r) (has_tasks r) (q_points r) (q_costs r) = Some pts /\
    encode_rows (q_dom r) (has_tasks r) (q_pending r) (q_pending_costs r) = Some pend /\
    length (q_fails r) = length (q_values r) /\ length pts = length (q_values r) /\
    length (q_values r) = length (q_points r) /\
    Forall (origin r pend pts) (all_gps d).
Proof.
  intros H. destruct (wire_inv r d H).
  exists pts, pend. repeat (split; [assumption|]).
  unfold all_gps. rewrite w_pfs. apply Forall_app. split.
  - destruct (main_origin r o pts pend _ _ w_opt w_info w_len_o w_main) as [F _].
    eapply Forall_impl; [|exact F]. intros g (j & B). exists (q_opt_ix r), o, j. auto using in_eq, opt_of_pre.
  - rewrite map_app. apply Forall_app. split.
    + destruct (eps_pfs_origin r o pts pend pf1 w_info w_eps) as [F _].
      apply Forall_forall. intros g Hg. apply in_map_iff in Hg. destruct Hg as (p & <- & Hp).
      rewrite Forall_forall in F. destruct (F p Hp) as (_ & j & Hj & E).
      exists (q_opt_ix r), o, j. split; [apply in_eq|]. split; [apply opt_of_pre; exact w_opt|]. apply gp_for_pf_block; assumption.
    + destruct (con_pfs_origin r pts pend pf2 w_con w_fails w_len) as [Hlen Hn].
      apply Forall_forall. intros g Hg. apply in_map_iff in Hg. destruct Hg as (p & <- & Hp).
      destruct (In_nth _ _ dpf Hp) as (i & Hi' & <-). rewrite Hlen in Hi'. destruct (Hn i Hi') as (c & Hc & _ & _ & B).
      exists (q_con_ix r), c, i. split; [right; apply in_eq|]. split; [exact Hc|exact B].
Qed.

Lemma sequence_app {A} (a b : list (option A)) r : sequence (a ++ b) = Some r ->
  exists ra rb, sequence a = Some ra /\ sequence b = Some rb /\ r = ra ++ rb.
Proof.
  revert r. induction a as [|[x|] a IH]; intros r H; simpl in *.
  - exists [], r. auto.
  - destruct (sequence (a ++ b)) as [r'|] eqn:E; [|discriminate]. injection H as <-.
    destruct (IH r' eq_refl) as (ra & rb & -> & Hb & ->). exists (x :: ra), rb. auto.
  - discriminate.
Qed.

Lemma hyper_vec_layout cs h hv : hyper_vec cs h = Some hv ->
  exists ls, sequence (ls_to_one_hot cs (hp_ls h)) = Some ls /\
             hv = hp_alpha h :: ls ++ match hp_task h with None => [] | Some t => [t] end.
Proof.
  unfold hyper_vec. intros H. simpl in H.
  destruct (sequence (ls_to_one_hot cs (hp_ls h) ++ match hp_task h with None => [] | Some t => [Some t] end)) as [t|] eqn:E;
    [|discriminate].
  injection H as <-. destruct (sequence_app _ _ _ E) as (ra & rb & Ha & Hb & ->). exists ra. split; [exact Ha|].
  f_equal. f_equal. destruct (hp_task h); simpl in Hb; injection Hb as <-; reflexivity.
Qed.

Theorem selection_law r d g : wire r = Some d -> In g (all_gps d) ->
  In (g_metric g) (q_opt_ix r ++ q_con_ix r) /\
  exists h ls, nth_error (q_hypers r) (g_metric g) = Some h /\
    sequence (ls_to_one_hot (comps (q_dom r)) (hp_ls h)) = Some ls /\
    g_hyp g = hp_alpha h :: ls ++ match hp_task h with None => [] | Some t => [t] end /\
    length (g_hyp g) = S (dim_with_task r) /\ Forall (fun x => 0 < x) (g_hyp g) /\
    g_tik g = hp_tik h /\ g_kernel g = (if has_tasks r then KC4xSE else KC4) /\
    poly_indices (q_mean r) (q_poly r) (dim_with_task r) = Some (g_mean g).
Proof.
  intros H Hg. destruct (wire_origins r d H) as (pts & pend & _ & _ & _ & _ & _ & F).
  rewrite Forall_forall in F. specialize (F g Hg).
  destruct F as (ix & src & j & Hix & _ & Hj & keep & dn & E).
  destruct (single_gp_inv _ _ _ _ _ _ _ _ E).
  split.
  - rewrite b_metric. apply in_or_app. destruct Hix as [<- | [<- | []]]; [left|right]; apply nth_In; exact Hj.
  - destruct (hyper_vec_layout _ _ _ b_vec) as (ls & Els & Ehyp). exists h, ls. rewrite b_metric. auto 10.
Qed.

(* the law of one (encoded observation, value) pair of a Gaussian process on metric m with C12 scaling object i and lie l *)
Definition row_pair (r : request) (pts : list row) (m : nat) (i : info) (l : Q) (xy : row * Q) : Prop :=
  exists k, (k < length (q_points r))%nat /\ fst xy = nth k pts [] /\
            snd xy = if nth k (q_fails r) false then rel_value i l else rel_value i (nth m (nth k (q_values r) []) 0).

Lemma block_values_law r pend pts src ix j g :
  preprocess ix (q_values r) (q_vars r) (q_fails r) (q_objs r) (q_thr r) = Some src ->
  length (q_fails r) = length (q_values r) -> length pts = length (q_values r) -> length (q_values r) = length (q_points r) ->
  from_block r pend pts src ix j g ->
  let m := g_metric g in
  m = nth j ix O /\
  exists i l, smmi (column m (q_values r)) (q_fails r) (nth m (q_objs r) NoObjective) = Some i /\
    lie_value i LieMin = Some l /\
    nth j (v_thresholds src) None = option_map (rel_value i) (nth m (q_thr r) None) /\
    exists dp dv, length dp = length dv /\
      g_pts g = lied r dp pend /\ g_vals g = lied r dv (repeat (rel_value i l) (length pend)) /\
      Forall (row_pair r pts m i l) (combine dp dv) /\
      Forall (fun y => y <= rel_value i l) (g_vals g).
Proof.
  intros Hpre Lf Lp Lv (Hj & keep & dn & E) m.
  destruct (single_gp_inv _ _ _ _ _ _ _ _ E).
  destruct (Proofs.Midpoint.view_law ix (q_values r) (q_vars r) (q_fails r) (q_objs r) (q_thr r) Lf)
    as (out & Eo & Hlie & Hvals & Hlaw).
  rewrite Hpre in Eo. injection Eo as <-.
  destruct (Hlaw j Hj) as (i & l & Hsm & Hl & Hlv & Hrow & Hle & Hthr).
  subst m. rewrite b_metric. split; [reflexivity|]. exists i, l. split; [exact Hsm|]. split; [exact Hl|]. split; [exact Hthr|].
  (* both facts hold on the whole table, row by row, hence on the rows the mask keeps *)
  assert (P : Forall (row_pair r pts (nth j ix O) i l) (combine pts (col j (v_values src)))).
  { apply Forall_forall. intros [x y] Hxy. destruct (In_combine_nth _ _ _ _ [] 0 Hxy) as (k & Hk1 & Hk2 & Hx & Hy).
    rewrite Proofs.Filters.col_length in Hk2. exists k. split; [congruence|]. split; [symmetry; exact Hx|]. cbn [snd].
    rewrite <- Hy, <- Proofs.Pareto.at_col by exact Hk2. apply Hrow. rewrite <- Hvals. exact Hk2. }
  assert (Q1 : Forall (fun y => y <= rel_value i l) (col j (v_values src))).
  { apply Forall_forall. intros y Hy. destruct (In_nth _ _ 0 Hy) as (k & Hk & <-).
    rewrite Proofs.Filters.col_length in Hk. rewrite <- Proofs.Pareto.at_col by exact Hk.
    rewrite <- Hlv. apply Hle. rewrite <- Hvals. exact Hk. }
  apply (incl_Forall (Proofs.Pareto.select_incl keep _)) in P, Q1. rewrite Proofs.Filters.select_combine in P.
  exists (Pareto.select keep pts), (Pareto.select keep (col j (v_values src))). split; [|split; [exact b_pts|]].
  { apply Proofs.Filters.select_length_eq. rewrite Proofs.Filters.col_length. congruence. }
  rewrite b_vals, Hlv. split; [reflexivity|]. split; [exact P|].
  unfold lied. destruct (is_cl r); [|exact Q1]. apply Forall_app. split; [exact Q1|].
  apply Forall_forall. intros y Hy. apply repeat_spec in Hy. subst y. apply Qle_refl.
Qed.

(* failure model k of the constraint metrics is built from raw column con_ix[k] alone: its threshold is that metric's user
   threshold under that metric's own scaling, its data that column's *)
Lemma constraint_model_law r pts pend pf k : con_pfs r pts pend = Some pf ->
  length (q_fails r) = length (q_values r) -> length pts = length (q_values r) -> length (q_values r) = length (q_points r) ->
  (k < length (q_con_ix r))%nat ->
  let p := nth k pf dpf in let m := nth k (q_con_ix r) O in
  p_kind p = PfCdf /\ g_metric (p_gp p) = m /\
  exists i l t,
    smmi (column m (q_values r)) (q_fails r) (nth m (q_objs r) NoObjective) = Some i /\ lie_value i LieMin = Some l /\
    nth m (q_thr r) None = Some t /\ p_thr p = rel_value i t /\
    exists dp dv, length dp = length dv /\
      g_pts (p_gp p) = lied r dp pend /\ g_vals (p_gp p) = lied r dv (repeat (rel_value i l) (length pend)) /\
      Forall (row_pair r pts m i l) (combine dp dv) /\
      Forall (fun y => y <= rel_value i l) (g_vals (p_gp p)).
Proof.
  intros H Lf Lp Lv Hk p m. destruct (con_pfs_origin r pts pend pf H Lf Lp) as [_ Hn].
  destruct (Hn k Hk) as (c & Hc & K1 & K2 & B). fold p in K1, K2, B.
  destruct (block_values_law r pend pts c (q_con_ix r) k (p_gp p) Hc Lf Lp Lv B) as (Em & i & l & A1 & A2 & A3 & D).
  fold m in Em. rewrite Em in A1, A3, D. rewrite K2 in A3.
  destruct (nth m (q_thr r) None) as [t|]; [|discriminate A3]. injection A3 as ->.
  split; [exact K1|]. split; [exact Em|]. exists i, l, t. auto.
Qed.

Theorem values_law r d g : wire r = Some d -> In g (all_gps d) ->
  let m := g_metric g in
  exists pts pend i l,
    encode_rows (q_dom r) (has_tasks r) (q_points r) (q_costs r) = Some pts /\
    encode_rows (q_dom r) (has_tasks r) (q_pending r) (q_pending_costs r) = Some pend /\
    smmi (column m (q_values r)) (q_fails r) (nth m (q_objs r) NoObjective) = Some i /\
    lie_value i LieMin = Some l /\
    exists dp dv, length dp = length dv /\
      g_pts g = lied r dp pend /\ g_vals g = lied r dv (repeat (rel_value i l) (length pend)) /\
      Forall (row_pair r pts m i l) (combine dp dv) /\
      Forall (fun y => y <= rel_value i l) (g_vals g).
Proof.
  intros H Hg m. destruct (wire_origins r d H) as (pts & pend & Ep & Epe & Lfv & Lpv & Lv & F).
  rewrite Forall_forall in F. specialize (F g Hg).
  exists pts, pend. destruct F as (ix & src & j & _ & Hpre & B).
  destruct (block_values_law r pend pts src ix j g Hpre Lfv Lpv Lv B)
    as (_ & i & l & A1 & A2 & _ & dp & dv & A3 & A4 & A5 & A6 & A7).
  exists i, l. repeat (split; [assumption|]). exists dp, dv. auto.
Qed.

Theorem main_metric_law r d : wire r = Some d ->
  match q_info r with
  | Convex w0 w1 => a_weights d = [w0; w1] /\ length (a_gps d) = length (q_opt_ix r) /\
                    forall i, (i < length (q_opt_ix r))%nat -> g_metric (nth i (a_gps d) dgp) = nth i (q_opt_ix r) O
  | EpsC om cm eps =>
      a_weights d = [] /\ exists g o pts pend, a_gps d = [g] /\ g_metric g = nth om (q_opt_ix r) O /\
        opt_of r = Some o /\ encode_rows (q_dom r) (has_tasks r) (q_points r) (q_costs r) = Some pts /\
        encode_rows (q_dom r) (has_tasks r) (q_pending r) (q_pending_costs r) = Some pend /\
        g_pts g = lied r (Pareto.select (map negb (pf_labelling eps om cm (v_values o) (q_fails r))) pts) pend
  | i => a_weights d = [] /\ exists g, a_gps d = [g] /\ g_metric g = nth (opt_metric i) (q_opt_ix r) O
  end.
Proof.
  intros H. destruct (wire_inv r d H).
  destruct (main_origin r o pts pend _ _ w_opt w_info w_len_o w_main) as [_ M].
  destruct (q_info r) as [|om cm|w0 w1|om cm eps].
  1-2: destruct M as (-> & g & -> & E); split; [reflexivity|]; exists g; split; [reflexivity|];
       exact (single_gp_metric _ _ _ _ _ _ _ _ E).
  - destruct M as (-> & Hl & Hn). split; [reflexivity|]. split; [exact Hl|]. intros i Hlt.
    exact (single_gp_metric _ _ _ _ _ _ _ _ (Hn i Hlt)).
  - destruct M as (-> & g & -> & E). split; [reflexivity|]. exists g, o, pts, pend. split; [reflexivity|].
    destruct (single_gp_inv _ _ _ _ _ _ _ _ E). auto 10.
Qed.

Theorem failure_models_law r d : wire r = Some d ->
  exists pf1 pf2, a_pfs d = pf1 ++ pf2 /\
    Forall (fun p => p_kind p = PfLogistic /\ In (g_metric (p_gp p)) (q_opt_ix r)) pf1 /\
    match q_info r with
    | EpsC om cm eps => exists p o, In p pf1 /\ opt_of r = Some o /\ g_metric (p_gp p) = nth cm (q_opt_ix r) O /\
                                    p_thr p = eps_threshold_view eps cm (v_values o) (v_thresholds o)
    | _ => pf1 = []
    end /\
    length pf2 = length (q_con_ix r) /\
    forall k, (k < length (q_con_ix r))%nat ->
      let p := nth k pf2 dpf in let m := nth k (q_con_ix r) O in
      p_kind p = PfCdf /\ g_metric (p_gp p) = m /\
      exists i t, smmi (column m (q_values r)) (q_fails r) (nth m (q_objs r) NoObjective) = Some i /\
                  nth m (q_thr r) None = Some t /\ p_thr p = rel_value i t.
Proof.
  intros H. destruct (wire_inv r d H).
  exists pf1, pf2. split; [exact w_pfs|].
  destruct (eps_pfs_origin r o pts pend pf1 w_info w_eps) as [F1 M1].
  split.
  { eapply Forall_impl; [|exact F1]. intros p (Hk & j & Hj & E). split; [exact Hk|].
    rewrite (single_gp_metric _ _ _ _ _ _ _ _ E). apply nth_In. exact Hj. }
  split.
  { destruct (q_info r) as [|om cm|w0 w1|om cm eps]; try exact M1.
    destruct M1 as (p & Hp & E & Ht). exists p, o. split; [exact Hp|]. split; [exact w_opt|]. split; [|exact Ht].
    exact (single_gp_metric _ _ _ _ _ _ _ _ E). }
  split; [exact (proj1 (con_pfs_origin r pts pend pf2 w_con w_fails w_len))|]. intros k Hk.
  destruct (constraint_model_law r pts pend pf2 k w_con w_fails w_len w_values Hk) as (K & Em & i & l & t & Hsm & _ & Et & Ht & _).
  split; [exact K|]. split; [exact Em|]. exists i, t. auto.
Qed.

Lemma choose_af_spec q f noise :
  let k := choose_af q f noise in
  (k = AfQEI <-> q = true /\ f = false) /\ (k = AfQEIF <-> q = true /\ f = true) /\
  (k = AfEIF <-> q = false /\ f = true) /\
  (k = AfAEI <-> q = false /\ f = false /\ AEI_THRESHOLD < mean_q noise) /\
  (k = AfEI <-> q = false /\ f = false /\ mean_q noise <= AEI_THRESHOLD).
Proof.
  unfold choose_af. destruct q, f; cbv zeta; cbn [negb].
  4: destruct (Pareto.Qltb AEI_THRESHOLD (mean_q noise)) eqn:E;
     [apply Proofs.Pareto.Qltb_lt in E|apply Proofs.Pareto.Qltb_ge in E].
  all: repeat split; intros; repeat match goal with H : _ /\ _ |- _ => destruct H end;
       try discriminate; try reflexivity; try assumption.
  all: exfalso; eapply Qlt_not_le; eassumption.
Qed.

Theorem af_choice_law r d : wire r = Some d ->
  exists pend, encode_rows (q_dom r) (has_tasks r) (q_pending r) (q_pending_costs r) = Some pend /\
  let par := use_qei r pend in
  let fm := negb (Nat.eqb (length (a_pfs d)) 0) in
  let noise := pred_noise (a_gps d) (a_weights d) in
  (par = true <-> q_par r = QEI /\ q_pending r <> []) /\
  (fm = false <-> q_con_ix r = [] /\ forall om cm eps, q_info r <> EpsC om cm eps) /\
  (a_kind d = AfQEI <-> par = true /\ fm = false) /\ (a_kind d = AfQEIF <-> par = true /\ fm = true) /\
  (a_kind d = AfEIF <-> par = false /\ fm = true) /\
  (a_kind d = AfAEI <-> par = false /\ fm = false /\ AEI_THRESHOLD < mean_q noise) /\
  (a_kind d = AfEI <-> par = false /\ fm = false /\ mean_q noise <= AEI_THRESHOLD) /\
  a_pending d = (if par then pend else []) /\
  a_batch d = (if par then Z.min (q_max_af r) MAX_QEI_POINTS else q_max_af r) /\
  a_best d = match a_kind d with AfEI | AfQEI => min_q (pred_vals (a_gps d) (a_weights d)) | _ => None end.
Proof.
  intros H. destruct (wire_inv r d H).
  exists pend. split; [exact w_pend|]. intros par fm noise.
  destruct (encode_rows_spec _ _ _ _ _ w_pend) as [Lpe _].
  split.
  { subst par. unfold use_qei. rewrite Lpe.
    destruct (q_par r), (q_pending r); cbn; split; try discriminate; try (intros [D N]; congruence).
    intros _. split; [reflexivity|discriminate]. }
  split.
  { subst fm. rewrite w_pfs.
    destruct (eps_pfs_origin r o pts pend pf1 w_info w_eps) as [_ M1].
    destruct (con_pfs_origin r pts pend pf2 w_con w_fails w_len) as [L2 _].
    rewrite app_length, L2. split.
    - intro E. apply negb_false_iff in E. apply Nat.eqb_eq in E.
      split; [destruct (q_con_ix r); [reflexivity|simpl in E; lia]|].
      intros om cm eps Ei. rewrite Ei in M1. destruct M1 as (p & Hp & _). destruct pf1; [contradiction|simpl in E; congruence].
    - intros [E0 Hn]. rewrite E0. destruct (q_info r) as [|om cm|w0 w1|om cm eps]; try (rewrite M1; reflexivity).
      exfalso. apply (Hn om cm eps). reflexivity. }
  change (a_kind d = choose_af par fm noise) in w_kind.
  destruct (choose_af_spec par fm noise) as (C1 & C2 & C3 & C4 & C5). cbv zeta in C1, C2, C3, C4, C5.
  rewrite <- w_kind in C1, C2, C3, C4, C5.
  split; [exact C1|]. split; [exact C2|]. split; [exact C3|]. split; [exact C4|]. split; [exact C5|].
  split; [exact w_pending|]. split; [exact w_batch|]. exact w_best.
Qed.

Theorem encoding_law r d : wire r = Some d ->
  length (a_eval d) = length (q_eval r) /\ a_cost d = has_tasks r /\
  forall k, (k < length (q_eval r))%nat ->
    let p := nth k (q_eval r) [] in
    let c := if has_tasks r then Some (nth k (q_eval_costs r) 0) else None in
    nth k (a_eval d) [] = encode_with_task (q_dom r) p c /\
    encode_ok (comps (q_dom r)) p = true /\
    (has_tasks r = true -> last (nth k (a_eval d) []) 1 = nth k (q_eval_costs r) 0) /\
    (wf_domain (q_dom r) = true -> Admissible (q_dom r) p ->
       exists q, decode_det (q_dom r) (firstn (one_hot_dim (comps (q_dom r))) (nth k (a_eval d) [])) = Some q /\ peq q p).
Proof.
  intros H. destruct (wire_inv r d H).
  destruct (encode_rows_spec _ _ _ _ _ w_eval) as [Le Hn]. split; [exact Le|]. split; [exact w_cost|].
  intros k Hk p c. destruct (Hn k Hk) as (_ & Hok & _ & Hrow). fold p in Hok, Hrow. fold c in Hrow.
  split; [exact Hrow|]. split; [exact Hok|]. split.
  - intro Ht. rewrite Hrow. subst c. rewrite Ht. simpl. apply last_last.
  - intros Hwf Hadm. destruct (Proofs.Decode.round_roundtrip (q_dom r) p Hwf Hadm) as (q & Hq & Hpq & _ & Hlen).
    exists q. split; [|exact Hpq]. rewrite Hrow. subst c. unfold encode_with_task.
    destruct (has_tasks r).
    + rewrite (Proofs.Decode.firstn_app_len _ _ _ Hlen). exact Hq.
    + rewrite <- Hlen. rewrite firstn_all. exact Hq.
Qed.

Theorem cost_division_law r d af : wire r = Some d -> length af = length (q_eval r) ->
  (has_tasks r = false -> finalize d af = af) /\
  (has_tasks r = true -> length (finalize d af) = length af /\
     forall k, (k < length af)%nat -> nth k (finalize d af) 0 = nth k af 0 / nth k (q_eval_costs r) 0).
Proof.
  intros H L. destruct (encoding_law r d H) as (Le & Ac & Hn). unfold finalize. rewrite Ac. split.
  - intros ->. reflexivity.
  - intros Ht. rewrite Ht. split.
    + rewrite Proofs.Midpoint.length_map2. lia.
    + intros k Hk. rewrite (Proofs.Midpoint.nth_map2 _ af (a_eval d) k 0 [] 0) by congruence.
      destruct (Hn k ltac:(lia)) as (_ & _ & Hl & _). rewrite (Hl Ht). reflexivity.
Qed.

Theorem sign_and_scale_law r d g : wire r = Some d -> In g (all_gps d) ->
  let m := g_metric g in
  exists i, smmi (column m (q_values r)) (q_fails r) (nth m (q_objs r) NoObjective) = Some i /\
    forall a b, Proofs.Midpoint.better (nth m (q_objs r) NoObjective) a b <-> rel_value i a < rel_value i b.
Proof.
  intros H Hg m. destruct (values_law r d g H Hg) as (pts & pend & i & l & _ & _ & Hsm & _).
  exists i. split; [exact Hsm|]. intros a b. exact (Proofs.Midpoint.order_law_c _ _ _ i a b Hsm).
Qed.
