(* C01 — every suggested point is a feasible, well-formed configuration.
   Statements, each closed by `exact` of a lemma of Proofs/ and followed by Print Assumptions; the examples are concrete instances.  Models: LV.Model.EndpointTail (the endpoint
   tails) composed of LV.Model.Decode (C09) and LV.Model.Distinct (C10); vocabulary (relaxed_ok, qorc_ok, fill_contract,
   random_contract, spe_contract, draws_ok, resp_ok, count_ok, costs_ok) in LV.Proofs.EndpointTail.

   resp_ok d opts n r  :=  every point of r is Admissible d  /\  (|points| = n  \/  |points| < n and d is fully discrete or
                           int-constrained)  /\  (no options: no costs | options: one cost per point, each an option).
   relaxed_ok d x      :=  x lies in the relaxed (one-hot) box of d and satisfies the double-typed constraints: what the
                           optimisers / one-hot samplers deliver (C07, C08).  The *_contract hypotheses are the range
                           contracts of numpy.random / scipy.stats / the one-hot sampler for the calls actually made. *)
From Coq Require Import QArith SetoidList.
From LV Require Import Model.Domain Model.Decode Model.EndpointTail Proofs.Domain Proofs.Decode Proofs.EndpointTail.
Import ListNotations.
Open Scope Q_scope.

(* The boolean evaluated in Coq on the implementation's responses is the specification. *)
Theorem C01_response_spec_decided d opts n r : resp_okb d opts n r = true <-> resp_ok d opts n r.
Proof. exact (resp_okb_spec d opts n r). Qed.
Print Assumptions C01_response_spec_decided.

(* map_one_hot_points_to_categorical, whole batch, int constraints included: every feasible relaxed batch decodes to
   admissible configurations, whatever the shuffles, the random-neighbour draws and the category choices are. *)
Theorem C01_decode_admissible {O} (choose : O -> row -> list Z -> option Z) d rnds perms oss xs ps :
  choose_member choose -> wf_domain d = true -> Forall (relaxed_ok d) xs ->
  decode_batch_gen choose d rnds perms oss xs = Some ps -> Forall (Admissible d) ps.
Proof. exact (decode_batch_admissible choose d rnds perms oss xs ps). Qed.
Print Assumptions C01_decode_admissible.

(* ... one configuration per relaxed row, fewer only on an int-constrained domain, never more. *)
Theorem C01_decode_count {O} (choose : O -> row -> list Z -> option Z) d rnds perms oss xs ps :
  (length xs <= length oss)%nat -> decode_batch_gen choose d rnds perms oss xs = Some ps ->
  (length ps <= length xs)%nat /\ (is_int_constrained d = false -> length ps = length xs).
Proof. exact (decode_batch_length choose d rnds perms oss xs ps). Qed.
Print Assumptions C01_decode_count.

(* The discrete neighbour search of the GP endpoint (int floor/ceil lattice x all category assignments, rounded), for every
   acquisition function and every option, hands feasible relaxed points to the decode. *)
Theorem C01_neighbour_search_stays_feasible o d af xs :
  wf_domain d = true -> Forall (relaxed_ok d) xs -> Forall (relaxed_ok d) (find_best o d af xs).
Proof. exact (find_best_relaxed_ok o d af xs). Qed.
Print Assumptions C01_neighbour_search_stays_feasible.

(* replace_duplicate_points: kept proposals plus fresh in-domain points; size restored unless discrete / int-constrained. *)
Theorem C01_replace_duplicates_admissible d pts hist tol orc q out : wf_domain d = true -> Forall (Admissible d) pts ->
  (forall u2, kept_of d pts hist tol = Some u2 -> fill_contract d (DS.zlen pts - DS.zlen u2) hist orc q) ->
  replace_dups d pts hist tol orc q = Some out ->
  Forall (Admissible d) out /\ (length out <= length pts)%nat /\
  (is_discrete d = false -> is_int_constrained d = false -> length out = length pts).
Proof. exact (replace_dups_ok d pts hist tol orc q out). Qed.
Print Assumptions C01_replace_duplicates_admissible.

(* quasi-random and prior draws in the categorical domain *)
Theorem C01_random_points_admissible d ps n pcols q pts : wf_domain d = true -> random_contract d ps n pcols q ->
  random_pts d ps n pcols q = Some pts ->
  Forall (Admissible d) pts /\ (length pts <= Z.to_nat n)%nat /\ (is_int_constrained d = false -> length pts = Z.to_nat n).
Proof. exact (random_pts_ok d ps n pcols q pts). Qed.
Print Assumptions C01_random_points_admissible.

(* ---- the endpoint tails.  The count rule and the task-cost rule are the second and third conjunct of resp_ok (count_ok, costs_ok). *)
Theorem C01_tail_gp_admissible d parallel af xs hist hist_oh o r :
  wf_domain d = true -> Forall (relaxed_ok d) xs -> (length xs <= length (o_cats (g_dec o)))%nat ->
  (forall pts u2, convert_from_one_hot d parallel af (g_dec o) xs = Some pts -> kept_of d pts hist uniq_tol = Some u2 ->
     fill_contract d (DS.zlen pts - DS.zlen u2) hist (g_choice o) (g_q o)) ->
  gp_tail d [] parallel af xs hist hist_oh o = Some r -> resp_ok d [] (length xs) r.
Proof. exact (tail_gp_admissible d parallel af xs hist hist_oh o r). Qed.
Print Assumptions C01_tail_gp_admissible.

Theorem C01_tail_gp_multitask_admissible d opts af xs hist hist_oh o r :
  wf_domain d = true -> opts <> [] -> list_min opts < list_max opts ->
  Forall (relaxed_ok (with_task d opts)) xs -> (length xs <= length (o_cats (g_dec o)))%nat ->
  (forall pts aug u2, convert_from_one_hot (with_task d opts) false af (g_dec o) xs = Some pts ->
     decode_b (with_task d opts) (g_hdec o) hist_oh = Some aug -> kept_of (with_task d opts) pts aug uniq_tol = Some u2 ->
     fill_contract (with_task d opts) (DS.zlen pts - DS.zlen u2) aug (g_choice o) (g_q o)) ->
  gp_tail d opts false af xs hist hist_oh o = Some r -> resp_ok d opts (length xs) r.
Proof. exact (tail_gp_multitask_admissible d opts af xs hist hist_oh o r). Qed.
Print Assumptions C01_tail_gp_multitask_admissible.

Theorem C01_tail_random_admissible d opts ps n pcols q draws r : wf_domain d = true -> (0 <= n)%Z ->
  random_contract d ps n pcols q ->
  (forall pts, random_pts d ps n pcols q = Some pts -> opts <> [] -> draws_ok opts (length pts) draws) ->
  random_tail d opts ps n pcols q draws = Some r -> resp_ok d opts (Z.to_nat n) r.
Proof. exact (tail_random_admissible d opts ps n pcols q draws r). Qed.
Print Assumptions C01_tail_random_admissible.

Theorem C01_tail_spe_admissible d opts ps path n o r : wf_domain d = true -> (0 <= n)%Z ->
  match path with
  | SPERandom => random_contract d ps n (s_pcols o) (s_q o)
  | SPEDraw => spe_contract d (Z.to_nat n) o
  end ->
  (forall r', spe_tail d opts ps path n o = Some r' -> opts <> [] -> draws_ok opts (length (r_points r')) (s_draws o)) ->
  spe_tail d opts ps path n o = Some r -> resp_ok d opts (Z.to_nat n) r.
Proof. exact (tail_spe_admissible d opts ps path n o r). Qed.
Print Assumptions C01_tail_spe_admissible.

Theorem C01_tail_search_admissible d ph u parallel af xs hist hist_oh o r :
  wf_domain d = true -> Forall (relaxed_ok d) xs -> (length xs <= length (o_cats (g_dec o)))%nat ->
  (forall par pts u2, convert_from_one_hot d par af (g_dec o) xs = Some pts -> kept_of d pts hist uniq_tol = Some u2 ->
     fill_contract d (DS.zlen pts - DS.zlen u2) hist (g_choice o) (g_q o)) ->
  search_tail d [] ph u parallel af xs hist hist_oh o = Some r -> resp_ok d [] (length xs) r.
Proof. exact (tail_search_admissible d ph u parallel af xs hist hist_oh o r). Qed.
Print Assumptions C01_tail_search_admissible.

Theorem C01_tail_spe_search_admissible d ps ph path n o r : wf_domain d = true -> (0 <= n)%Z ->
  match ph, path with
  | SInit, _ | SExploit, SPERandom => random_contract d ps n (s_pcols o) (s_q o)
  | _, _ => spe_contract d (Z.to_nat n) o
  end ->
  spe_search_tail d [] ps ph path n o = Some r -> resp_ok d [] (Z.to_nat n) r.
Proof. exact (tail_spe_search_admissible d ps ph path n o r). Qed.
Print Assumptions C01_tail_spe_search_admissible.

(* select_random_task_by_softmax: the probabilities handed to numpy.random.choice are exp(-c_i)/sum_j exp(-c_j)
   (exponentials as given positive numbers): positive, sum to one, and a cheaper task is never less likely. *)
Theorem C01_softmax_spec exps : exps <> [] -> Forall (fun e => 0 < e) exps ->
  length (softmax exps) = length exps /\
  Forall (fun p => 0 < p) (softmax exps) /\
  qsum_plain (softmax exps) == 1 /\
  (forall i j, (i < length exps)%nat -> (j < length exps)%nat ->
     nth i (softmax exps) 0 == nth i exps 0 / qsum_plain exps /\
     (nth j exps 0 <= nth i exps 0 -> nth j (softmax exps) 0 <= nth i (softmax exps) 0)).
Proof. exact (softmax_spec exps). Qed.
Print Assumptions C01_softmax_spec.

(* non-vacuity: a constrained four-component domain; the second proposal duplicates the first and is replaced by a fresh
   decoded point of the one-hot sampler *)
Example C01_example :
  wf_domain ex_dom = true /\
  gp_tail ex_dom [] false (fun x => nth 1 x 0) [[(3#2); (13#4); (1#8); (1#4); (1#2); 2]; [(3#2); (13#4); (1#8); (1#4); (1#2); 2]]
    [[0; 0; 5; (1#4)]] [] ex_gporc
  = Some {| r_points := [[(3#2); 4; 7; (5#2)]; [3; 0; 1; (5#2)]]; r_costs := None |}.
Proof. exact gp_tail_example. Qed.
