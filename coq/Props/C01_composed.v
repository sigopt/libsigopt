(* C01 composed with C07 and C08: the optimiser / sampler stage in front of the endpoint tails of Props/C01.v.
   Statements, each closed by `exact` of a lemma of Proofs/ and followed by Print Assumptions; the examples are concrete instances.

   Models: LV.Model.Compose01 (glue: the relaxed search domain in C08's / C07's types, the one-hot sampler, the optimiser
   stage of the GP endpoint, the proposal loop of the Parzen endpoint, the end-to-end endpoints) over LV.Model.Restrict /
   Samplers (C08), LV.Model.Optim (C07), LV.Model.EndpointTail (C01).  Vocabulary (LV.Proofs.Compose01):

   oh_dom d            the one-hot ContinuousDomain of d as a C08 domain: bounds one_hot_box d, EVERY constraint of d (double-
                       and int-typed) with its weights spread over the relaxed coordinates
   RP.feasible D p     C08's region: p in the bounds of D and  weights . p >= rhs  for every constraint, EXACTLY (rationals);
                       on the running code C01 / C08 read constraints within 1e-9 * max(1,|rhs|) (DESIGN 7.0)
   RP.interior D c     c has the right length and is strictly inside every halfspace row (what find_interior_point returns
                       when it reports feasibility, C08_cheby_flag_gives_interior)
   cons_two d          every constraint has two or more non-zero weights (C08's quantifier; DESIGN 11.5: a one-variable
                       constraint is a bound and is not enforced by restrict_points_using_constraints)
   unit_stream us      every uniform handed to a restriction lies in [0,1];  vorc_ok, mode_ok: that for each optimiser run
   samp_ok d n o       range contracts of the primitive draws of the one-hot sampler (unit rows in [0,1], Latin-hypercube
                       offsets in [0,1/n) and permutations, hit-and-run draw triples, enough of them when padding runs)
   quasi_prim, random_prim, fill_prim, near_prim, spe_prim
                       the same for generate_quasi_random_points_in_domain / priors / generate_distinct_random_points /
                       generate_random_points_near_point / draw_samples: ranges of numpy / scipy draws only.
   No hypothesis of the form `relaxed_ok d x` is left. *)
From Coq Require Import QArith SetoidList.
From LV Require Import Model.Domain Model.Decode Model.EndpointTail Proofs.Domain Proofs.Decode Proofs.EndpointTail.
From LV Require Import Model.Compose01 Proofs.Compose01.
Import ListNotations.
Open Scope Q_scope.

(* ---- bridges between the three domain vocabularies *)
(* C08 -> C01: a point of C08's region of the search domain is what the tails ask for. *)
Theorem C01_composed_feasible_is_relaxed_ok d p : RP.feasible (oh_dom d) p -> relaxed_ok d p.
Proof. exact (feasible_relaxed_ok d p). Qed.
Print Assumptions C01_composed_feasible_is_relaxed_ok.

(* C07 -> C01: C07's boolean domain test (Model/Optim.v in_dom_b, the one its correspondence evaluates on every batch the
   real optimisers hand to the acquisition function) on the representation derived from d - lower / upper bounds of the
   relaxed box, any fixed coordinates, every constraint - gives the box exactly and every constraint within the tolerance
   tol that test was run with; at tol = 0 it gives relaxed_ok.  (C07's THEOREMS are generic in the domain predicate and
   carry no tolerance: below they are instantiated with C08's exact region.) *)
Theorem C01_composed_in_dom_b_tolerance tol d fixed p :
  OP.in_dom_b tol (oh_lb d) (oh_ub d) fixed (oh_cons d) p = true -> relaxed_ok_tol tol d p.
Proof. exact (in_dom_b_relaxed tol d fixed p). Qed.
Print Assumptions C01_composed_in_dom_b_tolerance.
Theorem C01_composed_in_dom_b_exact d fixed p :
  OP.in_dom_b 0 (oh_lb d) (oh_ub d) fixed (oh_cons d) p = true -> relaxed_ok d p.
Proof. exact (in_dom_b_relaxed_ok d fixed p). Qed.
Print Assumptions C01_composed_in_dom_b_exact.

(* ---- the two contracts C07 asks of the restriction hold for C08's restriction of the search domain, for EVERY batch:
   every returned row of the right length is in the region (okpt d q := length q = oh_dim d -> RP.feasible (oh_dom d) q) *)
Theorem C01_composed_restriction_contract d fixed c us : wf_domain d = true -> cons_two d ->
  (is_constrained d = true -> RP.interior (oh_dom d) c) -> (forall k, Forall RP.unit_interval (us k)) ->
  RP.fixed_valid (oh_dom d) fixed ->
  (forall k b, Forall (okpt d) (oh_restrict d fixed c us k b)) /\ (forall k b, length (oh_restrict d fixed c us k b) = length b).
Proof. exact (oh_restrict_contract d fixed c us). Qed.
Print Assumptions C01_composed_restriction_contract.

(* the a-priori task as a fixed last coordinate of the domain with the task column is a valid fixed index *)
Theorem C01_composed_task_fixed_valid d opts t : wf_domain d = true -> In t opts ->
  RP.fixed_valid (oh_dom (with_task d opts)) (task_fixed d t).
Proof. exact (task_fixed_valid d opts t). Qed.
Print Assumptions C01_composed_task_fixed_valid.

(* ---- the one-hot sampler (all four branches): n feasible rows *)
Theorem C01_composed_sampler_feasible d c n o rows : wf_domain d = true ->
  (is_constrained d = true -> RP.interior (oh_dom d) c) -> samp_ok d n o -> oh_sample d c n o = Some rows ->
  Forall (RP.feasible (oh_dom d)) rows /\ length rows = n.
Proof. exact (oh_sample_ok d c n o rows). Qed.
Print Assumptions C01_composed_sampler_feasible.

(* ---- the optimiser stage of the GP endpoint: for every PARTIAL acquisition function (row -> option Q, None = NaN, as in C07's
   model; of the lies appended so far; a batch without any defined value ends the stage in SErr (SOpt ValueError)), every
   incumbent, every optimiser parameter set, every pretest set and every stream of draws, every point the stage returns
   lies in the relaxed box and satisfies every constraint; the count is the requested one.
   One call of vectorized_acquisition_optimization first ... *)
Theorem C01_composed_vec_acq_opt d fixed c af best_obs P pretest o p : stage_ctx d fixed c -> vorc_ok o ->
  vec_acq_opt d fixed c af best_obs P pretest o = SOk p -> length p = oh_dim d -> RP.feasible (oh_dom d) p.
Proof. exact (vec_acq_opt_okpt d fixed c af best_obs P pretest o p). Qed.
Print Assumptions C01_composed_vec_acq_opt.
(* ... then the constant-liar loop, the one-suggestion parallel-EI run and the search endpoint's own loop. *)
Theorem C01_composed_gp_stage_relaxed_ok D fixed c afl best n m xs : stage_ctx D fixed c -> mode_ok m ->
  gp_stage D fixed c afl best n m = SOk xs -> Forall (relaxed_ok D) xs /\ length xs = n.
Proof. exact (gp_stage_relaxed_ok D fixed c afl best n m xs). Qed.
Print Assumptions C01_composed_gp_stage_relaxed_ok.

(* ---- END TO END.  resp_ok d opts n r: every point of r Admissible d, the count rule, the task-cost rule. *)
(* random endpoint (and the random / initialisation branches of the Parzen endpoints) *)
Theorem C01_composed_random_endpoint d opts ps n pcols c so cols dec draws r : wf_domain d = true -> (0 <= n)%Z ->
  (is_constrained d = true -> RP.interior (oh_dom d) c) -> random_prim d ps n pcols c so cols dec ->
  (opts <> [] -> draws_ok opts (length (r_points r)) draws) ->
  random_endpoint d opts ps n pcols c so cols dec draws = Some r -> resp_ok d opts (Z.to_nat n) r.
Proof. exact (fun Hwf _ => random_endpoint_admissible d opts ps n pcols c so cols dec draws r Hwf). Qed.
Print Assumptions C01_composed_random_endpoint.

(* GP endpoint without task options, both parallelism modes (and the search endpoint's own optimisation as a third mode).
   afl: the partial acquisition function the optimisers see; aft: the function as the discrete neighbour search of the tail
   sees it - Model/EndpointTail.v models that search for total functions only, so it is a separate arbitrary argument *)
Theorem C01_composed_gp_endpoint d c afl aft best n m hist dec f r :
  wf_domain d = true -> cons_two d -> (is_constrained d = true -> RP.interior (oh_dom d) c) -> mode_ok m ->
  (n <= length (o_cats dec))%nat ->
  (forall xs pts, gp_stage d [] c afl best n m = SOk xs -> convert_from_one_hot d (is_qei m) aft dec xs = Some pts ->
     fill_prim d c (fill_k d pts hist) hist f) ->
  gp_endpoint d c afl aft best n m hist dec f = Some r -> resp_ok d [] n r.
Proof. exact (gp_endpoint_admissible d c afl aft best n m hist dec f r). Qed.
Print Assumptions C01_composed_gp_endpoint.

(* GP endpoint with task options: search domain with the task column, fixed at the task t drawn a priori *)
Theorem C01_composed_gp_endpoint_multitask d opts t ct afl aft best n P pretest os hist_oh dec hdec f r :
  wf_domain d = true -> opts <> [] -> list_min opts < list_max opts -> In t opts -> cons_two d ->
  (is_constrained d = true -> RP.interior (oh_dom (with_task d opts)) ct) -> Forall vorc_ok os ->
  (n <= length (o_cats dec))%nat ->
  (forall xs pts aug, cl_stage (with_task d opts) (task_fixed d t) ct afl best P pretest n os = SOk xs ->
     convert_from_one_hot (with_task d opts) false aft dec xs = Some pts ->
     decode_b (with_task d opts) hdec hist_oh = Some aug ->
     fill_prim (with_task d opts) ct (fill_k (with_task d opts) pts aug) aug f) ->
  gp_endpoint_mt d opts t ct afl aft best n P pretest os hist_oh dec hdec f = Some r -> resp_ok d opts n r.
Proof. exact (gp_endpoint_mt_admissible d opts t ct afl aft best n P pretest os hist_oh dec hdec f r). Qed.
Print Assumptions C01_composed_gp_endpoint_multitask.

(* Parzen-estimator endpoint: proposals around the lower points (near point / uniform fall-back), accept / reject, padding *)
Theorem C01_composed_spe_endpoint d opts ps path n c g r : wf_domain d = true -> (0 <= n)%Z -> cons_two d ->
  (is_constrained d = true -> RP.interior (oh_dom d) c) ->
  match path with
  | SPERandom => random_prim d ps n (sg_pcols g) c (sg_rso g) (sg_rcols g) (sg_rdec g)
  | SPEDraw => spe_prim d c (Z.to_nat n) g
  end ->
  (opts <> [] -> draws_ok opts (length (r_points r)) (sg_draws g)) ->
  spe_endpoint d opts ps path n c g = Some r -> resp_ok d opts (Z.to_nat n) r.
Proof. exact (fun Hwf _ => spe_endpoint_admissible d opts ps path n c g r Hwf). Qed.
Print Assumptions C01_composed_spe_endpoint.
(* whatever the SLSQP / L-BFGS-B multistart returned (any rows of the right length), re-restricted it is feasible *)
Theorem C01_composed_spe_max_location d c scipy_out us : wf_domain d = true -> cons_two d ->
  (is_constrained d = true -> RP.interior (oh_dom d) c) -> Forall RP.unit_interval us ->
  Forall (fun p => length p = oh_dim d) scipy_out -> Forall (RP.feasible (oh_dom d)) (spe_max_location d c scipy_out us).
Proof. exact (spe_max_location_feasible d c scipy_out us). Qed.
Print Assumptions C01_composed_spe_max_location.

(* search endpoints (requests without task options) *)
Theorem C01_composed_search_endpoint d c ph u afl aft best n m afl_pi aft_pi Pde maxiter pretest sos hist dec f r :
  wf_domain d = true -> cons_two d -> (is_constrained d = true -> RP.interior (oh_dom d) c) ->
  mode_ok m -> Forall (fun o => unit_stream (so_us o)) sos -> (n <= length (o_cats dec))%nat ->
  (forall afl' aft' m' xs pts, gp_stage d [] c afl' best n m' = SOk xs -> convert_from_one_hot d (is_qei m') aft' dec xs = Some pts ->
     fill_prim d c (fill_k d pts hist) hist f) ->
  search_endpoint d c ph u afl aft best n m afl_pi aft_pi Pde maxiter pretest sos hist dec f = Some r -> resp_ok d [] n r.
Proof. exact (search_endpoint_admissible d c ph u afl aft best n m afl_pi aft_pi Pde maxiter pretest sos hist dec f r). Qed.
Print Assumptions C01_composed_search_endpoint.
Theorem C01_composed_spe_search_endpoint d ps ph path n c g r : wf_domain d = true -> (0 <= n)%Z -> cons_two d ->
  (is_constrained d = true -> RP.interior (oh_dom d) c) ->
  match ph, path with
  | SInit, _ | SExploit, SPERandom => random_prim d ps n (sg_pcols g) c (sg_rso g) (sg_rcols g) (sg_rdec g)
  | _, _ => spe_prim d c (Z.to_nat n) g
  end ->
  spe_search_endpoint d ps ph path n c g = Some r -> resp_ok d [] (Z.to_nat n) r.
Proof. exact (fun Hwf _ => spe_search_endpoint_admissible d ps ph path n c g r Hwf). Qed.
Print Assumptions C01_composed_spe_search_endpoint.

(* non-vacuity: x + y <= 3 in [0,2]^2 with a two-valued categorical (relaxed dimension 4, centre (1/2,1/2,1/2,1/2)).
   Random endpoint: rejection sampling keeps two of three candidates. *)
Example C01_composed_random_example :
  wf_domain cx_dom = true /\ RP.interior (oh_dom cx_dom) cx_c /\ random_prim cx_dom [] 2 [] cx_c cx_so [] cx_dec /\
  random_endpoint cx_dom [] [] 2 [] cx_c cx_so [] cx_dec [] = Some {| r_points := [[2#2; 2#4; 1]; [2#4; 2#2; 2]]; r_costs := None |}.
Proof. exact random_endpoint_example. Qed.
(* GP endpoint: two constant-liar rounds (one DE generation of three members, near-best + random ES starts, one Adam step);
   the first suggestion is pulled onto the face x + y = 3 by the constrained restriction, duplicates the history after the
   decode and is replaced by a fresh point of the rejection sampler.  The acquisition function cx_af is undefined (NaN) for
   y > 3/2; with a function that has no value anywhere the stage ends in the ValueError of numpy.nanargmax. *)
Example C01_composed_gp_example :
  wf_domain cx_dom = true /\ cons_two cx_dom /\ RP.interior (oh_dom cx_dom) cx_c /\ mode_ok cx_mode /\
  gp_stage cx_dom [] cx_c cx_af (fun _ => [1; 1; 1; 0]) 2 cx_mode = SOk [[7#4; 5#4; 1; 0]; [3#2; 1; 1#4; 3#4]] /\
  fill_prim cx_dom cx_c 1 cx_hist cx_fill /\
  gp_endpoint cx_dom cx_c cx_af cx_aft (fun _ => [1; 1; 1; 0]) 2 cx_mode cx_hist cx_dec cx_fill
  = Some {| r_points := [[3#2; 1; 2]; [2#8; 2#4; 2]]; r_costs := None |} /\
  gp_stage cx_dom [] cx_c (fun _ _ => None) (fun _ => [1; 1; 1; 0]) 2 cx_mode = SErr (SOpt OP.ValueError).
Proof. exact gp_endpoint_example. Qed.
