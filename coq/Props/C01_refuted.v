(* C01, clause "every valid request gets a response holding the requested number of points, fewer only when a fully discrete
   or int-constrained domain cannot supply them": FALSE of the GP (and search) view as written.  The tail returns fewer points
   on an int-constrained domain (allowed), but the view's own assertion only tolerates a short batch on a fully discrete
   domain.  Witness: ints x1, x2 in 0..10 and a double, int constraints 3 x1 - 2 x2 >= 0.9 and -3 x1 + 2 x2 >= -1.1; the
   relaxed point (7/3, 3, 1/2) satisfies both relaxed constraints but neither neighbour (2,3), (3,3) does.
   Finding "C01:gp-search:int-constrained-short-batch-assertion-error"; replayed on the real endpoint by tools/props/C01.py. *)
From Coq Require Import List QArith.
From LV Require Import Model.Domain Model.Decode Model.EndpointTail Model.EndpointTailCorr.
Import ListNotations.
Open Scope Q_scope.

Definition band_dom : domain :=
  {| comps := [Int 0 10; Int 0 10; Double 0 1];
     cons := [{| weights := [3; -2; 0]; rhs := 9 # 10; cty := CInt |}; {| weights := [-3; 2; 0]; rhs := -(11 # 10); cty := CInt |}] |}.
Definition band_orc : gporc :=
  {| g_dec := {| o_rnds := []; o_perms := [[0%nat; 1%nat]]; o_cats := [[]] |}; g_hdec := {| o_rnds := []; o_perms := []; o_cats := [] |};
     g_choice := []; g_q := {| q_cols := []; q_rows := []; q_dec := {| o_rnds := []; o_perms := []; o_cats := [] |} |} |}.

Theorem C01_gp_short_batch_refuted :
  exists d af xs hist o,
    wf_domain d = true /\ is_int_constrained d = true /\ admissibleb d [1; 1; 1 # 2] = true /\
    forallb (relaxed_okb d) xs = true /\ forallb (sat_cons (comps d) (int_cons d)) xs = true /\
    gp_tail d [] false af xs hist [] o = Some {| r_points := []; r_costs := None |} /\
    resp_okb d [] (length xs) {| r_points := []; r_costs := None |} = true /\
    gp_view d [] false af xs hist [] o = None.
Proof.
  exists band_dom, (fun _ => 0), [[7 # 3; 3; 1 # 2]], [[1; 1; 1 # 2]], band_orc. vm_compute. repeat split; reflexivity.
Qed.
Print Assumptions C01_gp_short_batch_refuted.
