(* C01, "for multitask experiments ... each [task cost] drawn from the supplied task options (by the model-based endpoints with
   probability proportional to exp(-cost), so cheaper tasks are preferred)": statements about Gen.GenSoftmax.Softmax.task_probability,
   the probability vector select_random_task_by_softmax hands to numpy.random.choice over the task options, REGENERATED from
   views/rest/gp_next_points_categorical.py on every run.  Only statements, each closed by `exact`. *)
From Coq Require Import Reals.
From LV Require Import Lib.RBase Gen.GenSoftmax Proofs.SoftmaxGen.
Open Scope R_scope.

(* for every non-empty list of task costs (any real costs): a probability vector - every entry in (0, 1], entries summing to 1 *)
Theorem C01_task_probabilities_are_a_distribution n c : (0 < n)%nat ->
  (forall i, 0 < Softmax.task_probability n c i) /\ (forall i, (i < n)%nat -> Softmax.task_probability n c i <= 1) /\
  bigsum n (Softmax.task_probability n c) = 1.
Proof. exact (fun Hn => conj (fun i => task_probability_pos n c i Hn) (conj (task_probability_le_one n c) (task_probability_sums_to_one n c Hn))). Qed.
Print Assumptions C01_task_probabilities_are_a_distribution.

(* proportional to exp(-cost): p_i = exp(c_j - c_i) p_j for all i, j; hence a cheaper task is never less likely and a strictly
   cheaper one strictly more likely *)
Theorem C01_task_probability_proportional_to_exp_minus_cost n c i j : (0 < n)%nat ->
  Softmax.task_probability n c i = exp (c j - c i) * Softmax.task_probability n c j /\
  (c i <= c j -> Softmax.task_probability n c j <= Softmax.task_probability n c i) /\
  (c i < c j -> Softmax.task_probability n c j < Softmax.task_probability n c i).
Proof. exact (fun Hn => conj (task_probability_ratio n c i j Hn) (task_probability_monotone n c i j Hn)). Qed.
Print Assumptions C01_task_probability_proportional_to_exp_minus_cost.
