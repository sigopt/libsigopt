(* C02 composed with C03 (MATERN kernels C0, C2, C4; C4 is the library's default): the posterior covariance matrix the generated GP computes
   is positive semi-definite, UNCONDITIONALLY apart from the Cholesky contract C02 already carries — the Matern counterpart of
   Props/C02_se_psd.v, with the same reading of the blocks:
     Kker    n x n   build_kernel_matrix(points_sampled)                    kernel_matrix_sym dim xs (zero noise) i j; GenGP's kernel_matrix adds
                                                                            diag(noise) (C02_*_kernel_matrix_is_generated)
     K_eval  m x n   build_kernel_matrix(points_sampled, points_to_sample)  kernel_matrix_cross dim xs xe i j: ROW i = evaluation point i
     Kss     m x m   build_kernel_matrix(points_to_sample)                  kernel_matrix_sym dim xe (zero noise) i j
   The joint Gram matrix [[Kker + diag noise, K_eval^T], [K_eval, Kss]] IS the generated kernel_matrix_sym of the concatenated point set with
   the noise padded by zeros (C02_*_joint_gram_is_generated), hence PSD by Props/C03_matern_psd.v (Schoenberg scale mixtures, proved).
   Hypotheses: 0 <= alpha, noise >= 0, the Cholesky contract; the guard on the length scales is stated as the library enforces it although
   the proofs do not use it.  Any n, m, dimension, points, length scales.
   Statements, each assembled in a few steps from the lemmas of Proofs/ and followed by Print Assumptions (proofs: Section Kernel of Proofs/ComposePsd.v at C0_kernel, C2_kernel, C4_kernel of
   Proofs/MaternPsd.v). *)
From Coq Require Import Reals.
From mathcomp Require Import ssreflect ssrbool ssrnat fintype ssralg ssrnum zmodp matrix.
From LV Require Import Lib.MxAux Lib.RStruct Gen.GenGP Gen.GenCovariance Proofs.MaternPsd Proofs.LogLikFull Proofs.ComposePsd Proofs.ComposePsdMatern.
Set Implicit Arguments. Unset Strict Implicit. Unset Printing Implicit Defensive.
Import GRing.Theory.
Local Open Scope ring_scope.

(* ================================================================== C0RadialMatern *)
Theorem C02_c0_kernel_matrix_is_generated n dim xs ls lsq lcu alpha (noise : 'cV[R]_n) :
  GPNoise.kernel_matrix (\matrix_(i, j) C0RadialMatern.kernel_matrix_sym dim xs (fun _ => 0%Re) ls lsq lcu alpha i j) noise
  = \matrix_(i, j) C0RadialMatern.kernel_matrix_sym dim xs (cvv noise) ls lsq lcu alpha i j.
Proof. exact: (kernel_matrix_generated C0_kernel). Qed.
Print Assumptions C02_c0_kernel_matrix_is_generated.

Theorem C02_c0_joint_gram_is_generated n m dim xs xe ls lsq lcu alpha (noise : 'cV[R]_n) :
  let Kker : 'M[R]_n := \matrix_(i, j) C0RadialMatern.kernel_matrix_sym dim xs (fun _ => 0%Re) ls lsq lcu alpha i j in
  let K_eval : 'M[R]_(m, n) := \matrix_(i, j) C0RadialMatern.kernel_matrix_cross dim xs xe ls lsq lcu alpha i j in
  let Kss : 'M[R]_m := \matrix_(i, j) C0RadialMatern.kernel_matrix_sym dim xe (fun _ => 0%Re) ls lsq lcu alpha i j in
  (forall a, (a < n)%N -> joinp n xs xe a = xs a) /\ (forall i, joinp n xs xe (n + i)%N = xe i) /\
  block_mx (GPNoise.kernel_matrix Kker noise) K_eval^T K_eval Kss
  = (\matrix_(a, b) C0RadialMatern.kernel_matrix_sym dim (joinp n xs xe) (cvv noise) ls lsq lcu alpha a b : 'M[R]_(n + m)).
Proof.
  move=> Kker K_eval Kss. split; first exact: joinp_l. split; first exact: joinp_r.
  exact: (joint_gram_generated C0_kernel).
Qed.
Print Assumptions C02_c0_joint_gram_is_generated.

(* THE COMPOSED THEOREM, per-point noise: the kernel matrix the GP factors is the generated C0 matrix with noise; the joint Gram matrix is
   PSD; the posterior covariance (polynomial-mean and zero-mean instances) is PSD *)
Theorem C02_c0_posterior_covariance_psd n m dim (chol : 'M[R]_n -> 'M[R]_n) xs xe ls lsq lcu alpha (noise : 'cV[R]_n) :
  (forall k, Rlt 0 (ls k)) -> Rle 0 alpha -> (forall i, Rle 0 (noise i 0)) ->
  let Kker : 'M[R]_n := \matrix_(i, j) C0RadialMatern.kernel_matrix_sym dim xs (fun _ => 0%Re) ls lsq lcu alpha i j in
  let K_eval : 'M[R]_(m, n) := \matrix_(i, j) C0RadialMatern.kernel_matrix_cross dim xs xe ls lsq lcu alpha i j in
  let Kss : 'M[R]_m := \matrix_(i, j) C0RadialMatern.kernel_matrix_sym dim xe (fun _ => 0%Re) ls lsq lcu alpha i j in
  let K := GPNoise.kernel_matrix Kker noise in
  chol K *m (chol K)^T = K -> chol K \in unitmx ->
  K = \matrix_(i, j) C0RadialMatern.kernel_matrix_sym dim xs (cvv noise) ls lsq lcu alpha i j /\
  psd (block_mx K K_eval^T K_eval Kss) /\
  psd (GPNoise.cov chol Kker noise K_eval Kss) /\
  psd (GPNoiseZeroMean.cov chol Kker noise K_eval Kss).
Proof. move=> _ Ha Hn Kker K_eval Kss K. exact: (kernel_posterior_cov_psd C0_kernel C0_profile_schur m xe Ha Hn). Qed.
Print Assumptions C02_c0_posterior_covariance_psd.

(* pointwise posterior variance (compute_variance_of_points): the value floored at min_var is the diagonal of the posterior covariance and is
   NON-NEGATIVE in exact arithmetic *)
Theorem C02_c0_posterior_variance_nonneg n m dim (chol : 'M[R]_n -> 'M[R]_n) xs xe ls lsq lcu alpha (noise : 'cV[R]_n) (min_var : R) :
  (forall k, Rlt 0 (ls k)) -> Rle 0 alpha -> (forall i, Rle 0 (noise i 0)) ->
  let Kker : 'M[R]_n := \matrix_(i, j) C0RadialMatern.kernel_matrix_sym dim xs (fun _ => 0%Re) ls lsq lcu alpha i j in
  let K_eval : 'M[R]_(m, n) := \matrix_(i, j) C0RadialMatern.kernel_matrix_cross dim xs xe ls lsq lcu alpha i j in
  let Kss : 'M[R]_m := \matrix_(i, j) C0RadialMatern.kernel_matrix_sym dim xe (fun _ => 0%Re) ls lsq lcu alpha i j in
  let kxx : 'cV[R]_m := \col_i C0RadialMatern.covariance dim xe xe ls lsq lcu alpha i in
  let K := GPNoise.kernel_matrix Kker noise in
  chol K *m (chol K)^T = K -> chol K \in unitmx ->
  let v := kxx - diagcol (K_eval *m invmx K *m K_eval^T) in
  GPNoise.var_tri chol Kker noise K_eval kxx min_var = floor_at min_var v /\
  (forall i, v i 0 = GPNoise.cov chol Kker noise K_eval Kss i i) /\
  (forall i, Rle 0 (v i 0)).
Proof. move=> _ Ha Hn Kker K_eval Kss kxx K. exact: (kernel_posterior_variance C0_kernel C0_profile_schur m xe Ha Hn min_var). Qed.
Print Assumptions C02_c0_posterior_variance_nonneg.

(* both square blocks built by the other entry point (points_to_sample = the same point set: the clamped-expansion path) *)
Theorem C02_c0_posterior_covariance_psd_cross_blocks n m dim (chol : 'M[R]_n -> 'M[R]_n) xs xe ls lsq lcu alpha (noise : 'cV[R]_n) :
  (forall k, Rlt 0 (ls k)) -> Rle 0 alpha -> (forall i, Rle 0 (noise i 0)) ->
  let Kker : 'M[R]_n := \matrix_(i, j) C0RadialMatern.kernel_matrix_cross dim xs xs ls lsq lcu alpha i j in
  let K_eval : 'M[R]_(m, n) := \matrix_(i, j) C0RadialMatern.kernel_matrix_cross dim xs xe ls lsq lcu alpha i j in
  let Kss : 'M[R]_m := \matrix_(i, j) C0RadialMatern.kernel_matrix_cross dim xe xe ls lsq lcu alpha i j in
  let K := GPNoise.kernel_matrix Kker noise in
  chol K *m (chol K)^T = K -> chol K \in unitmx ->
  psd (GPNoise.cov chol Kker noise K_eval Kss).
Proof. move=> _ Ha Hn Kker K_eval Kss K. exact: (kernel_posterior_cov_psd_cross C0_kernel C0_profile_schur xe Ha Hn). Qed.
Print Assumptions C02_c0_posterior_covariance_psd_cross_blocks.

(* Tikhonov nugget instead of the per-point noise (GPNugget) *)
Theorem C02_c0_posterior_covariance_psd_nugget n m dim (chol : 'M[R]_n -> 'M[R]_n) xs xe ls lsq lcu alpha (tik : R) :
  (forall k, Rlt 0 (ls k)) -> Rle 0 alpha -> Rle 0 tik ->
  let Kker : 'M[R]_n := \matrix_(i, j) C0RadialMatern.kernel_matrix_sym dim xs (fun _ => 0%Re) ls lsq lcu alpha i j in
  let K_eval : 'M[R]_(m, n) := \matrix_(i, j) C0RadialMatern.kernel_matrix_cross dim xs xe ls lsq lcu alpha i j in
  let Kss : 'M[R]_m := \matrix_(i, j) C0RadialMatern.kernel_matrix_sym dim xe (fun _ => 0%Re) ls lsq lcu alpha i j in
  let K := GPNugget.kernel_matrix Kker tik in
  chol K *m (chol K)^T = K -> chol K \in unitmx ->
  psd (GPNugget.cov chol Kker tik K_eval Kss).
Proof. move=> _ Ha Ht Kker K_eval Kss K. exact: (kernel_posterior_cov_psd_nugget C0_kernel C0_profile_schur xe Ha Ht). Qed.
Print Assumptions C02_c0_posterior_covariance_psd_nugget.

(* ================================================================== C2RadialMatern *)
Theorem C02_c2_kernel_matrix_is_generated n dim xs ls lsq lcu alpha (noise : 'cV[R]_n) :
  GPNoise.kernel_matrix (\matrix_(i, j) C2RadialMatern.kernel_matrix_sym dim xs (fun _ => 0%Re) ls lsq lcu alpha i j) noise
  = \matrix_(i, j) C2RadialMatern.kernel_matrix_sym dim xs (cvv noise) ls lsq lcu alpha i j.
Proof. exact: (kernel_matrix_generated C2_kernel). Qed.
Print Assumptions C02_c2_kernel_matrix_is_generated.

Theorem C02_c2_joint_gram_is_generated n m dim xs xe ls lsq lcu alpha (noise : 'cV[R]_n) :
  let Kker : 'M[R]_n := \matrix_(i, j) C2RadialMatern.kernel_matrix_sym dim xs (fun _ => 0%Re) ls lsq lcu alpha i j in
  let K_eval : 'M[R]_(m, n) := \matrix_(i, j) C2RadialMatern.kernel_matrix_cross dim xs xe ls lsq lcu alpha i j in
  let Kss : 'M[R]_m := \matrix_(i, j) C2RadialMatern.kernel_matrix_sym dim xe (fun _ => 0%Re) ls lsq lcu alpha i j in
  (forall a, (a < n)%N -> joinp n xs xe a = xs a) /\ (forall i, joinp n xs xe (n + i)%N = xe i) /\
  block_mx (GPNoise.kernel_matrix Kker noise) K_eval^T K_eval Kss
  = (\matrix_(a, b) C2RadialMatern.kernel_matrix_sym dim (joinp n xs xe) (cvv noise) ls lsq lcu alpha a b : 'M[R]_(n + m)).
Proof.
  move=> Kker K_eval Kss. split; first exact: joinp_l. split; first exact: joinp_r.
  exact: (joint_gram_generated C2_kernel).
Qed.
Print Assumptions C02_c2_joint_gram_is_generated.

(* THE COMPOSED THEOREM, per-point noise: the kernel matrix the GP factors is the generated C2 matrix with noise; the joint Gram matrix is
   PSD; the posterior covariance (polynomial-mean and zero-mean instances) is PSD *)
Theorem C02_c2_posterior_covariance_psd n m dim (chol : 'M[R]_n -> 'M[R]_n) xs xe ls lsq lcu alpha (noise : 'cV[R]_n) :
  (forall k, Rlt 0 (ls k)) -> Rle 0 alpha -> (forall i, Rle 0 (noise i 0)) ->
  let Kker : 'M[R]_n := \matrix_(i, j) C2RadialMatern.kernel_matrix_sym dim xs (fun _ => 0%Re) ls lsq lcu alpha i j in
  let K_eval : 'M[R]_(m, n) := \matrix_(i, j) C2RadialMatern.kernel_matrix_cross dim xs xe ls lsq lcu alpha i j in
  let Kss : 'M[R]_m := \matrix_(i, j) C2RadialMatern.kernel_matrix_sym dim xe (fun _ => 0%Re) ls lsq lcu alpha i j in
  let K := GPNoise.kernel_matrix Kker noise in
  chol K *m (chol K)^T = K -> chol K \in unitmx ->
  K = \matrix_(i, j) C2RadialMatern.kernel_matrix_sym dim xs (cvv noise) ls lsq lcu alpha i j /\
  psd (block_mx K K_eval^T K_eval Kss) /\
  psd (GPNoise.cov chol Kker noise K_eval Kss) /\
  psd (GPNoiseZeroMean.cov chol Kker noise K_eval Kss).
Proof. move=> _ Ha Hn Kker K_eval Kss K. exact: (kernel_posterior_cov_psd C2_kernel C2_profile_schur m xe Ha Hn). Qed.
Print Assumptions C02_c2_posterior_covariance_psd.

(* pointwise posterior variance (compute_variance_of_points): the value floored at min_var is the diagonal of the posterior covariance and is
   NON-NEGATIVE in exact arithmetic *)
Theorem C02_c2_posterior_variance_nonneg n m dim (chol : 'M[R]_n -> 'M[R]_n) xs xe ls lsq lcu alpha (noise : 'cV[R]_n) (min_var : R) :
  (forall k, Rlt 0 (ls k)) -> Rle 0 alpha -> (forall i, Rle 0 (noise i 0)) ->
  let Kker : 'M[R]_n := \matrix_(i, j) C2RadialMatern.kernel_matrix_sym dim xs (fun _ => 0%Re) ls lsq lcu alpha i j in
  let K_eval : 'M[R]_(m, n) := \matrix_(i, j) C2RadialMatern.kernel_matrix_cross dim xs xe ls lsq lcu alpha i j in
  let Kss : 'M[R]_m := \matrix_(i, j) C2RadialMatern.kernel_matrix_sym dim xe (fun _ => 0%Re) ls lsq lcu alpha i j in
  let kxx : 'cV[R]_m := \col_i C2RadialMatern.covariance dim xe xe ls lsq lcu alpha i in
  let K := GPNoise.kernel_matrix Kker noise in
  chol K *m (chol K)^T = K -> chol K \in unitmx ->
  let v := kxx - diagcol (K_eval *m invmx K *m K_eval^T) in
  GPNoise.var_tri chol Kker noise K_eval kxx min_var = floor_at min_var v /\
  (forall i, v i 0 = GPNoise.cov chol Kker noise K_eval Kss i i) /\
  (forall i, Rle 0 (v i 0)).
Proof. move=> _ Ha Hn Kker K_eval Kss kxx K. exact: (kernel_posterior_variance C2_kernel C2_profile_schur m xe Ha Hn min_var). Qed.
Print Assumptions C02_c2_posterior_variance_nonneg.

(* both square blocks built by the other entry point (points_to_sample = the same point set: the clamped-expansion path) *)
Theorem C02_c2_posterior_covariance_psd_cross_blocks n m dim (chol : 'M[R]_n -> 'M[R]_n) xs xe ls lsq lcu alpha (noise : 'cV[R]_n) :
  (forall k, Rlt 0 (ls k)) -> Rle 0 alpha -> (forall i, Rle 0 (noise i 0)) ->
  let Kker : 'M[R]_n := \matrix_(i, j) C2RadialMatern.kernel_matrix_cross dim xs xs ls lsq lcu alpha i j in
  let K_eval : 'M[R]_(m, n) := \matrix_(i, j) C2RadialMatern.kernel_matrix_cross dim xs xe ls lsq lcu alpha i j in
  let Kss : 'M[R]_m := \matrix_(i, j) C2RadialMatern.kernel_matrix_cross dim xe xe ls lsq lcu alpha i j in
  let K := GPNoise.kernel_matrix Kker noise in
  chol K *m (chol K)^T = K -> chol K \in unitmx ->
  psd (GPNoise.cov chol Kker noise K_eval Kss).
Proof. move=> _ Ha Hn Kker K_eval Kss K. exact: (kernel_posterior_cov_psd_cross C2_kernel C2_profile_schur xe Ha Hn). Qed.
Print Assumptions C02_c2_posterior_covariance_psd_cross_blocks.

(* Tikhonov nugget instead of the per-point noise (GPNugget) *)
Theorem C02_c2_posterior_covariance_psd_nugget n m dim (chol : 'M[R]_n -> 'M[R]_n) xs xe ls lsq lcu alpha (tik : R) :
  (forall k, Rlt 0 (ls k)) -> Rle 0 alpha -> Rle 0 tik ->
  let Kker : 'M[R]_n := \matrix_(i, j) C2RadialMatern.kernel_matrix_sym dim xs (fun _ => 0%Re) ls lsq lcu alpha i j in
  let K_eval : 'M[R]_(m, n) := \matrix_(i, j) C2RadialMatern.kernel_matrix_cross dim xs xe ls lsq lcu alpha i j in
  let Kss : 'M[R]_m := \matrix_(i, j) C2RadialMatern.kernel_matrix_sym dim xe (fun _ => 0%Re) ls lsq lcu alpha i j in
  let K := GPNugget.kernel_matrix Kker tik in
  chol K *m (chol K)^T = K -> chol K \in unitmx ->
  psd (GPNugget.cov chol Kker tik K_eval Kss).
Proof. move=> _ Ha Ht Kker K_eval Kss K. exact: (kernel_posterior_cov_psd_nugget C2_kernel C2_profile_schur xe Ha Ht). Qed.
Print Assumptions C02_c2_posterior_covariance_psd_nugget.

(* ================================================================== C4RadialMatern *)
Theorem C02_c4_kernel_matrix_is_generated n dim xs ls lsq lcu alpha (noise : 'cV[R]_n) :
  GPNoise.kernel_matrix (\matrix_(i, j) C4RadialMatern.kernel_matrix_sym dim xs (fun _ => 0%Re) ls lsq lcu alpha i j) noise
  = \matrix_(i, j) C4RadialMatern.kernel_matrix_sym dim xs (cvv noise) ls lsq lcu alpha i j.
Proof. exact: (kernel_matrix_generated C4_kernel). Qed.
Print Assumptions C02_c4_kernel_matrix_is_generated.

Theorem C02_c4_joint_gram_is_generated n m dim xs xe ls lsq lcu alpha (noise : 'cV[R]_n) :
  let Kker : 'M[R]_n := \matrix_(i, j) C4RadialMatern.kernel_matrix_sym dim xs (fun _ => 0%Re) ls lsq lcu alpha i j in
  let K_eval : 'M[R]_(m, n) := \matrix_(i, j) C4RadialMatern.kernel_matrix_cross dim xs xe ls lsq lcu alpha i j in
  let Kss : 'M[R]_m := \matrix_(i, j) C4RadialMatern.kernel_matrix_sym dim xe (fun _ => 0%Re) ls lsq lcu alpha i j in
  (forall a, (a < n)%N -> joinp n xs xe a = xs a) /\ (forall i, joinp n xs xe (n + i)%N = xe i) /\
  block_mx (GPNoise.kernel_matrix Kker noise) K_eval^T K_eval Kss
  = (\matrix_(a, b) C4RadialMatern.kernel_matrix_sym dim (joinp n xs xe) (cvv noise) ls lsq lcu alpha a b : 'M[R]_(n + m)).
Proof.
  move=> Kker K_eval Kss. split; first exact: joinp_l. split; first exact: joinp_r.
  exact: (joint_gram_generated C4_kernel).
Qed.
Print Assumptions C02_c4_joint_gram_is_generated.

(* THE COMPOSED THEOREM, per-point noise: the kernel matrix the GP factors is the generated C4 matrix with noise; the joint Gram matrix is
   PSD; the posterior covariance (polynomial-mean and zero-mean instances) is PSD *)
Theorem C02_c4_posterior_covariance_psd n m dim (chol : 'M[R]_n -> 'M[R]_n) xs xe ls lsq lcu alpha (noise : 'cV[R]_n) :
  (forall k, Rlt 0 (ls k)) -> Rle 0 alpha -> (forall i, Rle 0 (noise i 0)) ->
  let Kker : 'M[R]_n := \matrix_(i, j) C4RadialMatern.kernel_matrix_sym dim xs (fun _ => 0%Re) ls lsq lcu alpha i j in
  let K_eval : 'M[R]_(m, n) := \matrix_(i, j) C4RadialMatern.kernel_matrix_cross dim xs xe ls lsq lcu alpha i j in
  let Kss : 'M[R]_m := \matrix_(i, j) C4RadialMatern.kernel_matrix_sym dim xe (fun _ => 0%Re) ls lsq lcu alpha i j in
  let K := GPNoise.kernel_matrix Kker noise in
  chol K *m (chol K)^T = K -> chol K \in unitmx ->
  K = \matrix_(i, j) C4RadialMatern.kernel_matrix_sym dim xs (cvv noise) ls lsq lcu alpha i j /\
  psd (block_mx K K_eval^T K_eval Kss) /\
  psd (GPNoise.cov chol Kker noise K_eval Kss) /\
  psd (GPNoiseZeroMean.cov chol Kker noise K_eval Kss).
Proof. move=> _ Ha Hn Kker K_eval Kss K. exact: (kernel_posterior_cov_psd C4_kernel C4_profile_schur m xe Ha Hn). Qed.
Print Assumptions C02_c4_posterior_covariance_psd.

(* pointwise posterior variance (compute_variance_of_points): the value floored at min_var is the diagonal of the posterior covariance and is
   NON-NEGATIVE in exact arithmetic *)
Theorem C02_c4_posterior_variance_nonneg n m dim (chol : 'M[R]_n -> 'M[R]_n) xs xe ls lsq lcu alpha (noise : 'cV[R]_n) (min_var : R) :
  (forall k, Rlt 0 (ls k)) -> Rle 0 alpha -> (forall i, Rle 0 (noise i 0)) ->
  let Kker : 'M[R]_n := \matrix_(i, j) C4RadialMatern.kernel_matrix_sym dim xs (fun _ => 0%Re) ls lsq lcu alpha i j in
  let K_eval : 'M[R]_(m, n) := \matrix_(i, j) C4RadialMatern.kernel_matrix_cross dim xs xe ls lsq lcu alpha i j in
  let Kss : 'M[R]_m := \matrix_(i, j) C4RadialMatern.kernel_matrix_sym dim xe (fun _ => 0%Re) ls lsq lcu alpha i j in
  let kxx : 'cV[R]_m := \col_i C4RadialMatern.covariance dim xe xe ls lsq lcu alpha i in
  let K := GPNoise.kernel_matrix Kker noise in
  chol K *m (chol K)^T = K -> chol K \in unitmx ->
  let v := kxx - diagcol (K_eval *m invmx K *m K_eval^T) in
  GPNoise.var_tri chol Kker noise K_eval kxx min_var = floor_at min_var v /\
  (forall i, v i 0 = GPNoise.cov chol Kker noise K_eval Kss i i) /\
  (forall i, Rle 0 (v i 0)).
Proof. move=> _ Ha Hn Kker K_eval Kss kxx K. exact: (kernel_posterior_variance C4_kernel C4_profile_schur m xe Ha Hn min_var). Qed.
Print Assumptions C02_c4_posterior_variance_nonneg.

(* both square blocks built by the other entry point (points_to_sample = the same point set: the clamped-expansion path) *)
Theorem C02_c4_posterior_covariance_psd_cross_blocks n m dim (chol : 'M[R]_n -> 'M[R]_n) xs xe ls lsq lcu alpha (noise : 'cV[R]_n) :
  (forall k, Rlt 0 (ls k)) -> Rle 0 alpha -> (forall i, Rle 0 (noise i 0)) ->
  let Kker : 'M[R]_n := \matrix_(i, j) C4RadialMatern.kernel_matrix_cross dim xs xs ls lsq lcu alpha i j in
  let K_eval : 'M[R]_(m, n) := \matrix_(i, j) C4RadialMatern.kernel_matrix_cross dim xs xe ls lsq lcu alpha i j in
  let Kss : 'M[R]_m := \matrix_(i, j) C4RadialMatern.kernel_matrix_cross dim xe xe ls lsq lcu alpha i j in
  let K := GPNoise.kernel_matrix Kker noise in
  chol K *m (chol K)^T = K -> chol K \in unitmx ->
  psd (GPNoise.cov chol Kker noise K_eval Kss).
Proof. move=> _ Ha Hn Kker K_eval Kss K. exact: (kernel_posterior_cov_psd_cross C4_kernel C4_profile_schur xe Ha Hn). Qed.
Print Assumptions C02_c4_posterior_covariance_psd_cross_blocks.

(* Tikhonov nugget instead of the per-point noise (GPNugget) *)
Theorem C02_c4_posterior_covariance_psd_nugget n m dim (chol : 'M[R]_n -> 'M[R]_n) xs xe ls lsq lcu alpha (tik : R) :
  (forall k, Rlt 0 (ls k)) -> Rle 0 alpha -> Rle 0 tik ->
  let Kker : 'M[R]_n := \matrix_(i, j) C4RadialMatern.kernel_matrix_sym dim xs (fun _ => 0%Re) ls lsq lcu alpha i j in
  let K_eval : 'M[R]_(m, n) := \matrix_(i, j) C4RadialMatern.kernel_matrix_cross dim xs xe ls lsq lcu alpha i j in
  let Kss : 'M[R]_m := \matrix_(i, j) C4RadialMatern.kernel_matrix_sym dim xe (fun _ => 0%Re) ls lsq lcu alpha i j in
  let K := GPNugget.kernel_matrix Kker tik in
  chol K *m (chol K)^T = K -> chol K \in unitmx ->
  psd (GPNugget.cov chol Kker tik K_eval Kss).
Proof. move=> _ Ha Ht Kker K_eval Kss K. exact: (kernel_posterior_cov_psd_nugget C4_kernel C4_profile_schur xe Ha Ht). Qed.
Print Assumptions C02_c4_posterior_covariance_psd_nugget.

(* non-vacuity (the default kernel C4): one observation at the origin of the plane with noise 1/10, three evaluation points (1,0), (2,0),
   (3,0), length scales (1/2, 2), alpha = 3; the Cholesky factor of the 1 x 1 kernel matrix is its square root: the contract holds and the
   3 x 3 posterior covariance is PSD *)
Definition mex_xs (a k : nat) : R := 0%Re.
Definition mex_xe (a k : nat) : R := match k with O => INR (S a) | _ => 0%Re end.
Definition mex_ls (k : nat) : R := match k with O => (1 / 2)%Re | _ => 2%Re end.
Example C02_c4_posterior_covariance_psd_example :
  let Kker : 'M[R]_1 := \matrix_(i, j) C4RadialMatern.kernel_matrix_sym 2 mex_xs (fun _ => 0%Re) mex_ls mex_ls mex_ls 3%Re i j in
  let K_eval : 'M[R]_(3, 1) := \matrix_(i, j) C4RadialMatern.kernel_matrix_cross 2 mex_xs mex_xe mex_ls mex_ls mex_ls 3%Re i j in
  let Kss : 'M[R]_3 := \matrix_(i, j) C4RadialMatern.kernel_matrix_sym 2 mex_xe (fun _ => 0%Re) mex_ls mex_ls mex_ls 3%Re i j in
  let noise : 'cV[R]_1 := const_mx (1 / 10)%Re in
  let K := GPNoise.kernel_matrix Kker noise in
  (chol11 K *m (chol11 K)^T = K /\ chol11 K \in unitmx) /\ psd (GPNoise.cov chol11 Kker noise K_eval Kss).
Proof.
  move=> Kker K_eval Kss noise K.
  have Ha : Rlt 0 3 by apply: (IZR_lt 0 3).
  have Hn : forall i, Rle 0 (noise i 0) by move=> i; rewrite mxE; apply: Rlt_le; apply: Rdiv_lt_0_compat; [exact: Rlt_0_1|apply: (IZR_lt 0 10)].
  exact: (@C4_posterior_cov_psd_instance 3 2 mex_xs mex_xe mex_ls mex_ls mex_ls 3%Re noise Ha Hn).
Qed.
