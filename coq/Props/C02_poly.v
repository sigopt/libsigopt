(* C02, "a polynomial mean with GLS coefficients": the matrix P the GP hands to the GLS fit and to the predictor is built by
   python_utils.build_polynomial_matrix (model LV.Model.Poly, written once over an arbitrary carrier, run against the code at Q,
   reasoned about here at R).  Statements, each closed by `exact` of a lemma of Proofs/ and followed by Print Assumptions; the examples are concrete instances. *)
From Coq Require Import List Reals.
From LV Require Import Model.Poly Proofs.Poly.
Import ListNotations.
Open Scope R_scope.

(* for every non-empty index list (constant, linear, custom monomials - the constant-mean shortcut included) and points of the
   right dimension, entry (i, j) of the matrix is the monomial  prod_d x_i[d] ^ idx_j[d]  *)
Theorem C02_polynomial_matrix_entries dim idx pts : idx <> [] -> List.Forall (fun p => length p = dim) pts ->
  polymatR dim idx pts = map (fun p => map (monoR p) idx) pts /\ (forall x e, monoR x e = mono_spec x e).
Proof. exact (fun H1 _ => conj (polymat_entries dim idx pts H1) mono_closed_form). Qed.
Print Assumptions C02_polynomial_matrix_entries.

(* the zero mean is one column of zeros (so the mean term P b vanishes whatever b is) *)
Theorem C02_polynomial_matrix_zero_mean dim pts : polymatR dim [] pts = map (fun _ => [0]) pts.
Proof. exact (eq_refl _). Qed.
Print Assumptions C02_polynomial_matrix_zero_mean.

Example C02_polynomial_matrix_example :
  polymatR 2 [[0; 0]; [1; 2]]%nat [[2; 3]; [4; 1]; [0; 8]] = [[1 * 1 * 1; 1 * (2 * 1) * (3 * (3 * 1))]; [1 * 1 * 1; 1 * (4 * 1) * (1 * (1 * 1))]; [1 * 1 * 1; 1 * (0 * 1) * (8 * (8 * 1))]].
Proof. reflexivity. Qed.
