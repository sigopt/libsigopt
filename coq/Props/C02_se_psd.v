(* C02 composed with C03 (SquareExponential): the posterior covariance matrix the generated GP computes is positive semi-definite,
   UNCONDITIONALLY apart from the Cholesky contract C02 already carries.

   C02_variance_and_covariance (Props/C02.v, abstract real field) ends with
       psd (block_mx K K_eval^T K_eval Kss) -> psd (GPNoise.cov chol Kker noise K_eval Kss)
   and C03_se_gram_psd (Props/C03_se_psd.v, Coq's R, nat-indexed sums) says every SquareExponential Gram matrix is PSD.  Here the two are
   joined at F := R (Lib/RStruct.v): for the SE kernel the hypothesis "the joint Gram matrix is PSD" is discharged, because the block matrix
   [[Kker + diag noise, K_eval^T], [K_eval, Kss]] IS the generated kernel_matrix_sym of the concatenated point set (sampled points first,
   then the evaluation points) with the noise vector padded by zeros (C02_se_joint_gram_is_generated).

   Which generated definition (Gen.GenCovariance.SquareExponential, regenerated from covariance.py on every run) gives which block —
   as gaussian_process.py calls them; xs a k / xe a k = coordinate k of sampled / evaluation point a (nat-indexed, as generated):
     Kker    n x n   build_kernel_matrix(points_sampled)               kernel_matrix_sym dim xs (zero noise) i j — GenGP's kernel_matrix
                                                                       adds diag(noise) itself (C02_se_kernel_matrix_is_generated: the sum
                                                                       is kernel_matrix_sym with the noise vector)
     K_eval  m x n   build_kernel_matrix(points_sampled, points_to_sample)
                                                                       kernel_matrix_cross dim xs xe i j: ROW i = evaluation point i,
                                                                       COLUMN j = sampled point j
     Kss     m x m   build_kernel_matrix(points_to_sample)             kernel_matrix_sym dim xe (zero noise) i j
   (C02_se_posterior_covariance_psd_cross_blocks: the same with both square blocks built by kernel_matrix_cross on one point set.)
   Hypotheses: 0 <= alpha, noise >= 0 on the sampled points, the Cholesky contract; the guard "all length scales positive" is stated as the
   library enforces it although the proof does not use it (as in C03_se_gram_psd).  Any n, m, dimension, points, length scales.
   Axioms: the Reals axioms, classic, functional extensionality, constructive_indefinite_description (choiceType structure on R, RStruct).
   Statements, each assembled in a few steps from the lemmas of Proofs/ and followed by Print Assumptions (proofs: Section Kernel of Proofs/ComposePsd.v at SE_kernel of Proofs/SEPsd.v). *)
From Coq Require Import Reals.
From mathcomp Require Import ssreflect ssrbool ssrnat fintype ssralg ssrnum zmodp matrix.
From LV Require Import Lib.MxAux Lib.RStruct Gen.GenGP Gen.GenCovariance Proofs.Hadamard Proofs.SEPsd Proofs.LogLikFull Proofs.ComposePsd.
Set Implicit Arguments. Unset Strict Implicit. Unset Printing Implicit Defensive.
Import GRing.Theory.
Local Open Scope ring_scope.

(* the bridge: the bigsum / nat-indexed notion of PSD (C03) and the MathComp one at R (C02) are the same notion *)
Theorem C02_psdR_iff_psd n (M : nat -> nat -> R) : psdR n M <-> psd (\matrix_(i, j) M i j : 'M[R]_n).
Proof. exact: psdR_iff_psd. Qed.
Print Assumptions C02_psdR_iff_psd.

Theorem C02_psd_iff_psdR n (A : 'M[R]_n) : psd A <-> psdR n (mxv A).
Proof. exact: psd_mxv. Qed.
Print Assumptions C02_psd_iff_psdR.

(* block matrices = concatenated index ranges *)
Theorem C02_block_mx_is_joint_matrix n m (G : nat -> nat -> R) :
  block_mx (\matrix_(i < n, j < n) G i j) (\matrix_(i < n, j < m) G i (n + j)%N)
           (\matrix_(i < m, j < n) G (n + i)%N j) (\matrix_(i < m, j < m) G (n + i)%N (n + j)%N)
  = (\matrix_(a, b) G a b : 'M[R]_(n + m)).
Proof. exact: block_mx_joint. Qed.
Print Assumptions C02_block_mx_is_joint_matrix.

(* GenGP's kernel_matrix (kernel part + diag noise) is the generated symmetric SE kernel matrix with the noise vector *)
Theorem C02_se_kernel_matrix_is_generated n dim xs ls lsq lcu alpha (noise : 'cV[R]_n) :
  GPNoise.kernel_matrix (\matrix_(i, j) SquareExponential.kernel_matrix_sym dim xs (fun _ => 0%Re) ls lsq lcu alpha i j) noise
  = \matrix_(i, j) SquareExponential.kernel_matrix_sym dim xs (cvv noise) ls lsq lcu alpha i j.
Proof. exact: (kernel_matrix_generated SE_kernel). Qed.
Print Assumptions C02_se_kernel_matrix_is_generated.

(* the joint Gram matrix of C02 is the generated kernel matrix of the concatenated point set: joinp n xs xe a = xs a for a < n, xe (a - n) otherwise;
   cvv noise a = noise a for a < n, 0 otherwise *)
Theorem C02_se_joint_gram_is_generated n m dim xs xe ls lsq lcu alpha (noise : 'cV[R]_n) :
  let Kker : 'M[R]_n := \matrix_(i, j) SquareExponential.kernel_matrix_sym dim xs (fun _ => 0%Re) ls lsq lcu alpha i j in
  let K_eval : 'M[R]_(m, n) := \matrix_(i, j) SquareExponential.kernel_matrix_cross dim xs xe ls lsq lcu alpha i j in
  let Kss : 'M[R]_m := \matrix_(i, j) SquareExponential.kernel_matrix_sym dim xe (fun _ => 0%Re) ls lsq lcu alpha i j in
  (forall a, (a < n)%N -> joinp n xs xe a = xs a) /\ (forall i, joinp n xs xe (n + i)%N = xe i) /\
  block_mx (GPNoise.kernel_matrix Kker noise) K_eval^T K_eval Kss
  = (\matrix_(a, b) SquareExponential.kernel_matrix_sym dim (joinp n xs xe) (cvv noise) ls lsq lcu alpha a b : 'M[R]_(n + m)).
Proof.
  move=> Kker K_eval Kss. split; first exact: joinp_l. split; first exact: joinp_r.
  exact: (joint_gram_generated SE_kernel).
Qed.
Print Assumptions C02_se_joint_gram_is_generated.

(* THE COMPOSED THEOREM: SquareExponential kernel, per-point noise.  The kernel matrix the GP factors is the generated SE matrix with noise;
   the joint Gram matrix is PSD; the posterior covariance (polynomial-mean and zero-mean instances: the same dataflow) is PSD. *)
Theorem C02_se_posterior_covariance_psd n m dim (chol : 'M[R]_n -> 'M[R]_n) xs xe ls lsq lcu alpha (noise : 'cV[R]_n) :
  (forall k, Rlt 0 (ls k)) -> Rle 0 alpha -> (forall i, Rle 0 (noise i 0)) ->
  let Kker : 'M[R]_n := \matrix_(i, j) SquareExponential.kernel_matrix_sym dim xs (fun _ => 0%Re) ls lsq lcu alpha i j in
  let K_eval : 'M[R]_(m, n) := \matrix_(i, j) SquareExponential.kernel_matrix_cross dim xs xe ls lsq lcu alpha i j in
  let Kss : 'M[R]_m := \matrix_(i, j) SquareExponential.kernel_matrix_sym dim xe (fun _ => 0%Re) ls lsq lcu alpha i j in
  let K := GPNoise.kernel_matrix Kker noise in
  chol K *m (chol K)^T = K -> chol K \in unitmx ->
  K = \matrix_(i, j) SquareExponential.kernel_matrix_sym dim xs (cvv noise) ls lsq lcu alpha i j /\
  psd (block_mx K K_eval^T K_eval Kss) /\
  psd (GPNoise.cov chol Kker noise K_eval Kss) /\
  psd (GPNoiseZeroMean.cov chol Kker noise K_eval Kss).
Proof. move=> _ Ha Hn Kker K_eval Kss K. exact: (kernel_posterior_cov_psd SE_kernel SE_profile_schur m xe Ha Hn). Qed.
Print Assumptions C02_se_posterior_covariance_psd.

(* pointwise posterior variance (compute_variance_of_points): with K_x_x_array = the generated pairwise covariance(points_to_sample, points_to_sample),
   the value the code floors at min_var is the diagonal of the posterior covariance and is NON-NEGATIVE in exact arithmetic - the floor
   MINIMUM_KRIGING_VARIANCE only guards against rounding *)
Theorem C02_se_posterior_variance_nonneg n m dim (chol : 'M[R]_n -> 'M[R]_n) xs xe ls lsq lcu alpha (noise : 'cV[R]_n) (min_var : R) :
  (forall k, Rlt 0 (ls k)) -> Rle 0 alpha -> (forall i, Rle 0 (noise i 0)) ->
  let Kker : 'M[R]_n := \matrix_(i, j) SquareExponential.kernel_matrix_sym dim xs (fun _ => 0%Re) ls lsq lcu alpha i j in
  let K_eval : 'M[R]_(m, n) := \matrix_(i, j) SquareExponential.kernel_matrix_cross dim xs xe ls lsq lcu alpha i j in
  let Kss : 'M[R]_m := \matrix_(i, j) SquareExponential.kernel_matrix_sym dim xe (fun _ => 0%Re) ls lsq lcu alpha i j in
  let kxx : 'cV[R]_m := \col_i SquareExponential.covariance dim xe xe ls lsq lcu alpha i in
  let K := GPNoise.kernel_matrix Kker noise in
  chol K *m (chol K)^T = K -> chol K \in unitmx ->
  let v := kxx - diagcol (K_eval *m invmx K *m K_eval^T) in
  GPNoise.var_tri chol Kker noise K_eval kxx min_var = floor_at min_var v /\
  (forall i, v i 0 = GPNoise.cov chol Kker noise K_eval Kss i i) /\
  (forall i, Rle 0 (v i 0)).
Proof. move=> _ Ha Hn Kker K_eval Kss kxx K. exact: (kernel_posterior_variance SE_kernel SE_profile_schur m xe Ha Hn min_var). Qed.
Print Assumptions C02_se_posterior_variance_nonneg.

(* both square blocks built by the other entry point (points_to_sample = the same point set: the clamped-expansion path) *)
Theorem C02_se_posterior_covariance_psd_cross_blocks n m dim (chol : 'M[R]_n -> 'M[R]_n) xs xe ls lsq lcu alpha (noise : 'cV[R]_n) :
  (forall k, Rlt 0 (ls k)) -> Rle 0 alpha -> (forall i, Rle 0 (noise i 0)) ->
  let Kker : 'M[R]_n := \matrix_(i, j) SquareExponential.kernel_matrix_cross dim xs xs ls lsq lcu alpha i j in
  let K_eval : 'M[R]_(m, n) := \matrix_(i, j) SquareExponential.kernel_matrix_cross dim xs xe ls lsq lcu alpha i j in
  let Kss : 'M[R]_m := \matrix_(i, j) SquareExponential.kernel_matrix_cross dim xe xe ls lsq lcu alpha i j in
  let K := GPNoise.kernel_matrix Kker noise in
  chol K *m (chol K)^T = K -> chol K \in unitmx ->
  psd (GPNoise.cov chol Kker noise K_eval Kss).
Proof. move=> _ Ha Hn Kker K_eval Kss K. exact: (kernel_posterior_cov_psd_cross SE_kernel SE_profile_schur xe Ha Hn). Qed.
Print Assumptions C02_se_posterior_covariance_psd_cross_blocks.

(* Tikhonov nugget instead of the per-point noise (GPNugget): a corollary, the nugget being the constant noise vector *)
Theorem C02_se_posterior_covariance_psd_nugget n m dim (chol : 'M[R]_n -> 'M[R]_n) xs xe ls lsq lcu alpha (tik : R) :
  (forall k, Rlt 0 (ls k)) -> Rle 0 alpha -> Rle 0 tik ->
  let Kker : 'M[R]_n := \matrix_(i, j) SquareExponential.kernel_matrix_sym dim xs (fun _ => 0%Re) ls lsq lcu alpha i j in
  let K_eval : 'M[R]_(m, n) := \matrix_(i, j) SquareExponential.kernel_matrix_cross dim xs xe ls lsq lcu alpha i j in
  let Kss : 'M[R]_m := \matrix_(i, j) SquareExponential.kernel_matrix_sym dim xe (fun _ => 0%Re) ls lsq lcu alpha i j in
  let K := GPNugget.kernel_matrix Kker tik in
  chol K *m (chol K)^T = K -> chol K \in unitmx ->
  psd (GPNugget.cov chol Kker tik K_eval Kss).
Proof. move=> _ Ha Ht Kker K_eval Kss K. exact: (kernel_posterior_cov_psd_nugget SE_kernel SE_profile_schur xe Ha Ht). Qed.
Print Assumptions C02_se_posterior_covariance_psd_nugget.

(* non-vacuity: one observation at the origin of the plane with noise 1/10, three evaluation points (1,0), (2,0), (3,0), length scales (1/2, 2),
   alpha = 3; the Cholesky factor of the 1 x 1 kernel matrix is its square root: the contract holds and the 3 x 3 posterior covariance is PSD *)
Definition ex_xs (a k : nat) : R := 0%Re.
Definition ex_xe (a k : nat) : R := match k with O => INR (S a) | _ => 0%Re end.
Definition ex_ls (k : nat) : R := match k with O => (1 / 2)%Re | _ => 2%Re end.
Example C02_se_posterior_covariance_psd_example :
  let Kker : 'M[R]_1 := \matrix_(i, j) SquareExponential.kernel_matrix_sym 2 ex_xs (fun _ => 0%Re) ex_ls ex_ls ex_ls 3%Re i j in
  let K_eval : 'M[R]_(3, 1) := \matrix_(i, j) SquareExponential.kernel_matrix_cross 2 ex_xs ex_xe ex_ls ex_ls ex_ls 3%Re i j in
  let Kss : 'M[R]_3 := \matrix_(i, j) SquareExponential.kernel_matrix_sym 2 ex_xe (fun _ => 0%Re) ex_ls ex_ls ex_ls 3%Re i j in
  let noise : 'cV[R]_1 := const_mx (1 / 10)%Re in
  let K := GPNoise.kernel_matrix Kker noise in
  (chol11 K *m (chol11 K)^T = K /\ chol11 K \in unitmx) /\ psd (GPNoise.cov chol11 Kker noise K_eval Kss).
Proof.
  move=> Kker K_eval Kss noise K.
  have Ha : Rlt 0 3 by apply: (IZR_lt 0 3).
  have Hn : forall i, Rle 0 (noise i 0) by move=> i; rewrite mxE; apply: Rlt_le; apply: Rdiv_lt_0_compat; [exact: Rlt_0_1|apply: (IZR_lt 0 10)].
  exact: (@SE_posterior_cov_psd_instance 3 2 ex_xs ex_xe ex_ls ex_ls ex_ls 3%Re noise Ha Hn).
Qed.
