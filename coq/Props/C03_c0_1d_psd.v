(* C03, "positive semi-definite Gram matrices", an extra beyond the SquareExponential kernel (Props/C03_se_psd.v): in DIMENSION ONE the
   C0 Matern kernel alpha * exp(-|s - t| / l) (Gen.GenCovariance.C0RadialMatern with dim = 1) has positive semi-definite Gram matrices for
   every n and every point set, and is a Schur multiplier (entrywise product with any PSD matrix stays PSD).  Elementary proof in
   Proofs/C0Psd1d.v: exp(-|s-t|) = exp(-s) min(exp 2s, exp 2t) exp(-t), and min(c_a, c_b) of non-negative numbers is a finite sum of
   non-negative rank-one matrices.  C0 in dimension >= 2, C2 and C4 in any dimension are not covered by this argument; they are in
   Props/C03_matern_psd*.v (scale mixtures of Gaussians).  Statements, each assembled in a few steps from the lemmas of Proofs/ and followed by Print Assumptions. *)
From Coq Require Import Reals Lra.
From LV Require Import Gen.GenCovariance Proofs.Hadamard Proofs.SEPsd Proofs.C0Psd1d.
Open Scope R_scope.

(* the min matrix of non-negative numbers: PSD, and its entrywise product with any PSD matrix is PSD *)
Theorem C03_min_matrix_psd n (c : nat -> R) (B : nat -> nat -> R) :
  (forall a, (a < n)%nat -> 0 <= c a) ->
  psdR n (fun a b => Rmin (c a) (c b)) /\ (psdR n B -> psdR n (fun a b => Rmin (c a) (c b) * B a b)).
Proof. exact (fun Hc => conj (schur_psdR n _ (min_schur n c Hc)) (min_schur n c Hc B)). Qed.
Print Assumptions C03_min_matrix_psd.

(* build_kernel_matrix(points_sampled, noise_variance) of the C0 kernel, one-dimensional points *)
Theorem C03_c0_1d_gram_psd n xs ls lsq lcu alpha noise :
  (forall k, 0 < ls k) -> 0 <= alpha -> (forall j, 0 <= noise j) ->
  psdR n (fun a b => C0RadialMatern.kernel_matrix_sym 1 xs noise ls lsq lcu alpha a b).
Proof. exact (fun _ Ha Hn => schur_psdR n _ (C0_1d_sym_gram_schur n xs noise ls lsq lcu alpha Ha Hn)). Qed.
Print Assumptions C03_c0_1d_gram_psd.

Theorem C03_c0_1d_gram_schur_multiplier n xs ls lsq lcu alpha noise (B : nat -> nat -> R) :
  (forall k, 0 < ls k) -> 0 <= alpha -> (forall j, 0 <= noise j) -> psdR n B ->
  psdR n (fun a b => C0RadialMatern.kernel_matrix_sym 1 xs noise ls lsq lcu alpha a b * B a b).
Proof. exact (fun _ Ha Hn => C0_1d_sym_gram_schur n xs noise ls lsq lcu alpha Ha Hn B). Qed.
Print Assumptions C03_c0_1d_gram_schur_multiplier.

(* a multitask kernel whose task factor is the one-dimensional C0 kernel (the library's default task kernel is SquareExponential) *)
Theorem C03_multitask_gram_psd_c0_task n (P : nat -> nat -> R) ts lst lsqt lcut alphat pg tg ph th :
  (forall k, 0 < lst k) -> psdR n P ->
  psdR n (fun a b => GenMultitask._covariance (fun _ => P a b)
                       (fun i => C0RadialMatern._covariance 1 (fun _ => ts a) (fun _ => ts b) lst lsqt lcut alphat i) pg tg ph th 0%nat).
Proof. exact (fun _ HP => multitask_psd_r n P _ pg tg ph th HP (C0_1d_pair_gram_schur_ n ts lst lsqt lcut alphat 0%nat)). Qed.
Print Assumptions C03_multitask_gram_psd_c0_task.

(* non-vacuity: points -1, 2, 1/2 on the line, length scale 2, alpha = 3, noise (0, 1/10, 1/100) *)
Definition ex1_xs (a k : nat) : R := match a with O => -1 | S O => 2 | _ => 1/2 end.
Definition ex1_noise (j : nat) : R := match j with O => 0 | S O => 1/10 | _ => 1/100 end.
Example C03_c0_1d_gram_psd_example :
  psdR 3 (fun a b => C0RadialMatern.kernel_matrix_sym 1 ex1_xs ex1_noise (fun _ => 2) (fun _ => 4) (fun _ => 8) 3 a b) /\
  C0RadialMatern.kernel_matrix_sym 1 ex1_xs ex1_noise (fun _ => 2) (fun _ => 4) (fun _ => 8) 3 0 1 = 3 * exp (- (3 / 2)).
Proof.
  split.
  - apply C03_c0_1d_gram_psd; [intros; lra|lra|intros [|[|j]]; simpl; lra].
  - rewrite C0_1d_sym_abs. simpl. rewrite Rplus_0_r. f_equal. f_equal. f_equal.
    replace (-1 / 2 - 2 / 2) with (- (3 / 2)) by lra. rewrite Rabs_Ropp. apply Rabs_right. lra.
Qed.
