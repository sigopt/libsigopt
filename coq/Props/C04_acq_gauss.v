(* C04, expected improvement — C04_ei_grad of Props/C04_acq.v without its side condition 0 < G z: G z = z Phi z + pdf z is
   positive everywhere (Gaussian tail bound, Proofs/AcqGauss.v), so the clamp max(0, .) is never active. *)
From Coq Require Import Reals.
From Coquelicot Require Import Coquelicot.
From LV Require Import Lib.RBase Gen.GenAcq Proofs.Acq Proofs.AcqGauss.
Open Scope R_scope.

Theorem C04_ei_grad_unconditional (mu v dmu dv : R -> R) best dim x t i k :
  (forall t, is_derive mu t (dmu t)) -> (forall t, is_derive v t (dv t)) -> (forall t, 0 < v t) ->
  is_derive (fun t => EI.value dim x (C1 (mu t)) (C1 (v t)) (C2 0) (C2 0) best i) t
            (EI.grad dim x (C1 (mu t)) (C1 (v t)) (C2 (dmu t)) (C2 (dv t)) best i k).
Proof. exact (ei_grad_is_derivative_unconditional mu v dmu dv best dim x t i k). Qed.
Print Assumptions C04_ei_grad_unconditional.
