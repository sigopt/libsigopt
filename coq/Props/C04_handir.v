(* C04, tie of the two hand-written IR units: statements about Gen.GenAcq (regenerated on every run).  The hand-written forms
   (the masked-product gradient and the per-hyperparameter likelihood-gradient loop), about which the product clause of C04_success_probabilities and C04_loglik_*
   are stated, are equal to the definitions translated from the source loops themselves. *)
From Coq Require Import Reals.
From LV Require Import Lib.RBase Gen.GenAcq Proofs.HandIR.
Open Scope R_scope.

Theorem C04_product_grad_hand_is_translated dim nq poss gposs i k :
  Product.grad dim nq poss gposs i k = Product.grad_loop dim nq poss gposs i k.
Proof. exact (product_grad_hand_is_translated dim nq poss gposs i k). Qed.
Print Assumptions C04_product_grad_hand_is_translated.

Theorem C04_loglik_grad_hand_is_translated n nh a dK Kinv s hyp h :
  LogLikGrad.grad n nh a dK Kinv s (fun _ => 1) h = LogLikGrad.grad_linear n nh a dK s hyp Kinv h /\
  LogLikGrad.grad n nh a dK Kinv s (fun h => exp (hyp h)) h = LogLikGrad.grad_logdom n nh a dK s hyp Kinv h.
Proof.
  split; [exact (loglik_grad_hand_is_translated_linear n nh a dK Kinv s hyp h)
         |exact (loglik_grad_hand_is_translated_logdom n nh a dK Kinv s hyp h)].
Qed.
Print Assumptions C04_loglik_grad_hand_is_translated.
