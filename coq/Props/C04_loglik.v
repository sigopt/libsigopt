(* C04, gradient of the log marginal likelihood — FULL statement (supersedes the hypotheses of C04_loglik_grad_partial in
   Props/C04_gp.v: Jacobi's formula and d(r' K^-1 r) = -(a' dK a) are proved here, for real matrices).
   Statements about Gen.GenGP (GPNoise / GPNugget / GPNoiseZeroMean / LogLik: the VALUE computed by
   log_likelihood.py compute_log_likelihood on the quantities gaussian_process.py stores) and Gen.GenAcq.LogLikGrad.grad (the
   GRADIENT loop of compute_grad_log_likelihood, with INCLUDE_NONZERO_MEAN_GRADIENT_CORRECTION = False), regenerated from the
   source on every run.  R carries the MathComp field structure of Lib/RStruct.v; derivatives are Coquelicot's is_derive.
   mxv / cvv read a MathComp matrix / column as the nat-indexed functions the generated gradient takes (0 outside the range).
   The Cholesky factor is a contract that only has to hold near the hyperparameter value: L L' = K, L lower triangular with a
   positive diagonal.  Axioms: the Reals axioms, classic, functional extensionality, and
   ClassicalEpsilon.constructive_indefinite_description (choiceType structure on R). *)
From Coq Require Import Reals.
From Coquelicot Require Import Coquelicot.
From mathcomp Require Import ssreflect ssrbool eqtype fintype ssralg ssrnum zmodp matrix.
From LV Require Import Lib.MxAux Lib.RStruct Lib.RMxDeriv Gen.GenGP Gen.GenAcq Proofs.LogLikFull.
From LV Require Proofs.GPGrad.
Set Implicit Arguments. Unset Strict Implicit. Unset Printing Implicit Defensive.
Import GRing.Theory.
Local Open Scope ring_scope.

(* derivative of the determinant of a matrix with differentiable entries, and JACOBI's formula *)
Theorem C04_det_derivative n (M : R -> 'M[R]_n) (x : R) (dM : 'M[R]_n) :
  (forall i j, is_derive (fun t => M t i j) x (dM i j)) ->
  is_derive (fun t => \det (M t)) x (\sum_i \sum_j dM i j * cofactor (M x) i j) /\
  (\det (M x) != 0 -> is_derive (fun t => \det (M t)) x (\det (M x) * \tr (invmx (M x) *m dM))).
Proof. move=> H; split; [exact: (det_derive_cofactor H)|exact: (det_derive H)]. Qed.
Print Assumptions C04_det_derivative.

Theorem C04_jacobi_logdet n (M : R -> 'M[R]_n) (x : R) (dM : 'M[R]_n) :
  (forall i j, is_derive (fun t => M t i j) x (dM i j)) -> Rlt 0 (\det (M x)) ->
  is_derive (fun t => ln (\det (M t))) x (\tr (invmx (M x) *m dM)).
Proof. exact: jacobi_logdet. Qed.
Print Assumptions C04_jacobi_logdet.

(* derivative of the inverse: every entry of M(t)^-1 is differentiable at x and d(M^-1) = - M^-1 dM M^-1 *)
Theorem C04_inverse_derivative n (M : R -> 'M[R]_n) (x : R) (dM : 'M[R]_n) :
  (forall i j, is_derive (fun t => M t i j) x (dM i j)) -> \det (M x) != 0 ->
  forall i j, is_derive (fun t => invmx (M t) i j) x ((- (invmx (M x) *m dM *m invmx (M x))) i j).
Proof. move=> HM Hdet. by apply: mx_derive_inv => //; rewrite unitmxE unitfE. Qed.
Print Assumptions C04_inverse_derivative.

(* quadratic form, constant data vector (zero-mean GP): d(y' K^-1 y) = -(a' dK a), a = K^-1 y *)
Theorem C04_quadform_const n (K : R -> 'M[R]_n) (x : R) (dK : 'M[R]_n) (y : 'cV[R]_n) :
  (forall i j, is_derive (fun t => K t i j) x (dK i j)) -> K x \in unitmx -> (K x)^T = K x ->
  let a := invmx (K x) *m y in
  is_derive (fun t => (y^T *m invmx (K t) *m y) 0 0) x (- (a^T *m dK *m a) 0 0).
Proof.
  move=> HK Ku Ksym a. apply: is_derive_eq (quad_const_derive HK Ku Ksym y) => t. by rewrite mulmxA.
Qed.
Print Assumptions C04_quadform_const.

(* quadratic form of the GLS-demeaned residual r(t) = y - P b(t), b(t) the GLS coefficients, a(t) = K(t)^-1 r(t) exactly as
   gaussian_process.py computes them: d(r' K^-1 r) = -(a' dK a).  The dependence of b on t drops out by the envelope identity
   P' a = 0 (C02) — which is why the code's omitted non-zero-mean correction is exactly zero. *)
Theorem C04_quadform_gls n p (K : R -> 'M[R]_n) (x : R) (dK : 'M[R]_n) (y : 'cV[R]_n) (P : 'M[R]_(n,p)) :
  (forall i j, is_derive (fun t => K t i j) x (dK i j)) -> K x \in unitmx -> (K x)^T = K x ->
  P^T *m cho_solve (K x) P \in unitmx ->
  let b K := cho_solve (P^T *m cho_solve K P) (P^T *m cho_solve K y) in
  let r K := y - P *m b K in
  let a K := cho_solve K y - cho_solve K (P *m b K) in
  P^T *m a (K x) = 0 /\
  is_derive (fun t => ((r (K t))^T *m a (K t)) 0 0) x (- ((a (K x))^T *m dK *m a (K x)) 0 0).
Proof. move=> H1 H2 H3 H4 b r a; split; [exact: (gls_envelope y H4)|exact: (quad_gls_derive H1 H2 H3 y H4)]. Qed.
Print Assumptions C04_quadform_gls.

(* the code's 2 * sum(log(diag L)) is log det K for a Cholesky factor; such a K is symmetric with positive determinant *)
Theorem C04_chol_logdet n (L A : 'M[R]_n) :
  L *m L^T = A -> is_trig_mx L -> (forall i, Rlt 0 (L i i)) ->
  Rlt 0 (\det A) /\ A^T = A /\ 2%:R * (\sum_i ln (L i i)) = ln (\det A).
Proof. move=> H1 H2 H3. exact: (@chol_logdet n L A (conj H1 (conj H2 H3))). Qed.
Print Assumptions C04_chol_logdet.

(* textbook form, for any differentiable symmetric K(t) with positive determinant at x and P' K^-1 P invertible:
   L(t) = -s (r(t)' K(t)^-1 r(t) + log det K(t)) has the generated gradient entry as its derivative *)
Theorem C04_loglik_grad_full_logdet n p nh (K : R -> 'M[R]_n) (x : R) (dKt : nat -> 'M[R]_n) (h : nat) (y : 'cV[R]_n)
        (P : 'M[R]_(n,p)) (s : R) :
  (forall i j, is_derive (fun t => K t i j) x (dKt h i j)) -> Rlt 0 (\det (K x)) -> (K x)^T = K x ->
  P^T *m cho_solve (K x) P \in unitmx ->
  let b K := cho_solve (P^T *m cho_solve K P) (P^T *m cho_solve K y) in
  let r K := y - P *m b K in
  let a K := cho_solve K y - cho_solve K (P *m b K) in
  is_derive (fun t => - s * (((r (K t))^T *m a (K t)) 0 0 + ln (\det (K t)))) x
            (LogLikGrad.grad n nh (cvv (a (K x))) (fun j l k => mxv (dKt k) j l) (mxv (invmx (K x))) s (fun _ => 1) h).
Proof. move=> H1 H2 H3 H4 b r a. exact: (loglik_logdet_grad nh s H1 y H2 H3 H4). Qed.
Print Assumptions C04_loglik_grad_full_logdet.

(* THE FULL THEOREM, polynomial mean, per-point noise: the value compute_log_likelihood returns, as a function of one
   hyperparameter t through the kernel matrix Kker(t) (others fixed), is differentiable at x and its derivative is the h-th
   entry compute_grad_log_likelihood returns (linear parameterisation), dKt h being the h-th slice of the kernel's
   hyperparameter gradient tensor, i.e. the entrywise derivative of Kker at x (C04_kernels proves that for the kernels). *)
Theorem C04_loglik_grad_full n p nh (chol : 'M[R]_n -> 'M[R]_n) (noise y : 'cV[R]_n) (Pmx : 'M[R]_(n,p)) (s x : R)
        (dKt : nat -> 'M[R]_n) (h : nat) (Kker : R -> 'M[R]_n) :
  let K t := GPNoise.kernel_matrix (Kker t) noise in
  (forall i j, is_derive (fun t => Kker t i j) x (dKt h i j)) ->
  locally x (fun t => chol (K t) *m (chol (K t))^T = K t /\ is_trig_mx (chol (K t)) /\ forall i, Rlt 0 (chol (K t) i i)) ->
  GPNoise.PT_K_inv_P (Kker x) noise Pmx \in unitmx ->
  is_derive (fun t => LogLik.log_likelihood_value chol (fun L : 'M[R]_n => \sum_i ln (L i i)) (K t)
                        (GPNoise.demeaned_y (Kker t) noise y Pmx) (GPNoise.K_inv_demeaned_y (Kker t) noise y Pmx) s) x
    (LogLikGrad.grad n nh (cvv (GPNoise.K_inv_demeaned_y (Kker x) noise y Pmx)) (fun j l k => mxv (dKt k) j l)
                     (mxv (invmx (K x))) s (fun _ => 1) h).
Proof. move=> K H1 H2 H3. exact: (loglik_noise_grad nh y s H1 H2 H3). Qed.
Print Assumptions C04_loglik_grad_full.

(* with a nugget (use_auto_noise): kernel part and nugget may both depend on t; the tensor slice is dKk + dtik * I (the
   appended identity slice for the nugget hyperparameter: dKk = 0, dtik = 1; a kernel hyperparameter: dtik = 0) *)
Theorem C04_loglik_grad_full_nugget n p nh (chol : 'M[R]_n -> 'M[R]_n) (y : 'cV[R]_n) (Pmx : 'M[R]_(n,p)) (s x : R)
        (dKt : nat -> 'M[R]_n) (h : nat) (Kker : R -> 'M[R]_n) (tik : R -> R) (dtik : R) (dKk : 'M[R]_n) :
  let K t := GPNugget.kernel_matrix (Kker t) (tik t) in
  (forall i j, is_derive (fun t => Kker t i j) x (dKk i j)) -> is_derive tik x dtik -> dKt h = dKk + dtik%:M ->
  locally x (fun t => chol (K t) *m (chol (K t))^T = K t /\ is_trig_mx (chol (K t)) /\ forall i, Rlt 0 (chol (K t) i i)) ->
  GPNugget.PT_K_inv_P (Kker x) (tik x) Pmx \in unitmx ->
  is_derive (fun t => LogLik.log_likelihood_value chol (fun L : 'M[R]_n => \sum_i ln (L i i)) (K t)
                        (GPNugget.demeaned_y (Kker t) (tik t) y Pmx) (GPNugget.K_inv_demeaned_y (Kker t) (tik t) y Pmx) s) x
    (LogLikGrad.grad n nh (cvv (GPNugget.K_inv_demeaned_y (Kker x) (tik x) y Pmx)) (fun j l k => mxv (dKt k) j l)
                     (mxv (invmx (K x))) s (fun _ => 1) h).
Proof. move=> K H1 H2 H3 H4 H5. exact: (loglik_nugget_grad nh y s H1 H2 H3 H4 H5). Qed.
Print Assumptions C04_loglik_grad_full_nugget.

(* zero mean: r = y *)
Theorem C04_loglik_grad_full_zero_mean n nh (chol : 'M[R]_n -> 'M[R]_n) (noise y : 'cV[R]_n) (s x : R)
        (dKt : nat -> 'M[R]_n) (h : nat) (Kker : R -> 'M[R]_n) :
  let K t := GPNoiseZeroMean.kernel_matrix (Kker t) noise in
  (forall i j, is_derive (fun t => Kker t i j) x (dKt h i j)) ->
  locally x (fun t => chol (K t) *m (chol (K t))^T = K t /\ is_trig_mx (chol (K t)) /\ forall i, Rlt 0 (chol (K t) i i)) ->
  is_derive (fun t => LogLik.log_likelihood_value chol (fun L : 'M[R]_n => \sum_i ln (L i i)) (K t)
                        (GPNoiseZeroMean.demeaned_y y) (GPNoiseZeroMean.K_inv_demeaned_y (Kker t) noise y) s) x
    (LogLikGrad.grad n nh (cvv (GPNoiseZeroMean.K_inv_demeaned_y (Kker x) noise y)) (fun j l k => mxv (dKt k) j l)
                     (mxv (invmx (K x))) s (fun _ => 1) h).
Proof. move=> K H1 H2. exact: (loglik_zero_mean_grad nh y s H1 H2). Qed.
Print Assumptions C04_loglik_grad_full_zero_mean.

(* the whole gradient vector: for the kernel matrix as a function Kfun of the hyperparameter VECTOR, entry h of the generated
   gradient is the partial derivative of the value in the h-th coordinate at theta (upd theta h t replaces coordinate h by t) *)
Theorem C04_loglik_gradient_vector n p nh (chol : 'M[R]_n -> 'M[R]_n) (noise y : 'cV[R]_n) (Pmx : 'M[R]_(n,p)) (s : R)
        (Kfun : (nat -> R) -> 'M[R]_n) (theta : nat -> R) (dKt : nat -> 'M[R]_n) (h : nat) :
  (forall i j, is_derive (fun t => Kfun (upd theta h t) i j) (theta h) (dKt h i j)) ->
  locally (theta h) (fun t => let K := GPNoise.kernel_matrix (Kfun (upd theta h t)) noise in
                              chol K *m (chol K)^T = K /\ is_trig_mx (chol K) /\ forall i, Rlt 0 (chol K i i)) ->
  GPNoise.PT_K_inv_P (Kfun theta) noise Pmx \in unitmx ->
  is_derive (fun t => let Kk := Kfun (upd theta h t) in
               LogLik.log_likelihood_value chol (fun L : 'M[R]_n => \sum_i ln (L i i)) (GPNoise.kernel_matrix Kk noise)
                 (GPNoise.demeaned_y Kk noise y Pmx) (GPNoise.K_inv_demeaned_y Kk noise y Pmx) s) (theta h)
    (LogLikGrad.grad n nh (cvv (GPNoise.K_inv_demeaned_y (Kfun theta) noise y Pmx)) (fun j l k => mxv (dKt k) j l)
                     (mxv (invmx (GPNoise.kernel_matrix (Kfun theta) noise))) s (fun _ => 1) h).
Proof. move=> HK Hchol. have := loglik_noise_grad nh y s HK Hchol. rewrite upd_id. exact. Qed.
Print Assumptions C04_loglik_gradient_vector.

(* log parameterisation (log_domain=True): the derivative in al = log t carries the generated log_scaling factor exp al *)
Theorem C04_loglik_grad_full_log_domain n p nh (chol : 'M[R]_n -> 'M[R]_n) (noise y : 'cV[R]_n) (Pmx : 'M[R]_(n,p)) (s al : R)
        (dKt : nat -> 'M[R]_n) (h : nat) (Kker : R -> 'M[R]_n) :
  let K t := GPNoise.kernel_matrix (Kker t) noise in
  (forall i j, is_derive (fun t => Kker t i j) (exp al) (dKt h i j)) ->
  locally (exp al) (fun t => chol (K t) *m (chol (K t))^T = K t /\ is_trig_mx (chol (K t)) /\ forall i, Rlt 0 (chol (K t) i i)) ->
  GPNoise.PT_K_inv_P (Kker (exp al)) noise Pmx \in unitmx ->
  is_derive (fun u => LogLik.log_likelihood_value chol (fun L : 'M[R]_n => \sum_i ln (L i i)) (K (exp u))
                        (GPNoise.demeaned_y (Kker (exp u)) noise y Pmx) (GPNoise.K_inv_demeaned_y (Kker (exp u)) noise y Pmx) s) al
    (LogLikGrad.grad n nh (cvv (GPNoise.K_inv_demeaned_y (Kker (exp al)) noise y Pmx)) (fun j l k => mxv (dKt k) j l)
                     (mxv (invmx (K (exp al)))) s (fun _ => exp al) h).
Proof.
  move=> K H1 H2 H3.
  exact: (GPGrad.loglik_grad_log_domain (loglik_noise chol noise y Pmx s Kker) _ al n nh _ _ _ s h (loglik_noise_grad nh y s H1 H2 H3) Logic.eq_refl).
Qed.
Print Assumptions C04_loglik_grad_full_log_domain.

(* the hypotheses are satisfiable: two observations, constant mean, kernel matrix t * I, no noise, at t = 1 *)
Example C04_loglik_full_instance (y : 'cV[R]_2) (s : R) :
  is_derive (fun t : R => LogLik.log_likelihood_value chol_scalar (fun L : 'M[R]_2 => \sum_i ln (L i i))
                       (GPNoise.kernel_matrix (t%:M) 0)
                       (GPNoise.demeaned_y (t%:M) 0 y (const_mx 1 : 'M[R]_(2,1)))
                       (GPNoise.K_inv_demeaned_y (t%:M) 0 y (const_mx 1 : 'M[R]_(2,1))) s) (1 : R)
    (LogLikGrad.grad 2 1 (cvv (GPNoise.K_inv_demeaned_y (1%:M) 0 y (const_mx 1 : 'M[R]_(2,1)))) (fun j l k => mxv (1%:M : 'M[R]_2) j l)
                     (mxv (invmx (GPNoise.kernel_matrix (1%:M : 'M[R]_2) 0))) s (fun _ => 1) 0).
Proof. exact: (loglik_full_instance y s). Qed.
