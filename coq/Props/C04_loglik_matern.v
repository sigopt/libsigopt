(* C04 composed, Matern part: the theorems of Props/C04_loglik_se.v (read its header: conventions, hypotheses, axioms) for C4RadialMatern
   - the library's default kernel - and the per-point-noise one for C2RadialMatern.  The regenerated log-likelihood value is differentiable in every hyperparameter
   (alpha = number 0, length scale k0 = number S k0) and entry h of the regenerated gradient, fed the kernel's regenerated
   hyperparameter-gradient tensor, is the derivative; hypotheses left: the Cholesky contract near theta h, P' K^-1 P invertible, and for a
   length scale the guard of C04_kernels (k0 < dim, theta h > 0, lcu k0 = (theta h)^3).  Coincident points are included (C04_kernels treats
   them by a squeeze argument: sqrt is not differentiable at 0 but the kernels are).
   Proofs: Proofs/ComposeLogLik.v. *)
From Coq Require Import Reals.
From Coquelicot Require Import Coquelicot.
From mathcomp Require Import ssreflect ssrbool ssrnat fintype ssralg ssrnum matrix.
From LV Require Import Lib.RStruct Gen.GenGP Gen.GenAcq Gen.GenCovariance Proofs.LogLikFull Proofs.ComposeLogLik.
Set Implicit Arguments. Unset Strict Implicit. Unset Printing Implicit Defensive.
Import GRing.Theory.
Local Open Scope ring_scope.


Section C04_loglik_matern.
Variables (n p dim nh : nat) (chol : 'M[R]_n -> 'M[R]_n) (xs : nat -> nat -> R) (lsq lcu : nat -> R).
Variables (noise y : 'cV[R]_n) (Pmx : 'M[R]_(n,p)) (s : R) (theta : nat -> R) (h : nat).
(* the guard of C04_kernels on hyperparameter h (vacuous for h = 0); the same as hparam_guard of Props/C04_loglik_se.v *)
Let hparam_guard (dim : nat) (lcu theta : nat -> R) (h : nat) : Prop :=
  forall k0, h = S k0 -> (k0 < dim)%coq_nat /\ Rlt 0 (theta h) /\ lcu k0 = (theta h ^ 3)%Re.

(* ================================================================== C4RadialMatern (the library's default kernel) *)
Let Kc4 (th : nat -> R) : 'M[R]_n :=
  \matrix_(i, j) C4RadialMatern.kernel_matrix_sym dim xs (fun _ => 0%Re) (fun k => th (S k)) lsq lcu (th 0%N) i j.
Let Tc4 := C4RadialMatern.kernel_hparam_grad_tensor_sym dim nh xs (fun k => theta (S k)) lsq lcu (theta 0%N).

Theorem C04_c4_kernel_matrix_derivative :
  hparam_guard dim lcu theta h ->
  forall i j : 'I_n, is_derive (fun t => Kc4 (LogLikFull.upd theta h t) i j) (theta h) ((\matrix_(i, j) Tc4 i j h : 'M[R]_n) i j).
Proof. exact: (Kfun_derive C4_entries_ok). Qed.

Theorem C04_loglik_grad_c4 :
  hparam_guard dim lcu theta h ->
  locally (theta h) (fun t => let K := GPNoise.kernel_matrix (Kc4 (LogLikFull.upd theta h t)) noise in
                              chol K *m (chol K)^T = K /\ is_trig_mx (chol K) /\ forall i, Rlt 0 (chol K i i)) ->
  GPNoise.PT_K_inv_P (Kc4 theta) noise Pmx \in unitmx ->
  is_derive (fun t => let Kk := Kc4 (LogLikFull.upd theta h t) in
               LogLik.log_likelihood_value chol (fun L : 'M[R]_n => \sum_i ln (L i i)) (GPNoise.kernel_matrix Kk noise)
                 (GPNoise.demeaned_y Kk noise y Pmx) (GPNoise.K_inv_demeaned_y Kk noise y Pmx) s) (theta h)
    (LogLikGrad.grad n nh (cvv (GPNoise.K_inv_demeaned_y (Kc4 theta) noise y Pmx)) Tc4
                     (mxv (invmx (GPNoise.kernel_matrix (Kc4 theta) noise))) s (fun _ => 1%Re) h).
Proof. move=> H. exact: (loglik_grad_kernel C4_entries_ok _ _ _ H). Qed.

Theorem C04_loglik_grad_c4_zero_mean :
  hparam_guard dim lcu theta h ->
  locally (theta h) (fun t => let K := GPNoiseZeroMean.kernel_matrix (Kc4 (LogLikFull.upd theta h t)) noise in
                              chol K *m (chol K)^T = K /\ is_trig_mx (chol K) /\ forall i, Rlt 0 (chol K i i)) ->
  is_derive (fun t => let Kk := Kc4 (LogLikFull.upd theta h t) in
               LogLik.log_likelihood_value chol (fun L : 'M[R]_n => \sum_i ln (L i i)) (GPNoiseZeroMean.kernel_matrix Kk noise)
                 (GPNoiseZeroMean.demeaned_y y) (GPNoiseZeroMean.K_inv_demeaned_y Kk noise y) s) (theta h)
    (LogLikGrad.grad n nh (cvv (GPNoiseZeroMean.K_inv_demeaned_y (Kc4 theta) noise y)) Tc4
                     (mxv (invmx (GPNoiseZeroMean.kernel_matrix (Kc4 theta) noise))) s (fun _ => 1%Re) h).
Proof. move=> H. exact: (loglik_grad_kernel_zero_mean C4_entries_ok _ _ _ H). Qed.

Theorem C04_loglik_grad_c4_nugget (tik : R) :
  hparam_guard dim lcu theta h ->
  locally (theta h) (fun t => let K := GPNugget.kernel_matrix (Kc4 (LogLikFull.upd theta h t)) tik in
                              chol K *m (chol K)^T = K /\ is_trig_mx (chol K) /\ forall i, Rlt 0 (chol K i i)) ->
  GPNugget.PT_K_inv_P (Kc4 theta) tik Pmx \in unitmx ->
  is_derive (fun t => let Kk := Kc4 (LogLikFull.upd theta h t) in
               LogLik.log_likelihood_value chol (fun L : 'M[R]_n => \sum_i ln (L i i)) (GPNugget.kernel_matrix Kk tik)
                 (GPNugget.demeaned_y Kk tik y Pmx) (GPNugget.K_inv_demeaned_y Kk tik y Pmx) s) (theta h)
    (LogLikGrad.grad n nh (cvv (GPNugget.K_inv_demeaned_y (Kc4 theta) tik y Pmx)) Tc4
                     (mxv (invmx (GPNugget.kernel_matrix (Kc4 theta) tik))) s (fun _ => 1%Re) h).
Proof. move=> H. exact: (loglik_grad_kernel_nugget C4_entries_ok _ _ _ H). Qed.

Theorem C04_loglik_grad_c4_log_domain (al : R) :
  hparam_guard dim lcu theta h -> theta h = exp al ->
  locally (exp al) (fun t => let K := GPNoise.kernel_matrix (Kc4 (LogLikFull.upd theta h t)) noise in
                             chol K *m (chol K)^T = K /\ is_trig_mx (chol K) /\ forall i, Rlt 0 (chol K i i)) ->
  GPNoise.PT_K_inv_P (Kc4 theta) noise Pmx \in unitmx ->
  is_derive (fun u => let Kk := Kc4 (LogLikFull.upd theta h (exp u)) in
               LogLik.log_likelihood_value chol (fun L : 'M[R]_n => \sum_i ln (L i i)) (GPNoise.kernel_matrix Kk noise)
                 (GPNoise.demeaned_y Kk noise y Pmx) (GPNoise.K_inv_demeaned_y Kk noise y Pmx) s) al
    (LogLikGrad.grad n nh (cvv (GPNoise.K_inv_demeaned_y (Kc4 theta) noise y Pmx)) Tc4
                     (mxv (invmx (GPNoise.kernel_matrix (Kc4 theta) noise))) s (fun _ => exp al) h).
Proof. move=> H. exact: (loglik_grad_kernel_log_domain C4_entries_ok _ _ _ H). Qed.


(* the same about the TRANSLATED loops of compute_grad_log_likelihood (Gen.GenAcq.LogLikGrad.grad_linear / grad_logdom; Props/C04_handir.v:
   they equal the hand-written form); hyp = the hyperparameter vector the loop takes its log_scaling from (theta h = exp (hyp h)) *)
Theorem C04_loglik_grad_c4_translated_loop (hyp : nat -> R) :
  hparam_guard dim lcu theta h ->
  locally (theta h) (fun t => let K := GPNoise.kernel_matrix (Kc4 (LogLikFull.upd theta h t)) noise in
                              chol K *m (chol K)^T = K /\ is_trig_mx (chol K) /\ forall i, Rlt 0 (chol K i i)) ->
  GPNoise.PT_K_inv_P (Kc4 theta) noise Pmx \in unitmx ->
  is_derive (fun t => let Kk := Kc4 (LogLikFull.upd theta h t) in
               LogLik.log_likelihood_value chol (fun L : 'M[R]_n => \sum_i ln (L i i)) (GPNoise.kernel_matrix Kk noise)
                 (GPNoise.demeaned_y Kk noise y Pmx) (GPNoise.K_inv_demeaned_y Kk noise y Pmx) s) (theta h)
    (LogLikGrad.grad_linear n nh (cvv (GPNoise.K_inv_demeaned_y (Kc4 theta) noise y Pmx)) Tc4 s hyp
                            (mxv (invmx (GPNoise.kernel_matrix (Kc4 theta) noise))) h).
Proof. move=> H. exact: (loglik_grad_kernel_linear_loop C4_entries_ok _ _ _ H). Qed.

Theorem C04_loglik_grad_c4_log_domain_translated_loop (hyp : nat -> R) :
  hparam_guard dim lcu theta h -> theta h = exp (hyp h) ->
  locally (exp (hyp h)) (fun t => let K := GPNoise.kernel_matrix (Kc4 (LogLikFull.upd theta h t)) noise in
                                  chol K *m (chol K)^T = K /\ is_trig_mx (chol K) /\ forall i, Rlt 0 (chol K i i)) ->
  GPNoise.PT_K_inv_P (Kc4 theta) noise Pmx \in unitmx ->
  is_derive (fun u => let Kk := Kc4 (LogLikFull.upd theta h (exp u)) in
               LogLik.log_likelihood_value chol (fun L : 'M[R]_n => \sum_i ln (L i i)) (GPNoise.kernel_matrix Kk noise)
                 (GPNoise.demeaned_y Kk noise y Pmx) (GPNoise.K_inv_demeaned_y Kk noise y Pmx) s) (hyp h)
    (LogLikGrad.grad_logdom n nh (cvv (GPNoise.K_inv_demeaned_y (Kc4 theta) noise y Pmx)) Tc4 s hyp
                            (mxv (invmx (GPNoise.kernel_matrix (Kc4 theta) noise))) h).
Proof. move=> H. exact: (loglik_grad_kernel_logdom_loop C4_entries_ok _ _ _ H). Qed.

(* ================================================================== C2RadialMatern *)
Let Kc2 (th : nat -> R) : 'M[R]_n :=
  \matrix_(i, j) C2RadialMatern.kernel_matrix_sym dim xs (fun _ => 0%Re) (fun k => th (S k)) lsq lcu (th 0%N) i j.
Let Tc2 := C2RadialMatern.kernel_hparam_grad_tensor_sym dim nh xs (fun k => theta (S k)) lsq lcu (theta 0%N).

Theorem C04_loglik_grad_c2 :
  hparam_guard dim lcu theta h ->
  locally (theta h) (fun t => let K := GPNoise.kernel_matrix (Kc2 (LogLikFull.upd theta h t)) noise in
                              chol K *m (chol K)^T = K /\ is_trig_mx (chol K) /\ forall i, Rlt 0 (chol K i i)) ->
  GPNoise.PT_K_inv_P (Kc2 theta) noise Pmx \in unitmx ->
  is_derive (fun t => let Kk := Kc2 (LogLikFull.upd theta h t) in
               LogLik.log_likelihood_value chol (fun L : 'M[R]_n => \sum_i ln (L i i)) (GPNoise.kernel_matrix Kk noise)
                 (GPNoise.demeaned_y Kk noise y Pmx) (GPNoise.K_inv_demeaned_y Kk noise y Pmx) s) (theta h)
    (LogLikGrad.grad n nh (cvv (GPNoise.K_inv_demeaned_y (Kc2 theta) noise y Pmx)) Tc2
                     (mxv (invmx (GPNoise.kernel_matrix (Kc2 theta) noise))) s (fun _ => 1%Re) h).
Proof. move=> H. exact: (loglik_grad_kernel C2_entries_ok _ _ _ H). Qed.
End C04_loglik_matern.
Print Assumptions C04_c4_kernel_matrix_derivative.
Print Assumptions C04_loglik_grad_c4.
Print Assumptions C04_loglik_grad_c4_zero_mean.
Print Assumptions C04_loglik_grad_c4_nugget.
Print Assumptions C04_loglik_grad_c4_log_domain.
Print Assumptions C04_loglik_grad_c4_translated_loop.
Print Assumptions C04_loglik_grad_c4_log_domain_translated_loop.
Print Assumptions C04_loglik_grad_c2.
