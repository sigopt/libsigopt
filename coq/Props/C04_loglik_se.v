(* C04 composed: gradient of the log marginal likelihood with the kernel's own hyperparameter-gradient tensor, for the library's kernels.

   C04_loglik_grad_full (Props/C04_loglik.v) proves that the regenerated log-likelihood value is differentiable in a hyperparameter and that
   the regenerated gradient is its derivative, UNDER the hypothesis
       forall i j, is_derive (fun t => Kker t i j) x (dKt h i j)
   (kernel-matrix entries differentiable, tensor slice = derivative).  C04_kernels (Props/C04_kernels.v) proves, for the pairwise entry
   points covariance / hyperparameter_grad_covariance of each kernel, that column 0 is d/d alpha and column S k0 is d/d (length scale k0).
   Here the two are composed: for SquareExponential, C2RadialMatern and C4RadialMatern (the default kernel) that hypothesis is DISCHARGED
   for the regenerated matrix entry points (Gen.GenCovariance.<Kernel>.kernel_matrix_sym / kernel_hparam_grad_tensor_sym), so that

       the value compute_log_likelihood returns, as a function of hyperparameter number h (others fixed), is differentiable at theta h and
       its derivative is entry h of compute_grad_log_likelihood, the loop being fed build_kernel_hparam_grad_tensor ITSELF,

   with only these hypotheses left: the Cholesky contract near theta h (L L' = K, L lower triangular, positive diagonal), P' K^-1 P invertible
   (polynomial mean), and for a length-scale hyperparameter h = S k0 the guard of C04_kernels: k0 < dim, theta h > 0, lcu k0 = (theta h)^3
   (set_hyperparameters stores the cubes; the derivative of 1/l^2 does not exist at l = 0).  Nothing is asked of h = 0 (alpha).

   Conventions: theta : nat -> R is the hyperparameter vector, theta 0 = alpha (process variance), theta (S k) = length scale k;
   upd theta h t replaces coordinate h by t (LogLikFull.upd); the kernel part of the kernel matrix is
       Kfun th = \matrix_(i, j) <Kernel>.kernel_matrix_sym dim xs (zero noise) (fun k => th (S k)) lsq lcu (th 0) i j
   (GenGP's kernel_matrix adds the noise / nugget itself); lsq, lcu are the cached squares / cubes the generated functions take as separate
   arguments (the value does not read them; the tensor reads lcu (h - 1)).  mxv / cvv: nat-indexed views of a matrix / column.
   Axioms: the Reals axioms, classic, functional extensionality, constructive_indefinite_description (choiceType structure on R, RStruct).
   This file: the entry-by-entry statement for the three kernels and the SquareExponential theorems; Props/C04_loglik_matern.v: the same
   theorems for C4RadialMatern (the default kernel) and, for C2RadialMatern, the per-point-noise one (split to keep Print Assumptions fast).
   Proofs: Proofs/ComposeLogLik.v. *)
From Coq Require Import Reals.
From Coquelicot Require Import Coquelicot.
From mathcomp Require Import ssreflect ssrbool ssrnat fintype ssralg ssrnum zmodp matrix.
From LV Require Import Lib.RStruct Gen.GenGP Gen.GenAcq Gen.GenCovariance Proofs.LogLikFull Proofs.ComposeLogLik.
Set Implicit Arguments. Unset Strict Implicit. Unset Printing Implicit Defensive.
Import GRing.Theory.
Local Open Scope ring_scope.

(* the guard of C04_kernels on hyperparameter h (vacuous for h = 0) *)
Definition hparam_guard (dim : nat) (lcu theta : nat -> R) (h : nat) : Prop :=
  forall k0, h = S k0 -> (k0 < dim)%coq_nat /\ Rlt 0 (theta h) /\ lcu k0 = (theta h ^ 3)%Re.

(* THE DISCHARGED HYPOTHESIS, entry by entry, for any two points j, j2 and any (constant) noise nz on the diagonal *)
Theorem C04_kernel_matrix_entries_differentiable dim nh xs nz lsq lcu theta h j j2 :
  hparam_guard dim lcu theta h ->
  is_derive (fun t => SquareExponential.kernel_matrix_sym dim xs nz (fun k => LogLikFull.upd theta h t (S k)) lsq lcu (LogLikFull.upd theta h t 0%N) j j2)
            (theta h) (SquareExponential.kernel_hparam_grad_tensor_sym dim nh xs (fun k => theta (S k)) lsq lcu (theta 0%N) j j2 h) /\
  is_derive (fun t => C2RadialMatern.kernel_matrix_sym dim xs nz (fun k => LogLikFull.upd theta h t (S k)) lsq lcu (LogLikFull.upd theta h t 0%N) j j2)
            (theta h) (C2RadialMatern.kernel_hparam_grad_tensor_sym dim nh xs (fun k => theta (S k)) lsq lcu (theta 0%N) j j2 h) /\
  is_derive (fun t => C4RadialMatern.kernel_matrix_sym dim xs nz (fun k => LogLikFull.upd theta h t (S k)) lsq lcu (LogLikFull.upd theta h t 0%N) j j2)
            (theta h) (C4RadialMatern.kernel_hparam_grad_tensor_sym dim nh xs (fun k => theta (S k)) lsq lcu (theta 0%N) j j2 h).
Proof.
  move=> H. split; last split.
  - exact: (kernel_entry_derive SE_entries_ok nh xs lsq nz j j2 H).
  - exact: (kernel_entry_derive C2_entries_ok nh xs lsq nz j j2 H).
  - exact: (kernel_entry_derive C4_entries_ok nh xs lsq nz j j2 H).
Qed.
Print Assumptions C04_kernel_matrix_entries_differentiable.

Section C04_loglik_kernels.
Variables (n p dim nh : nat) (chol : 'M[R]_n -> 'M[R]_n) (xs : nat -> nat -> R) (lsq lcu : nat -> R).
Variables (noise y : 'cV[R]_n) (Pmx : 'M[R]_(n,p)) (s : R) (theta : nat -> R) (h : nat).

(* ================================================================== SquareExponential *)
Let Kse (th : nat -> R) : 'M[R]_n :=
  \matrix_(i, j) SquareExponential.kernel_matrix_sym dim xs (fun _ => 0%Re) (fun k => th (S k)) lsq lcu (th 0%N) i j.
Let Tse := SquareExponential.kernel_hparam_grad_tensor_sym dim nh xs (fun k => theta (S k)) lsq lcu (theta 0%N).

(* as a statement about the kernel matrix: the hypothesis of C04_loglik_grad_full / C04_loglik_gradient_vector, with dKt := the matrices of the tensor *)
Theorem C04_se_kernel_matrix_derivative :
  hparam_guard dim lcu theta h ->
  forall i j : 'I_n, is_derive (fun t => Kse (LogLikFull.upd theta h t) i j) (theta h) ((\matrix_(i, j) Tse i j h : 'M[R]_n) i j).
Proof. exact: (Kfun_derive SE_entries_ok). Qed.

(* THE COMPOSED THEOREM: per-point noise, polynomial mean *)
Theorem C04_loglik_grad_se :
  hparam_guard dim lcu theta h ->
  locally (theta h) (fun t => let K := GPNoise.kernel_matrix (Kse (LogLikFull.upd theta h t)) noise in
                              chol K *m (chol K)^T = K /\ is_trig_mx (chol K) /\ forall i, Rlt 0 (chol K i i)) ->
  GPNoise.PT_K_inv_P (Kse theta) noise Pmx \in unitmx ->
  is_derive (fun t => let Kk := Kse (LogLikFull.upd theta h t) in
               LogLik.log_likelihood_value chol (fun L : 'M[R]_n => \sum_i ln (L i i)) (GPNoise.kernel_matrix Kk noise)
                 (GPNoise.demeaned_y Kk noise y Pmx) (GPNoise.K_inv_demeaned_y Kk noise y Pmx) s) (theta h)
    (LogLikGrad.grad n nh (cvv (GPNoise.K_inv_demeaned_y (Kse theta) noise y Pmx)) Tse
                     (mxv (invmx (GPNoise.kernel_matrix (Kse theta) noise))) s (fun _ => 1%Re) h).
Proof. move=> H. exact: (loglik_grad_kernel SE_entries_ok _ _ _ H). Qed.

(* zero mean *)
Theorem C04_loglik_grad_se_zero_mean :
  hparam_guard dim lcu theta h ->
  locally (theta h) (fun t => let K := GPNoiseZeroMean.kernel_matrix (Kse (LogLikFull.upd theta h t)) noise in
                              chol K *m (chol K)^T = K /\ is_trig_mx (chol K) /\ forall i, Rlt 0 (chol K i i)) ->
  is_derive (fun t => let Kk := Kse (LogLikFull.upd theta h t) in
               LogLik.log_likelihood_value chol (fun L : 'M[R]_n => \sum_i ln (L i i)) (GPNoiseZeroMean.kernel_matrix Kk noise)
                 (GPNoiseZeroMean.demeaned_y y) (GPNoiseZeroMean.K_inv_demeaned_y Kk noise y) s) (theta h)
    (LogLikGrad.grad n nh (cvv (GPNoiseZeroMean.K_inv_demeaned_y (Kse theta) noise y)) Tse
                     (mxv (invmx (GPNoiseZeroMean.kernel_matrix (Kse theta) noise))) s (fun _ => 1%Re) h).
Proof. move=> H. exact: (loglik_grad_kernel_zero_mean SE_entries_ok _ _ _ H). Qed.

(* Tikhonov nugget tik instead of the per-point noise; h a kernel hyperparameter (the nugget does not depend on it) *)
Theorem C04_loglik_grad_se_nugget (tik : R) :
  hparam_guard dim lcu theta h ->
  locally (theta h) (fun t => let K := GPNugget.kernel_matrix (Kse (LogLikFull.upd theta h t)) tik in
                              chol K *m (chol K)^T = K /\ is_trig_mx (chol K) /\ forall i, Rlt 0 (chol K i i)) ->
  GPNugget.PT_K_inv_P (Kse theta) tik Pmx \in unitmx ->
  is_derive (fun t => let Kk := Kse (LogLikFull.upd theta h t) in
               LogLik.log_likelihood_value chol (fun L : 'M[R]_n => \sum_i ln (L i i)) (GPNugget.kernel_matrix Kk tik)
                 (GPNugget.demeaned_y Kk tik y Pmx) (GPNugget.K_inv_demeaned_y Kk tik y Pmx) s) (theta h)
    (LogLikGrad.grad n nh (cvv (GPNugget.K_inv_demeaned_y (Kse theta) tik y Pmx)) Tse
                     (mxv (invmx (GPNugget.kernel_matrix (Kse theta) tik))) s (fun _ => 1%Re) h).
Proof. move=> H. exact: (loglik_grad_kernel_nugget SE_entries_ok _ _ _ H). Qed.

(* log parameterisation (log_domain=True): theta h = exp al; the derivative in al carries the generated log_scaling factor exp al *)
Theorem C04_loglik_grad_se_log_domain (al : R) :
  hparam_guard dim lcu theta h -> theta h = exp al ->
  locally (exp al) (fun t => let K := GPNoise.kernel_matrix (Kse (LogLikFull.upd theta h t)) noise in
                             chol K *m (chol K)^T = K /\ is_trig_mx (chol K) /\ forall i, Rlt 0 (chol K i i)) ->
  GPNoise.PT_K_inv_P (Kse theta) noise Pmx \in unitmx ->
  is_derive (fun u => let Kk := Kse (LogLikFull.upd theta h (exp u)) in
               LogLik.log_likelihood_value chol (fun L : 'M[R]_n => \sum_i ln (L i i)) (GPNoise.kernel_matrix Kk noise)
                 (GPNoise.demeaned_y Kk noise y Pmx) (GPNoise.K_inv_demeaned_y Kk noise y Pmx) s) al
    (LogLikGrad.grad n nh (cvv (GPNoise.K_inv_demeaned_y (Kse theta) noise y Pmx)) Tse
                     (mxv (invmx (GPNoise.kernel_matrix (Kse theta) noise))) s (fun _ => exp al) h).
Proof. move=> H. exact: (loglik_grad_kernel_log_domain SE_entries_ok _ _ _ H). Qed.


(* the same about the TRANSLATED loops of compute_grad_log_likelihood (Gen.GenAcq.LogLikGrad.grad_linear / grad_logdom; Props/C04_handir.v:
   they equal the hand-written form); hyp = the hyperparameter vector the loop takes its log_scaling from (theta h = exp (hyp h)) *)
Theorem C04_loglik_grad_se_translated_loop (hyp : nat -> R) :
  hparam_guard dim lcu theta h ->
  locally (theta h) (fun t => let K := GPNoise.kernel_matrix (Kse (LogLikFull.upd theta h t)) noise in
                              chol K *m (chol K)^T = K /\ is_trig_mx (chol K) /\ forall i, Rlt 0 (chol K i i)) ->
  GPNoise.PT_K_inv_P (Kse theta) noise Pmx \in unitmx ->
  is_derive (fun t => let Kk := Kse (LogLikFull.upd theta h t) in
               LogLik.log_likelihood_value chol (fun L : 'M[R]_n => \sum_i ln (L i i)) (GPNoise.kernel_matrix Kk noise)
                 (GPNoise.demeaned_y Kk noise y Pmx) (GPNoise.K_inv_demeaned_y Kk noise y Pmx) s) (theta h)
    (LogLikGrad.grad_linear n nh (cvv (GPNoise.K_inv_demeaned_y (Kse theta) noise y Pmx)) Tse s hyp
                            (mxv (invmx (GPNoise.kernel_matrix (Kse theta) noise))) h).
Proof. move=> H. exact: (loglik_grad_kernel_linear_loop SE_entries_ok _ _ _ H). Qed.

Theorem C04_loglik_grad_se_log_domain_translated_loop (hyp : nat -> R) :
  hparam_guard dim lcu theta h -> theta h = exp (hyp h) ->
  locally (exp (hyp h)) (fun t => let K := GPNoise.kernel_matrix (Kse (LogLikFull.upd theta h t)) noise in
                                  chol K *m (chol K)^T = K /\ is_trig_mx (chol K) /\ forall i, Rlt 0 (chol K i i)) ->
  GPNoise.PT_K_inv_P (Kse theta) noise Pmx \in unitmx ->
  is_derive (fun u => let Kk := Kse (LogLikFull.upd theta h (exp u)) in
               LogLik.log_likelihood_value chol (fun L : 'M[R]_n => \sum_i ln (L i i)) (GPNoise.kernel_matrix Kk noise)
                 (GPNoise.demeaned_y Kk noise y Pmx) (GPNoise.K_inv_demeaned_y Kk noise y Pmx) s) (hyp h)
    (LogLikGrad.grad_logdom n nh (cvv (GPNoise.K_inv_demeaned_y (Kse theta) noise y Pmx)) Tse s hyp
                            (mxv (invmx (GPNoise.kernel_matrix (Kse theta) noise))) h).
Proof. move=> H. exact: (loglik_grad_kernel_logdom_loop SE_entries_ok _ _ _ H). Qed.
End C04_loglik_kernels.
Print Assumptions C04_se_kernel_matrix_derivative.
Print Assumptions C04_loglik_grad_se.
Print Assumptions C04_loglik_grad_se_zero_mean.
Print Assumptions C04_loglik_grad_se_nugget.
Print Assumptions C04_loglik_grad_se_log_domain.
Print Assumptions C04_loglik_grad_se_translated_loop.
Print Assumptions C04_loglik_grad_se_log_domain_translated_loop.

(* non-vacuity (SquareExponential, differentiation in the LENGTH SCALE, h = 1): one observation at x = 7 in dimension 1, constant mean,
   alpha = 3, length scale 1/2 (so lcu 0 = 1/8), noise 1/10; the Cholesky factor of the 1 x 1 kernel matrix is its square root *)
Definition ex_theta (k : nat) : R := match k with O => 3%Re | _ => (1 / 2)%Re end.
Example C04_loglik_grad_se_example (y : 'cV[R]_1) (s : R) :
  let Kse (th : nat -> R) : 'M[R]_1 :=
    \matrix_(i, j) SquareExponential.kernel_matrix_sym 1 (fun _ _ => 7%Re) (fun _ => 0%Re) (fun k => th (S k)) (fun _ => (1 / 4)%Re) (fun _ => (1 / 8)%Re) (th 0%N) i j in
  let noise : 'cV[R]_1 := const_mx (1 / 10)%Re in
  let P1 : 'M[R]_(1,1) := const_mx 1 in
  hparam_guard 1 (fun _ => (1 / 8)%Re) ex_theta 1 /\
  is_derive (fun t => let Kk := Kse (LogLikFull.upd ex_theta 1 t) in
               LogLik.log_likelihood_value chol11 (fun L : 'M[R]_1 => \sum_i ln (L i i)) (GPNoise.kernel_matrix Kk noise)
                 (GPNoise.demeaned_y Kk noise y P1) (GPNoise.K_inv_demeaned_y Kk noise y P1) s) (1 / 2)%Re
    (LogLikGrad.grad 1 2 (cvv (GPNoise.K_inv_demeaned_y (Kse ex_theta) noise y P1))
                     (SquareExponential.kernel_hparam_grad_tensor_sym 1 2 (fun _ _ => 7%Re) (fun k => ex_theta (S k)) (fun _ => (1 / 4)%Re) (fun _ => (1 / 8)%Re) (ex_theta 0%N))
                     (mxv (invmx (GPNoise.kernel_matrix (Kse ex_theta) noise))) s (fun _ => 1%Re) 1).
Proof.
  move=> Kse noise P1.
  have Ha : Rlt 0 (ex_theta 0%N) by apply: (IZR_lt 0 3).
  have Hl : Rlt 0 (ex_theta 1%N) by apply: Rdiv_lt_0_compat; [exact: Rlt_0_1|apply: (IZR_lt 0 2)].
  have Hc : (1 / 8)%Re = (ex_theta 1%N ^ 3)%Re by rewrite /ex_theta /=; field.
  have Hn : Rle 0 (noise 0 0) by rewrite mxE; apply: Rlt_le; apply: Rdiv_lt_0_compat; [exact: Rlt_0_1|apply: (IZR_lt 0 10)].
  split; first exact: (SE_inst_hparam_ok (lcu := fun _ => (1 / 8)%Re) Hl Hc).
  exact: (@loglik_grad_se_instance 2 (fun _ _ => 7%Re) (fun _ => (1 / 4)%Re) (fun _ => (1 / 8)%Re) ex_theta noise y s Ha Hl Hc Hn).
Qed.
