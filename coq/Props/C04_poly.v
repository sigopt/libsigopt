(* C04, gradient of the GP posterior mean, polynomial part: every entry of python_utils.build_grad_polynomial_tensor is the partial
   derivative of the corresponding entry of build_polynomial_matrix (model LV.Model.Poly; this discharges the hypothesis
   "is_derive (pc c) t (dpc c)" of C04_gp_mean_grad for the polynomial builder the library uses).  Only statements. *)
From Coq Require Import List Reals.
From Coquelicot Require Import Coquelicot.
From LV Require Import Model.Poly Proofs.Poly.
Import ListNotations.
Open Scope R_scope.

(* for every point x, exponent vector e of the same length and coordinate d: d/dt monomial(x with x_d := t) at t = x_d is the
   tensor entry (zero when the exponent of x_d is zero; pow(0, 0) = 1 as in the code) *)
Theorem C04_polynomial_gradient_entry x e d : (d < length x)%nat -> length x = length e ->
  is_derive (fun t => monoR (upd x d t) e) (nth d x 0) (grad_entryR x e d) /\ upd x d (nth d x 0) = x.
Proof. exact (fun H1 H2 => conj (mono_partial_derivative x e d H1 H2) (upd_nth x d H1)). Qed.
Print Assumptions C04_polynomial_gradient_entry.

(* the tensor the code returns is made of exactly these entries, the all-zero shortcut of the constant mean included *)
Theorem C04_polynomial_gradient_tensor dim idx pts : idx <> [] -> List.Forall (fun p => length p = dim) pts ->
  gradtenR dim idx pts = map (fun p => map (fun e => map (grad_entryR p e) (seq 0 dim)) idx) pts.
Proof. exact (gradten_entries dim idx pts). Qed.
Print Assumptions C04_polynomial_gradient_tensor.

Example C04_polynomial_gradient_example :
  grad_entryR [2; 3] [1; 2]%nat 1 = 1 * (2 * 1) * (INR 2 * (3 * 1)) /\ grad_entryR [0; 8] [0; 2]%nat 0 = 0 * (8 * (8 * 1)).
Proof. split; reflexivity. Qed.
