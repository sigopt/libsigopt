(* C05 — acquisition values and success probabilities mean what they claim.
   Statements about Gen.GenAcq (regenerated on every run). *)
From Coq Require Import Reals.
From Coquelicot Require Import Coquelicot.
From LV Require Import Lib.RBase Gen.GenAcq Proofs.Acq.
Open Scope R_scope.

(* value = sigma * max(0, z Phi(z) + pdf(z)), z = (best - mu)/sigma; finite and non-negative *)
Theorem C05_ei_formula dim x mean var gmean gvar best i :
  EI.value dim x mean var gmean gvar best i = sqrt (var i) * Rmax 0 (G ((best - mean i) / sqrt (var i))) /\
  0 <= EI.value dim x mean var gmean gvar best i.
Proof. split; [exact (ei_formula dim x mean var gmean gvar best i)|exact (ei_nonneg dim x mean var gmean gvar best i)]. Qed.
Print Assumptions C05_ei_formula.

(* the derivative characterisation of E[max(best - Y, 0)], Y ~ N(mu, sigma^2): d/d best [sigma G((best-mu)/sigma)] = Phi(z)
   = P(Y <= best).  PARTIAL in this file: the boundary condition (the value tends to 0 as best -> -infinity, i.e.
   z Phi(z) -> 0) needs the Gaussian tail; that, and the integral itself, are C05_gaussian_tail and
   C05_ei_is_expected_improvement of Props/C05_gauss.v. *)
Theorem C05_ei_incumbent_derivative_partial mu sigma best : 0 < sigma ->
  is_derive (fun b => sigma * G ((b - mu) / sigma)) best (Phi ((best - mu) / sigma)).
Proof. exact (ei_incumbent_derivative mu sigma best). Qed.
Print Assumptions C05_ei_incumbent_derivative_partial.

(* augmented EI = EI times a penalty in [0,1); failure-weighted EI = EI times the supplied probability; multitask = value / cost *)
Theorem C05_penalised_forms dim mean var z sv cdf pdfz gmean gvar gsv pen gpen nu i dimp1 x af g :
  (0 < nu -> 0 <= var i -> 0 <= AEI.penalty_value dim mean var z sv cdf pdfz gmean gvar gsv nu i < 1) /\
  EIP.value_penalty dim mean var z sv cdf pdfz gmean gvar gsv pen gpen i
    = EI.normalized dim mean var z sv cdf pdfz gmean gvar gsv i * pen i /\
  MultitaskAF.value dimp1 x af g i = af i / x i (dimp1 - 1)%nat.
Proof.
  split; [exact (aei_penalty_range dim mean var z sv cdf pdfz gmean gvar gsv nu i)|split; reflexivity].
Qed.
Print Assumptions C05_penalised_forms.

(* success probabilities: logistic model in (0,1), non-increasing in the predicted value (kappa > 0); CDF model = Phi((t-mu)/sd),
   strictly decreasing in the predicted value; its range (0,1) is that of Phi, a hypothesis of the last conjunct here and
   the theorem C05_Phi_range of Props/C05_gauss.v *)
Theorem C05_success_probabilities dim x m1 m2 mean var gmean gvar kappa thr i :
  0 < Logistic.value dim x mean var gmean gvar kappa thr i < 1 /\
  (0 < kappa -> m1 <= m2 ->
     Logistic.value dim x (C1 m2) var gmean gvar kappa thr i <= Logistic.value dim x (C1 m1) var gmean gvar kappa thr i) /\
  CDF.value dim x mean var gmean gvar thr i = Phi ((thr - mean i) / sqrt (var i)) /\
  (0 < var i -> m1 < m2 -> CDF.value dim x (C1 m2) var gmean gvar thr i < CDF.value dim x (C1 m1) var gmean gvar thr i) /\
  ((forall z, 0 < Phi z < 1) -> 0 < CDF.value dim x mean var gmean gvar thr i < 1).
Proof.
  split; [exact (logistic_range dim x mean var gmean gvar kappa thr i)|split].
  - exact (logistic_nonincreasing dim x m1 m2 var gmean gvar kappa thr i).
  - split; [reflexivity|split].
    + exact (cdf_model_decreasing dim x m1 m2 var gmean gvar thr i).
    + intros H. apply H.
Qed.
Print Assumptions C05_success_probabilities.

(* a product model multiplies its components' probabilities and stays in [0,1] *)
Theorem C05_product_model nq poss i :
  Product.value nq poss i = bigprod nq (fun q => poss q i) /\
  ((forall q, (q < nq)%nat -> 0 <= poss q i <= 1) -> 0 <= Product.value nq poss i <= 1).
Proof. split; [reflexivity|exact (product_model_range nq poss i)]. Qed.
Print Assumptions C05_product_model.
