(* C05, Gaussian-integral part — the assumption "forall z, 0 < Phi z < 1" of Props/C05.v and the word "partial" in
   C05_ei_incumbent_derivative_partial are discharged: the Gaussian integral is proved in Lib/Gauss.v (no axioms beyond the
   standard library's real numbers), the tail bound and the integral identity in Proofs/AcqGauss.v.
   Statements about Lib.RBase.pdf / Phi and Gen.GenAcq (regenerated on every run). *)
From Coq Require Import Reals.
From Coquelicot Require Import Coquelicot.
From LV Require Import Lib.RBase Lib.Gauss Gen.GenAcq Proofs.Acq Proofs.AcqGauss.
Open Scope R_scope.

(* int_0^oo exp(-t^2) dt = sqrt(PI)/2, and the standard normal density has mass 1/2 on [0, oo) *)
Theorem C05_gaussian_integral :
  is_lim (fun x => RInt (fun t => exp (- t ^ 2)) 0 x) p_infty (sqrt PI / 2) /\
  is_lim (fun x => RInt pdf 0 x) p_infty (1 / 2).
Proof. split; [exact gauss_integral_half|exact pdf_integral_half]. Qed.
Print Assumptions C05_gaussian_integral.

(* Phi(z) = 1/2 + int_0^z pdf is a probability *)
Theorem C05_Phi_range : forall z, 0 < Phi z < 1.
Proof. exact Phi_range. Qed.
Print Assumptions C05_Phi_range.

(* Phi is a distribution function: limits 1 and 0 at +oo and -oo, symmetric *)
Theorem C05_Phi_limits :
  is_lim Phi p_infty 1 /\ is_lim Phi m_infty 0 /\ (forall z, Phi (- z) = 1 - Phi z).
Proof. split; [exact Phi_lim_p|split; [exact Phi_lim_m|exact Phi_sym]]. Qed.
Print Assumptions C05_Phi_limits.

(* Gaussian tail (Mills ratio) and what it gives for G z = z Phi z + pdf z: G -> 0 at -oo and G > 0 everywhere, so the clamp
   max(0, .) of the generated EI value is never active and the value is positive when the variance is *)
Theorem C05_gaussian_tail dim x mean var gmean gvar best i :
  (forall z, z < 0 -> Phi z <= pdf z / (- z)) /\
  is_lim G m_infty 0 /\ (forall z, 0 < G z) /\
  EI.value dim x mean var gmean gvar best i = sqrt (var i) * G ((best - mean i) / sqrt (var i)) /\
  (0 < var i -> 0 < EI.value dim x mean var gmean gvar best i).
Proof.
  split; [exact Phi_mills|split; [exact G_lim_m|split; [exact G_pos|split]]].
  - exact (ei_value_no_clamp dim x mean var gmean gvar best i).
  - exact (ei_value_pos dim x mean var gmean gvar best i).
Qed.
Print Assumptions C05_gaussian_tail.

(* sigma G((best - mu)/sigma) IS E[max(best - Y, 0)] for Y ~ N(mu, sigma^2) (density pdf((y - mu)/sigma)/sigma, which is positive
   and has total mass 1):
   (1) as the limit, a -> -oo, of the proper Riemann integrals of (best - y) * density over [a, best];
   (2) the same as Coquelicot's generalised Riemann integral over (-oo, best];
   (3) as the generalised Riemann integral of max(best - y, 0) * density over the whole real line. *)
Theorem C05_ei_is_expected_improvement mu sigma best : 0 < sigma ->
  is_lim (fun a => RInt (fun y => (best - y) * pdf ((y - mu) / sigma) / sigma) a best) m_infty (sigma * G ((best - mu) / sigma)) /\
  is_RInt_gen (fun y => (best - y) * (pdf ((y - mu) / sigma) / sigma)) (Rbar_locally m_infty) (at_point best)
              (sigma * G ((best - mu) / sigma)) /\
  is_RInt_gen (fun y => Rmax (best - y) 0 * (pdf ((y - mu) / sigma) / sigma)) (Rbar_locally m_infty) (Rbar_locally p_infty)
              (sigma * G ((best - mu) / sigma)) /\
  (forall y, 0 < pdf ((y - mu) / sigma) / sigma) /\
  is_RInt_gen (fun y => pdf ((y - mu) / sigma) / sigma) (Rbar_locally m_infty) (Rbar_locally p_infty) 1.
Proof.
  intros Hs. split; [exact (ei_is_expected_improvement_lim' mu sigma best Hs)|split].
  - exact (ei_is_expected_improvement_gen mu sigma best Hs).
  - split; [exact (ei_is_expected_improvement_line mu sigma best Hs)|split].
    + exact (ndens_pos mu sigma Hs).
    + exact (ndens_total_mass mu sigma Hs).
Qed.
Print Assumptions C05_ei_is_expected_improvement.

(* the normal-CDF success-probability model lies in (0,1): last conjunct of C05_success_probabilities without its hypothesis
   (0 < var i is kept because the model is only meaningful there; the range statement itself needs no hypothesis) *)
Theorem C05_cdf_model_range_unconditional dim x mean var gmean gvar thr i :
  0 < var i -> 0 < CDF.value dim x mean var gmean gvar thr i < 1.
Proof. intros _. exact (cdf_model_range_unconditional dim x mean var gmean gvar thr i). Qed.
Print Assumptions C05_cdf_model_range_unconditional.
