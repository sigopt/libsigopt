(* C05, batching and incumbents — statements about the executable model Model.Incumbent (tied by correspondence). *)
From Coq Require Import List QArith.
From LV Require Import Model.Pareto Model.Incumbent Proofs.Incumbent.
Import ListNotations.
Open Scope Q_scope.

(* for a pointwise acquisition function the batched evaluation is the map, whatever the batch size *)
Theorem C05_batched_eval_is_map {A B} (g : A -> B) (b : option nat) (pts : list A) :
  (pts <> [] \/ exists k, b = Some (S k)) -> evaluate_at_point_list (map g) b pts = Some (map g pts).
Proof. exact (batched_eval_is_map g b pts). Qed.
Print Assumptions C05_batched_eval_is_map.

Theorem C05_incumbent_plain vals : vals <> [] ->
  let '(i, v) := incumbent_plain vals in
  (i < length vals)%nat /\ v = nth i vals 0 /\ (forall k, (k < length vals)%nat -> v <= nth k vals 0) /\
  (forall k, (k < i)%nat -> v < nth k vals 0).
Proof. exact (incumbent_plain_spec vals). Qed.
Print Assumptions C05_incumbent_plain.

Theorem C05_incumbent_aei q means sds : means <> [] -> length means = length sds ->
  let '(i, v) := incumbent_aei q means sds in
  (i < length means)%nat /\ v = nth i means 0 /\
  (forall k, (k < length means)%nat -> nth i means 0 + q * nth i sds 0 <= nth k means 0 + q * nth k sds 0).
Proof. exact (incumbent_aei_spec q means sds). Qed.
Print Assumptions C05_incumbent_aei.
