(* C05, Monte-Carlo parallel expected improvement (qEI) — statements about the executable model Model.ParallelEI of
   ExpectedParallelImprovement._evaluate_at_point_list / evaluate_at_point_list (tied to the running code by the in-Coq
   correspondence Model.ParallelEICorr: stub predictor, prescribed factor, scripted draws).  The proofs are in Proofs/ParallelEI.v.

   Notation of the model: a call evaluates the candidate sets `sets` (set k = (means mk of its q points, rows Lk of the factor of
   the joint covariance of set k ++ pending; C17: Lk Lk' = cov)), `mp` = means of the p pending points, c = q + p,
   `stream` = the standard normal draws in the order numpy.random.normal hands them out, N = num_mc_iterations,
   B = num_mc_iterations_per_loop.  Lz c L z j = sum_{l<c} L[j][l] z[l];  amin = minimum of a non-empty list;  qmax 0 x = max(0, x). *)
From Coq Require Import List QArith.
From LV Require Import Model.ParallelEI Proofs.ParallelEI.
Import ListNotations.
Open Scope Q_scope.

(* the draws one call executes: the loop runs whole blocks of b = min(B, N) draws until N is reached, so it executes the least
   multiple of b that is >= N (more than N when b does not divide N) ... *)
Theorem C05_qei_number_of_executed_draws N B : (0 < N)%nat -> (0 < B)%nat ->
  let b := Nat.min B N in
  (N <= n_exec N B)%nat /\ (n_exec N B < N + b)%nat /\ exists t, n_exec N B = (t * b)%nat.
Proof. exact (n_exec_spec N B). Qed.
Print Assumptions C05_qei_number_of_executed_draws.

(* ... and these draws are the first n_exec vectors of c successive entries of the stream, whatever the block size *)
Theorem C05_qei_executed_draws N B c stream : (n_exec N B * c <= length stream)%nat ->
  length (executed_draws N B c stream) = n_exec N B /\
  Forall (fun z => length z = c) (executed_draws N B c stream) /\
  concat (executed_draws N B c stream) = firstn (n_exec N B * c) stream.
Proof. exact (executed_draws_spec N B c stream). Qed.
Print Assumptions C05_qei_executed_draws.

(* (a) the estimate of candidate set k is the arithmetic mean, over the executed draws z, of the improvement over `best` of the
   minimum of the posterior sample y = m - L z at the q + p points, m = (means of set k) ++ (pending means).
   (The code forms L z + best - m: its sample is m - L z, the draw enters with the opposite sign, equally distributed.) *)
Theorem C05_qei_estimate_is_sample_mean q sets mp best N B stream k mk Lk :
  (forall s, In s sets -> length (fst s) = q) -> (0 < q + length mp)%nat -> (0 < N)%nat -> (0 < B)%nat -> (k < length sets)%nat ->
  nth k sets ([], []) = (mk, Lk) ->
  let c := (q + length mp)%nat in
  let m := mk ++ mp in
  let y := fun z : vec => map (fun j => nth j m 0 - Lz c Lk z j) (seq 0 c) in
  let zs := executed_draws N B c stream in
  nth k (qei q sets mp best N B stream) 0 == sumQ (map (fun z => qmax 0 (best - amin (y z))) zs) / ofnat (length zs).
Proof. exact (fun Hwf Hc _ _ => qei_estimate_is_sample_mean_explicit q sets mp best N B stream k mk Lk Hwf Hc). Qed.
Print Assumptions C05_qei_estimate_is_sample_mean.

(* (b) one estimate per candidate set, each non-negative (nothing required) *)
Theorem C05_qei_nonneg q sets mp best N B stream : Forall (fun e => 0 <= e) (qei q sets mp best N B stream).
Proof. exact (qei_nonneg q sets mp best N B stream). Qed.
Print Assumptions C05_qei_nonneg.

Theorem C05_qei_one_estimate_per_set q sets mp best N B stream : length (qei q sets mp best N B stream) = length sets.
Proof. exact (qei_length q sets mp best N B stream). Qed.
Print Assumptions C05_qei_one_estimate_per_set.

(* (c) set independence: the estimate of a candidate set depends only on that set's means and factor, the pending means, best,
   N, B and the draws — the same value at any position of any vectorised call that contains the set ... *)
Theorem C05_qei_set_independent q sets sets' mp best N B stream k k' :
  (forall s, In s sets -> length (fst s) = q) -> (forall s, In s sets' -> length (fst s) = q) ->
  (0 < q + length mp)%nat -> (0 < N)%nat -> (0 < B)%nat -> (k < length sets)%nat -> (k' < length sets')%nat ->
  nth k sets ([], []) = nth k' sets' ([], []) ->
  nth k (qei q sets mp best N B stream) 0 == nth k' (qei q sets' mp best N B stream) 0.
Proof. exact (fun Hwf Hwf' Hc _ _ => qei_set_independent q sets sets' mp best N B stream k k' Hwf Hwf' Hc). Qed.
Print Assumptions C05_qei_set_independent.

(* ... in particular the same value as when the set is evaluated alone *)
Theorem C05_qei_set_alone q sets mp best N B stream k :
  (forall s, In s sets -> length (fst s) = q) -> (0 < q + length mp)%nat -> (0 < N)%nat -> (0 < B)%nat -> (k < length sets)%nat ->
  nth k (qei q sets mp best N B stream) 0 == nth 0 (qei q [nth k sets ([], [])] mp best N B stream) 0.
Proof. exact (fun Hwf Hc _ _ => qei_set_alone q sets mp best N B stream k Hwf Hc). Qed.
Print Assumptions C05_qei_set_alone.

(* the public entry point evaluate_at_point_list(points, batch_size): whatever the batch size, the estimate of candidate set k is
   the estimate (a) of that set on the draws of its own batch — the stream moved on by the n_exec * c draws of each earlier batch
   (set_estimate c (mk, Lk) mp best zs is the right-hand side of (a): the mean over zs of max(0, best - min_j (m - L z)_j)) *)
Theorem C05_qei_public_batches batch q sets mp best N B stream k :
  (forall s, In s sets -> length (fst s) = q) -> (0 < q + length mp)%nat -> (0 < N)%nat -> (0 < B)%nat -> (k < length sets)%nat ->
  let bs := match batch with Some b0 => if (b0 =? 0)%nat then length sets else b0 | None => length sets end in
  let c := (q + length mp)%nat in
  nth k (qei_public batch q sets mp best N B stream) 0 ==
  set_estimate c (nth k sets ([], [])) mp best (executed_draws N B c (skipn ((k / bs) * (n_exec N B * c)) stream)).
Proof. exact (fun Hwf Hc _ _ => qei_public_estimate batch q sets mp best N B stream k Hwf Hc). Qed.
Print Assumptions C05_qei_public_batches.

(* (d) one point per candidate set and no pending point: the mean of max(0, best - (m - l z)), l the 1x1 factor *)
Theorem C05_qei_single_point sets best N B stream k m L :
  (forall s, In s sets -> length (fst s) = 1%nat) -> (0 < N)%nat -> (0 < B)%nat -> (k < length sets)%nat ->
  nth k sets ([], []) = ([m], L) ->
  nth k (qei 1 sets [] best N B stream) 0 ==
  mean_list (map (fun z => qmax 0 (best - (m - entry L 0 0 * nth 0 z 0))) (executed_draws N B 1 stream)).
Proof. exact (fun Hwf _ _ => qei_single_point sets best N B stream k m L Hwf). Qed.
Print Assumptions C05_qei_single_point.

(* a concrete non-trivial instance (hypotheses satisfiable): two candidate sets of two points and one pending point, three
   requested draws executed as two blocks of two (four draws), one vectorised call *)
Example C05_qei_example :
  map Qred (qei 2 [([1; 0], [[1; 0; 0]; [1#2; 1; 0]; [0; 1#2; 1]]); ([-1; 2], [[2; 0; 0]; [0; 0; 0]; [1; -1; 1#2]])] [1#2] (1#4) 3 2
                [1; 0; -1;   -1; 1; 0;   1#2; 2; -2;   0; 0; 1;   7; 7; 7])
  = [19 # 16; 27 # 16]
  /\ n_exec 3 2 = 4%nat.
Proof. vm_compute. split; reflexivity. Qed.
