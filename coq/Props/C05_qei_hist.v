(* C05, Monte-Carlo parallel expected improvement on a LIVE object: histories in which the predictor's data change after the object
   was built (gp.append_lie_data, gp.update_historical_data: the same predictor object answers differently) and the pending points
   are re-assigned, with evaluations in between.  Statements about Model.ParallelEIHist (the object keeps the incumbent of its
   construction, its pending points and the iteration counts; everything else is asked of the predictor at every evaluation), tied to
   the running class by the op-sequence correspondence Model.ParallelEIHistCorr.  The proofs are in Proofs/ParallelEIHist.v. *)
From Coq Require Import List QArith.
From LV Require Import Model.ParallelEI Model.ParallelEIHist Proofs.ParallelEI Proofs.ParallelEIHist.
Import ListNotations.
Open Scope Q_scope.

(* after ANY history the predictor in force is the one named last and the object differs from the constructed one only in the pending
   points assigned last: evaluations, earlier predictors and earlier pending sets leave nothing behind *)
Theorem C05_qei_hist_state ops p o :
  state_after p o ops = (last_predictor p ops, mkobj (o_q o) (last_pending (o_pending o) ops) (o_best o) (o_N o) (o_B o)).
Proof. exact (state_after_spec ops p o). Qed.
Print Assumptions C05_qei_hist_state.

(* every evaluation inside a history is the evaluation of an object constructed with the pending points held now, on the predictor as it
   answers now; when that predictor reports the incumbent the object was built with (lie data carry the worst observed value), it IS the
   freshly constructed object *)
Theorem C05_qei_hist_eval_is_fresh p0 q pend0 N B ops1 sets e st ops2 :
  let p := last_predictor p0 ops1 in
  let pend := last_pending pend0 ops1 in
  nth (count_evals ops1) (run p0 (construct p0 q pend0 N B) (ops1 ++ QEval sets e st :: ops2)) [] = eval p (construct p0 q pend N B) sets e st /\
  (p_best p = p_best p0 -> construct p0 q pend N B = construct p q pend N B).
Proof. exact (hist_eval_is_fresh p0 q pend0 N B ops1 sets e st ops2). Qed.
Print Assumptions C05_qei_hist_eval_is_fresh.

(* the reading of one estimate inside a history (direct and public entry): the mean over the executed draws of its call of
   max(0, best - min_j (m - L z)_j) with m = the means the predictor answers NOW for candidate set k and for the pending points held NOW,
   L = the factor of the joint covariance it answers NOW for their union, best = the incumbent of the construction *)
Theorem C05_qei_hist_estimate p o sets entry stream k :
  (forall s, In s sets -> length s = o_q o) -> (0 < o_q o + length (o_pending o))%nat -> (0 < o_N o)%nat -> (0 < o_B o)%nat -> (k < length sets)%nat ->
  let c := (o_q o + length (o_pending o))%nat in
  let bs := match entry with Some (Some b0) => if (b0 =? 0)%nat then length sets else b0 | _ => length sets end in
  let sk := nth k sets [] in
  nth k (eval p o sets entry stream) 0 ==
  set_estimate c (map (mean_of (p_means p)) sk, fac_of (p_facs p) (sk ++ o_pending o)) (mp_now p o) (o_best o)
    (executed_draws (o_N o) (o_B o) c (skipn ((k / bs) * (n_exec (o_N o) (o_B o) * c)) stream)).
Proof. exact (fun Hq Hc _ _ => hist_estimate_reading p o sets entry stream k Hq Hc). Qed.
Print Assumptions C05_qei_hist_estimate.

(* a concrete history (hypotheses satisfiable): one candidate point, one pending point; evaluate, the predictor's data change (the mean of
   the pending point drops from 1 to -1), evaluate again on the same draws: the estimate follows the predictor *)
Example C05_qei_hist_example :
  let pA := mkpred 0 [([0], 1); ([1], 1)] [([[0]; [1]], [[1; 0]; [0; 1]])] in
  let pB := mkpred 0 [([0], 1); ([1], -1)] [([[0]; [1]], [[1; 0]; [0; 1]])] in
  map (map Qred) (run pA (construct pA 1 [[1]] 2 2) [QEval [[[0]]] None [0; 0; 1; 0]; QPredictor pB; QEval [[[0]]] None [0; 0; 1; 0]])
  = [[0]; [1]].
Proof. vm_compute. reflexivity. Qed.
