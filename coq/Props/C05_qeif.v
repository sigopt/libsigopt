(* C05, Monte-Carlo parallel expected improvement WITH FAILURE MODELS — statements about the executable model Model.ParallelEIF of
   ExpectedParallelImprovementWithFailures._evaluate_at_point_list / evaluate_at_point_list (tied to the running code by the
   in-Coq correspondence Model.ParallelEIFCorr: stub predictors, stub failure models inside the real product model, prescribed
   factors, scripted draws; the incumbent of the class is tied there to Model.Incumbent.incumbent_failures).  The proofs are in
   Proofs/ParallelEIF.v.

   Notation of the model: a call evaluates the candidate sets `fsets`; set k = ((mk, Lk), fails, probs):
     mk, Lk  objective means of its q points, rows of the factor of the objective covariance of set k ++ pending (C17: Lk Lk' = cov),
     fails   for each failure model i the pair (means of the q points under model i, factor of model i's covariance of set k ++ pending),
     probs   for each failure model i its probability of success at the FIRST point of set k;  prodQ probs = their product;
   `fms` = for each failure model i (its means of the p pending points, its threshold t_i);  `mp` = objective means of the pending
   points;  c = q + p;  `stream` = the standard normal draws in the order numpy.random.normal hands them out;  N, B =
   num_mc_iterations, num_mc_iterations_per_loop.  qeif_wf = the shapes agree (q means per set and model, one entry per failure
   model, p pending means per model).  Lz c L z j = sum_{l<c} L[j][l] z[l];  qltb a b = (a < b);  amin = minimum of a non-empty list.

   What the code computes (reading of theorem (a)).  ONE array of draws per pass of the loop: the same vector z drives the
   objective sample y = m + L z and the sample f_i = m_i + L_i z of EVERY failure model (the models are not sampled independently
   of each other or of the objective).  Point j of draw z is FEASIBLE when f_i[j] < t_i STRICTLY for EVERY failure model i — the
   test is per point (candidate and pending points alike) and the indicator arrays are multiplied (a conjunction).  The
   contribution of draw z to set k is max(0, best - min over the feasible points j of y_j), 0 when no point is feasible
   (masked_improvement).  A pass (block of b = min(B, N) draws) in which this is zero for EVERY candidate set of the call at EVERY
   draw of the block is replaced as a whole: each set then gets, per draw, fmax(0, amax_j((best - y_j) * prodQ probs)), which for a
   success probability >= 0 is prodQ probs * max(0, best - min_j y_j) over ALL points (weighted_improvement).  The sum is divided
   by the number of executed draws (n_exec: the least multiple of b reaching N, Props/C05_qei.v). *)
From Coq Require Import List QArith.
From LV Require Import Model.ParallelEI Model.ParallelEIF Proofs.ParallelEI Proofs.ParallelEIF.
Import ListNotations.
Open Scope Q_scope.

(* the blocks one call executes are the executed draws of Props/C05_qei.v cut into passes of b = min(B, N) rows *)
Theorem C05_qeif_blocks_are_the_executed_draws N B c stream :
  concat (executed_blocks N B c stream) = executed_draws N B c stream /\
  length (executed_blocks N B c stream) = passes N (Nat.min B N) N 0 /\
  (forall blk, In blk (executed_blocks N B c stream) -> length blk = Nat.min B N).
Proof.
  exact (conj (executed_blocks_concat N B c stream)
              (conj (blocks_length c (Nat.min B N) (passes N (Nat.min B N) N 0) stream) (blocks_each c (Nat.min B N) (passes N (Nat.min B N) N 0) stream))).
Qed.
Print Assumptions C05_qeif_blocks_are_the_executed_draws.

(* (a) the estimate of candidate set k, for all inputs of the right shapes: over the blocks of the call,
     block_term = sum over the draws of the block of masked_improvement, or of fallback_gain when the block falls back
                  (block_falls_back: masked_improvement == 0 for every set of the call at every draw of the block),
     fset_estimate = (sum of the block terms) / (number of executed draws) *)
Theorem C05_qeif_estimate q fsets fms mp best N B stream k :
  qeif_wf q fsets fms mp -> (k < length fsets)%nat ->
  let c := (q + length mp)%nat in
  let blks := executed_blocks N B c stream in
  nth k (qeif q fsets fms mp best N B stream) 0 ==
  sumQ (map (fun blk => if block_falls_back c fsets fms mp best blk
                        then sumQ (map (fallback_gain c (nth k fsets dfset) mp best) blk)
                        else sumQ (map (masked_improvement c (nth k fsets dfset) fms mp best) blk)) blks)
  / ofnat (length (concat blks)).
Proof. exact (qeif_estimate q fsets fms mp best N B stream k). Qed.
Print Assumptions C05_qeif_estimate.

(* ... the masked improvement of one draw, written out: y = m + L z, m = mk ++ mp; point j feasible iff for every failure model i
   (m_i + L_i z)_j < t_i strictly, m_i = (means of the set under model i) ++ (pending means under model i), the SAME z *)
Theorem C05_qeif_masked_improvement c mk Lk fails probs fms mp best z :
  masked_improvement c ((mk, Lk), fails, probs) fms mp best z =
  match filter (fun j => forallb (fun i => qltb (nth j (fst (nth i fails dcset) ++ fst (nth i fms dfmod)) 0 + Lz c (snd (nth i fails dcset)) z j)
                                              (snd (nth i fms dfmod))) (seq 0 (length fms))) (seq 0 c) with
  | [] => 0
  | js => qmax 0 (best - amin (map (fun j => nth j (mk ++ mp) 0 + Lz c Lk z j) js))
  end.
Proof. exact (masked_improvement_explicit c mk Lk fails probs fms mp best z). Qed.
Print Assumptions C05_qeif_masked_improvement.

(* ... and the fallback term, for a success probability >= 0: probability * plain improvement of the lowest sample of all points *)
Theorem C05_qeif_fallback_is_weighted_improvement c s mp best z : (0 < c)%nat -> 0 <= prodQ (s_probs s) ->
  fallback_gain c s mp best z == prodQ (s_probs s) * qmax 0 (best - amin (fsample c (s_obj s) mp z)).
Proof. exact (fallback_gain_weighted c s mp best z). Qed.
Print Assumptions C05_qeif_fallback_is_weighted_improvement.

(* (a) again with the weighted reading (this is the form evaluated on the implementation's output by the correspondence) *)
Theorem C05_qeif_estimate_weighted q fsets fms mp best N B stream k :
  qeif_wf q fsets fms mp -> (0 < q + length mp)%nat -> (k < length fsets)%nat -> 0 <= prodQ (s_probs (nth k fsets dfset)) ->
  nth k (qeif q fsets fms mp best N B stream) 0 ==
  fset_estimate_w (q + length mp) fsets fms mp best (nth k fsets dfset) (executed_blocks N B (q + length mp) stream).
Proof. exact (qeif_estimate_weighted q fsets fms mp best N B stream k). Qed.
Print Assumptions C05_qeif_estimate_weighted.

(* (b) one estimate per candidate set, each non-negative (nothing required) ... *)
Theorem C05_qeif_nonneg q fsets fms mp best N B stream : Forall (fun e => 0 <= e) (qeif q fsets fms mp best N B stream).
Proof. exact (qeif_nonneg q fsets fms mp best N B stream). Qed.
Print Assumptions C05_qeif_nonneg.

Theorem C05_qeif_one_estimate_per_set q fsets fms mp best N B stream : length (qeif q fsets fms mp best N B stream) = length fsets.
Proof. exact (qeif_length q fsets fms mp best N B stream). Qed.
Print Assumptions C05_qeif_one_estimate_per_set.

(* ... and at most the plain parallel EI (Model.ParallelEI.qei, Props/C05_qei.v) of the same objective means and factors on the
   NEGATED draws, when the success probability of the set's first point is in [0,1].  (The plain class forms L z + best - m, sample
   m - L z; this class forms best - (L z + m), sample m + L z: the two classes read the same draw with opposite signs.) *)
Theorem C05_qeif_le_plain_on_negated_draws q fsets fms mp best N B stream k :
  qeif_wf q fsets fms mp -> (0 < q + length mp)%nat -> (0 < N)%nat -> (0 < B)%nat -> (k < length fsets)%nat ->
  0 <= prodQ (s_probs (nth k fsets dfset)) <= 1 ->
  nth k (qeif q fsets fms mp best N B stream) 0 <= nth k (qei q (map s_obj fsets) mp best N B (map Qopp stream)) 0.
Proof. exact (fun Hwf Hc _ _ => qeif_le_plain q fsets fms mp best N B stream k Hwf Hc). Qed.
Print Assumptions C05_qeif_le_plain_on_negated_draws.

(* on the draws themselves the comparison is false (one set, every sample feasible, draw -1: 1 against 0) *)
Theorem C05_qeif_le_plain_on_same_draws_refuted :
  exists q fsets fms mp best N B stream k,
    qeif_wf q fsets fms mp /\ (0 < q + length mp)%nat /\ (0 < N)%nat /\ (0 < B)%nat /\ (k < length fsets)%nat /\
    0 <= prodQ (s_probs (nth k fsets dfset)) <= 1 /\
    ~ nth k (qeif q fsets fms mp best N B stream) 0 <= nth k (qei q (map s_obj fsets) mp best N B stream) 0.
Proof. exact qeif_le_plain_on_same_draws_refuted. Qed.
Print Assumptions C05_qeif_le_plain_on_same_draws_refuted.

(* (c) set independence as in C05_qei_set_independent is FALSE here: the fallback test looks at the whole block, i.e. at all the
   candidate sets of the call.  Witness (replayed on the real class by the correspondence): a set whose only point is never
   feasible gets 1/2 * improvement = 1/2 when evaluated alone, and 0 next to a set with a feasible improving sample. *)
Theorem C05_qeif_set_independent_refuted :
  exists q fsets fsets' fms mp best N B stream k k',
    qeif_wf q fsets fms mp /\ qeif_wf q fsets' fms mp /\ (0 < q + length mp)%nat /\ (0 < N)%nat /\ (0 < B)%nat /\
    (k < length fsets)%nat /\ (k' < length fsets')%nat /\ nth k fsets dfset = nth k' fsets' dfset /\
    ~ nth k (qeif q fsets fms mp best N B stream) 0 == nth k' (qeif q fsets' fms mp best N B stream) 0.
Proof. exact qeif_set_independent_refuted. Qed.
Print Assumptions C05_qeif_set_independent_refuted.

(* for the same reason the estimate is not a function of the executed draws alone (as the plain estimator is, C05_qei_executed_draws):
   the same two draws as one block of two or as two blocks of one give different estimates *)
Theorem C05_qeif_block_size_matters :
  exists q fsets fms mp best N B B' stream,
    qeif_wf q fsets fms mp /\ (0 < q + length mp)%nat /\ (0 < N)%nat /\ (0 < B)%nat /\ (0 < B')%nat /\
    executed_draws N B (q + length mp) stream = executed_draws N B' (q + length mp) stream /\
    ~ nth 0 (qeif q fsets fms mp best N B stream) 0 == nth 0 (qeif q fsets fms mp best N B' stream) 0.
Proof. exact qeif_block_size_matters. Qed.
Print Assumptions C05_qeif_block_size_matters.

(* what is true: in a call none of whose blocks falls back, the estimate is the mean over the executed draws of the masked
   improvement of the set - it depends only on the set's own data, the failure models, the pending means, best, N, B and the draws *)
Theorem C05_qeif_no_fallback_is_mean_masked_improvement q fsets fms mp best N B stream k :
  qeif_wf q fsets fms mp -> (k < length fsets)%nat ->
  no_fallback (q + length mp) fsets fms mp best (executed_blocks N B (q + length mp) stream) = true ->
  let zs := executed_draws N B (q + length mp) stream in
  nth k (qeif q fsets fms mp best N B stream) 0 ==
  sumQ (map (masked_improvement (q + length mp) (nth k fsets dfset) fms mp best) zs) / ofnat (length zs).
Proof. exact (qeif_no_fallback q fsets fms mp best N B stream k). Qed.
Print Assumptions C05_qeif_no_fallback_is_mean_masked_improvement.

Theorem C05_qeif_set_independent_without_fallback q fsets fsets' fms mp best N B stream k k' :
  qeif_wf q fsets fms mp -> qeif_wf q fsets' fms mp -> (k < length fsets)%nat -> (k' < length fsets')%nat ->
  no_fallback (q + length mp) fsets fms mp best (executed_blocks N B (q + length mp) stream) = true ->
  no_fallback (q + length mp) fsets' fms mp best (executed_blocks N B (q + length mp) stream) = true ->
  nth k fsets dfset = nth k' fsets' dfset ->
  nth k (qeif q fsets fms mp best N B stream) 0 == nth k' (qeif q fsets' fms mp best N B stream) 0.
Proof. exact (qeif_set_independent q fsets fsets' fms mp best N B stream k k'). Qed.
Print Assumptions C05_qeif_set_independent_without_fallback.

(* in particular a set that has a non-zero masked improvement in every block (set_active: a condition on the set alone) has the
   same estimate in every call that contains it as when it is evaluated alone *)
Theorem C05_qeif_set_alone q fsets fms mp best N B stream k :
  qeif_wf q fsets fms mp -> (k < length fsets)%nat ->
  set_active (q + length mp) (nth k fsets dfset) fms mp best (executed_blocks N B (q + length mp) stream) = true ->
  nth k (qeif q fsets fms mp best N B stream) 0 == nth 0 (qeif q [nth k fsets dfset] fms mp best N B stream) 0.
Proof. exact (qeif_set_alone q fsets fms mp best N B stream k). Qed.
Print Assumptions C05_qeif_set_alone.

(* the public entry point evaluate_at_point_list(points, batch_size): the estimate of candidate set k is the estimate (a) of the
   call made for ITS batch - the candidate sets of that batch (they decide which blocks fall back), the stream moved on by the
   n_exec * c draws of each earlier batch.  Unlike the plain estimator the value therefore depends on the batch size. *)
Theorem C05_qeif_public_batches batch q fsets fms mp best N B stream k :
  qeif_wf q fsets fms mp -> (k < length fsets)%nat ->
  let bs := match batch with Some b0 => if (b0 =? 0)%nat then length fsets else b0 | None => length fsets end in
  let c := (q + length mp)%nat in
  nth k (qeif_public batch q fsets fms mp best N B stream) 0 ==
  fset_estimate c (firstn bs (skipn ((k / bs) * bs) fsets)) fms mp best (nth k fsets dfset)
                (executed_blocks N B c (skipn ((k / bs) * (n_exec N B * c)) stream)).
Proof. exact (qeif_public_estimate batch q fsets fms mp best N B stream k). Qed.
Print Assumptions C05_qeif_public_batches.

(* (d) thresholds that every executed sample of the set satisfies (all_feasible: every point of every executed draw feasible) and
   a success probability >= 0: the estimate is the plain parallel EI of the objective data on the negated draws ... *)
Theorem C05_qeif_all_feasible_is_plain q fsets fms mp best N B stream k :
  qeif_wf q fsets fms mp -> (0 < q + length mp)%nat -> (0 < N)%nat -> (0 < B)%nat -> (k < length fsets)%nat ->
  0 <= prodQ (s_probs (nth k fsets dfset)) ->
  all_feasible (q + length mp) (nth k fsets dfset) fms (executed_draws N B (q + length mp) stream) = true ->
  nth k (qeif q fsets fms mp best N B stream) 0 == nth k (qei q (map s_obj fsets) mp best N B (map Qopp stream)) 0.
Proof. exact (fun Hwf Hc _ _ => qeif_all_feasible_is_plain q fsets fms mp best N B stream k Hwf Hc). Qed.
Print Assumptions C05_qeif_all_feasible_is_plain.

(* ... in particular with no failure model at all (the real product model asserts at least one; the model does not need it) *)
Theorem C05_qeif_no_failure_models_is_plain q fsets mp best N B stream k :
  qeif_wf q fsets [] mp -> (0 < q + length mp)%nat -> (0 < N)%nat -> (0 < B)%nat -> (k < length fsets)%nat ->
  nth k (qeif q fsets [] mp best N B stream) 0 == nth k (qei q (map s_obj fsets) mp best N B (map Qopp stream)) 0.
Proof. exact (fun Hwf Hc _ _ => qeif_no_failure_models_is_plain q fsets mp best N B stream k Hwf Hc). Qed.
Print Assumptions C05_qeif_no_failure_models_is_plain.

(* a concrete non-trivial instance (hypotheses satisfiable): two candidate sets of two points, one pending point, one failure model
   with threshold 1/2, three requested draws executed as two blocks of two; the first block keeps its masked improvements, the
   second falls back to the weighted improvements (success probabilities 1/2 and 3/4) *)
Example C05_qeif_example :
  let e1 : fset := (([1; 0], [[1; 0; 0]; [1#2; 1; 0]; [0; 1#2; 1]]), [([0; 1], [[1; 0; 0]; [0; 1; 0]; [0; 0; 1]])], [1#2]) in
  let e2 : fset := (([-1; 2], [[2; 0; 0]; [0; 0; 0]; [1; -1; 1#2]]), [([1; -1], [[1#2; 0; 0]; [1; 1; 0]; [0; 0; 2]])], [3#4]) in
  let fms : list fmod := [([1#2], 1#2)] in
  let stream := [1; 0; -1;   -1; 1; 0;   1; 2; 1;   0; 0; 1;   7; 7; 7] in
  map Qred (qeif 2 [e1; e2] fms [1#2] (1#4) 3 2 stream) = [9 # 32; 9 # 32]
  /\ map (block_falls_back 3 [e1; e2] fms [1#2] (1#4)) (executed_blocks 3 2 3 stream) = [false; true]
  /\ map Qred (qei 2 [s_obj e1; s_obj e2] [1#2] (1#4) 3 2 (map Qopp stream)) = [5 # 16; 19 # 16]
  /\ qeif_wf 2 [e1; e2] fms [1#2].
Proof.
  intros e1 e2 fms stream. split; [vm_compute; reflexivity|]. split; [vm_compute; reflexivity|]. split; [vm_compute; reflexivity|].
  split.
  - intros s [<-|[<-|[]]]; (repeat split; try reflexivity; intros f [<-|[]]; reflexivity).
  - intros fm [<-|[]]. reflexivity.
Qed.
