(* C05, "Monte-Carlo parallel improvement ... with pending points and failure models agrees with the exact value within Monte-Carlo error":
   REFUTED for the faithful model Model/ParallelEIF.v (and replayed on the real class on every run: tools/props/C05.py,
   qeif_fallback_instance; KNOWN_FINDINGS.json).  In a pass in which no sample improves at a feasible point the estimator falls back to
   (success probability of the candidate) * max(0, best - min over ALL points of the sample) - the pending points included, whether or not
   they are feasible.  Witness: one candidate that is always feasible and never improves, one pending point that always improves and is
   never feasible: the improvement over the feasible points is 0 at EVERY executed draw, yet the estimate is positive (7/2). *)
From Coq Require Import List QArith.
From LV Require Import Model.ParallelEI Model.ParallelEIF.
Import ListNotations.
Open Scope Q_scope.

Theorem C05_qeif_fallback_counts_infeasible_pending_refuted :
  exists q (s : fset) (fms : list fmod) (mp : vec) best N B stream,
    Forall (fun z => masked_improvement (q + length mp) s fms mp best z == 0) (executed_draws N B (q + length mp) stream) /\
    length (executed_draws N B (q + length mp) stream) = 2%nat /\
    0 < nth 0 (qeif q [s] fms mp best N B stream) 0.
Proof.
  exists 1%nat, (([10], [[1; 0]; [0; 1]]), [([-(8)], [[1; 0]; [0; 1]])], [1]), [([8], 0)], [-(5)], 0, 2%nat, 2%nat, [1; 1; -(1); 2].
  (* only the list of draws is evaluated: vm_compute on the whole clause would normalise the predicate under its binder *)
  assert (E : executed_draws 2 2 (1 + length [-(5)]) [1; 1; -(1); 2] = [[1; 1]; [-(1); 2]]) by (vm_compute; reflexivity).
  rewrite E. split; [|split].
  - repeat constructor.
  - reflexivity.
  - vm_compute. reflexivity.
Qed.
Print Assumptions C05_qeif_fallback_counts_infeasible_pending_refuted.
