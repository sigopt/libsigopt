(* C06 -- The EI endpoint reports the improvement of the documented model of the request.
   Statements, each closed by `exact` of a lemma of Proofs/ and followed by Print Assumptions; the examples are concrete instances.  Model: LV.Model.Wiring
   (wire = GpEiCategoricalView(params).view() up to the numeric model: the description of every Gaussian process, of the
   failure models, of the acquisition function chosen, of the encoded query points and of the cost division; None = the
   endpoint raises), composed from Model.Midpoint (C12), Model.Decode (C09), Model.Filters / Model.Pareto / Model.Phases
   (C13, C14) and Model.Lies (C15).  The posterior and the improvement formulas applied to a description are C02 and C05;
   the equality of the response with an independent end-to-end pipeline is decided numerically by the searcher. *)
From Coq Require Import List Qabs.
From LV Require Model.Lies.
From LV Require Import Model.Domain Model.Decode Model.Midpoint Model.Pareto Model.Phases Model.Filters Model.Wiring.
From LV Require Proofs.Midpoint.
From LV Require Import Proofs.Wiring.
Import ListNotations.
Open Scope Q_scope.

(* column_selection + hyper_selection.  Every Gaussian process the endpoint builds (for the improvement or for a failure
   model) is built from ONE metric m that is optimised or constrained - never a stored one - and everything
   metric-specific about its kernel comes from hyperparameters[m]: vector [alpha] ++ one-hot length scales ++ [task length],
   of length 1 + one-hot dimension (+ 1 with tasks), all positive; nugget; kernel class; and the request's mean polynomial. *)
Theorem C06_column_and_hyper_selection r d g : wire r = Some d -> In g (all_gps d) ->
  In (g_metric g) (q_opt_ix r ++ q_con_ix r) /\
  exists h ls, nth_error (q_hypers r) (g_metric g) = Some h /\
    sequence (ls_to_one_hot (comps (q_dom r)) (hp_ls h)) = Some ls /\
    g_hyp g = hp_alpha h :: ls ++ match hp_task h with None => [] | Some t => [t] end /\
    length (g_hyp g) = S (dim_with_task r) /\ Forall (fun x => 0 < x) (g_hyp g) /\
    g_tik g = hp_tik h /\ g_kernel g = (if has_tasks r then KC4xSE else KC4) /\
    poly_indices (q_mean r) (q_poly r) (dim_with_task r) = Some (g_mean g).
Proof. exact (selection_law r d g). Qed.
Print Assumptions C06_column_and_hyper_selection.

(* Which optimised metric feeds the improvement: the first one without Pareto optimisation, the phase's optimising metric
   otherwise, all of them in order (with the drawn weights) in the convex-combination phase; in the epsilon-constraint
   phase the rows kept are exactly those the (C13/C14) labelling does not mark. *)
Theorem C06_main_metric r d : wire r = Some d ->
  match q_info r with
  | Convex w0 w1 => a_weights d = [w0; w1] /\ length (a_gps d) = length (q_opt_ix r) /\
                    forall i, (i < length (q_opt_ix r))%nat -> g_metric (nth i (a_gps d) dgp) = nth i (q_opt_ix r) O
  | EpsC om cm eps =>
      a_weights d = [] /\ exists g o pts pend, a_gps d = [g] /\ g_metric g = nth om (q_opt_ix r) O /\
        opt_of r = Some o /\ encode_rows (q_dom r) (has_tasks r) (q_points r) (q_costs r) = Some pts /\
        encode_rows (q_dom r) (has_tasks r) (q_pending r) (q_pending_costs r) = Some pend /\
        g_pts g = lied r (Pareto.select (map negb (pf_labelling eps om cm (v_values o) (q_fails r))) pts) pend
  | i => a_weights d = [] /\ exists g, a_gps d = [g] /\ g_metric g = nth (opt_metric i) (q_opt_ix r) O
  end.
Proof. exact (main_metric_law r d). Qed.
Print Assumptions C06_main_metric.

(* sign_and_scale + lies_for_failures_and_pending.  For every Gaussian process g on metric m, with i = C12's scaling object of
   raw column m (same failures, that metric's objective) and l its constant-liar-min lie: g's data is a list of
   (one-hot observation k, value) pairs where the value is the scaled lie when observation k failed and the scaled raw entry
   values[k][m] otherwise, followed - under constant liar only - by every one-hot pending point with the scaled lie; no
   value exceeds the scaled lie. *)
Theorem C06_values_and_lies r d g : wire r = Some d -> In g (all_gps d) ->
  let m := g_metric g in
  exists pts pend i l,
    encode_rows (q_dom r) (has_tasks r) (q_points r) (q_costs r) = Some pts /\
    encode_rows (q_dom r) (has_tasks r) (q_pending r) (q_pending_costs r) = Some pend /\
    smmi (column m (q_values r)) (q_fails r) (nth m (q_objs r) NoObjective) = Some i /\
    lie_value i LieMin = Some l /\
    exists dp dv, length dp = length dv /\
      g_pts g = (if is_cl r then dp ++ pend else dp) /\
      g_vals g = (if is_cl r then dv ++ repeat (rel_value i l) (length pend) else dv) /\
      Forall (row_pair r pts m i l) (combine dp dv) /\
      Forall (fun y => y <= rel_value i l) (g_vals g).
Proof. exact (values_law r d g). Qed.
Print Assumptions C06_values_and_lies.

(* ... and that scaling object obeys C12's order law: better for the user <-> strictly smaller for the model. *)
Theorem C06_sign_and_scale r d g : wire r = Some d -> In g (all_gps d) ->
  let m := g_metric g in
  exists i, smmi (column m (q_values r)) (q_fails r) (nth m (q_objs r) NoObjective) = Some i /\
    forall a b, Proofs.Midpoint.better (nth m (q_objs r) NoObjective) a b <-> rel_value i a < rel_value i b.
Proof. exact (sign_and_scale_law r d g). Qed.
Print Assumptions C06_sign_and_scale.

(* Failure models: constraint metric k (raw column con_ix[k]) gets a CDF model on that column's own Gaussian process with the
   user's threshold of THAT metric scaled by THAT metric's map; the epsilon-constraint phase adds logistic models on
   optimised metrics, one of them on the constrained metric with the epsilon threshold computed on all rows. *)
Theorem C06_failure_models r d : wire r = Some d ->
  exists pf1 pf2, a_pfs d = pf1 ++ pf2 /\
    Forall (fun p => p_kind p = PfLogistic /\ In (g_metric (p_gp p)) (q_opt_ix r)) pf1 /\
    match q_info r with
    | EpsC om cm eps => exists p o, In p pf1 /\ opt_of r = Some o /\ g_metric (p_gp p) = nth cm (q_opt_ix r) O /\
                                    p_thr p = eps_threshold_view eps cm (v_values o) (v_thresholds o)
    | _ => pf1 = []
    end /\
    length pf2 = length (q_con_ix r) /\
    forall k, (k < length (q_con_ix r))%nat ->
      let p := nth k pf2 dpf in let m := nth k (q_con_ix r) O in
      p_kind p = PfCdf /\ g_metric (p_gp p) = m /\
      exists i t, smmi (column m (q_values r)) (q_fails r) (nth m (q_objs r) NoObjective) = Some i /\
                  nth m (q_thr r) None = Some t /\ p_thr p = rel_value i t.
Proof. exact (failure_models_law r d). Qed.
Print Assumptions C06_failure_models.

(* af_choice.  Parallel form <-> qEI parallelism with at least one pending point (then the pending set is the encoded pending
   points and the batch is capped at 100); failure form <-> a constraint metric or the epsilon-constraint phase; otherwise
   augmented EI exactly when the mean noise variance of the predictor's data exceeds 1e-7, else plain EI; the incumbent
   of the plain and parallel forms is the smallest (weighted) value of the predictor's data. *)
Theorem C06_af_choice r d : wire r = Some d ->
  exists pend, encode_rows (q_dom r) (has_tasks r) (q_pending r) (q_pending_costs r) = Some pend /\
  let par := use_qei r pend in
  let fm := negb (Nat.eqb (length (a_pfs d)) 0) in
  let noise := pred_noise (a_gps d) (a_weights d) in
  (par = true <-> q_par r = QEI /\ q_pending r <> []) /\
  (fm = false <-> q_con_ix r = [] /\ forall om cm eps, q_info r <> EpsC om cm eps) /\
  (a_kind d = AfQEI <-> par = true /\ fm = false) /\ (a_kind d = AfQEIF <-> par = true /\ fm = true) /\
  (a_kind d = AfEIF <-> par = false /\ fm = true) /\
  (a_kind d = AfAEI <-> par = false /\ fm = false /\ AEI_THRESHOLD < mean_q noise) /\
  (a_kind d = AfEI <-> par = false /\ fm = false /\ mean_q noise <= AEI_THRESHOLD) /\
  a_pending d = (if par then pend else []) /\
  a_batch d = (if par then Z.min (q_max_af r) MAX_QEI_POINTS else q_max_af r) /\
  a_best d = match a_kind d with AfEI | AfQEI => min_q (pred_vals (a_gps d) (a_weights d)) | _ => None end.
Proof. exact (af_choice_law r d). Qed.
Print Assumptions C06_af_choice.

(* encoding_faithful.  One encoded query point per raw query point: C09's one-hot encoding of that point with its task cost
   appended when there are tasks; every categorical value is one of the parameter's categories; and (C09) for an admissible
   point of a well-formed domain the one-hot part decodes back to the raw point. *)
Theorem C06_encoding_faithful r d : wire r = Some d ->
  length (a_eval d) = length (q_eval r) /\ a_cost d = has_tasks r /\
  forall k, (k < length (q_eval r))%nat ->
    let p := nth k (q_eval r) [] in
    let c := if has_tasks r then Some (nth k (q_eval_costs r) 0) else None in
    nth k (a_eval d) [] = encode_with_task (q_dom r) p c /\
    encode_ok (comps (q_dom r)) p = true /\
    (has_tasks r = true -> last (nth k (a_eval d) []) 1 = nth k (q_eval_costs r) 0) /\
    (wf_domain (q_dom r) = true -> Admissible (q_dom r) p ->
       exists q, decode_det (q_dom r) (firstn (one_hot_dim (comps (q_dom r))) (nth k (a_eval d) [])) = Some q /\ peq q p).
Proof. exact (encoding_law r d). Qed.
Print Assumptions C06_encoding_faithful.

(* cost_division.  Without task options the response is the acquisition value; with task options entry k is the
   acquisition value divided by the task cost of query point k. *)
Theorem C06_cost_division r d af : wire r = Some d -> length af = length (q_eval r) ->
  (has_tasks r = false -> finalize d af = af) /\
  (has_tasks r = true -> length (finalize d af) = length af /\
     forall k, (k < length af)%nat -> nth k (finalize d af) 0 = nth k af 0 / nth k (q_eval_costs r) 0).
Proof. exact (cost_division_law r d af). Qed.
Print Assumptions C06_cost_division.

(* non-vacuity: two parameters (a double and a categorical with non-contiguous labels), three observations (one failed), a
   maximised optimised metric in raw column 2, a minimised constraint metric in column 0 with threshold 4, a stored metric
   in column 1, one pending point under constant liar, two tasks.  The reference answers: EI with failures, divided by cost;
   the optimised GP reads column 2 with hyperparameters[2]; the failed row and the pending point hold the scaled lie 0.1. *)
Definition ex_request : request :=
  mkreq {| comps := [Double 0 4; Cat [5; 2]%Z]; cons := [] |}
        [[1; 5]; [2; 2]; [3; 5]] [[1; 9; 2]; [3; 9; 6]; [5; 9; 4]] [[0; 0; 0]; [0; 0; 0]; [0; 0; 0]] [false; false; true]
        [1; (1#2); 1] [Minimize; Maximize; Maximize] [2%nat] [0%nat] [Some 4; None; None] false
        [mkhyper 1 [[Some 2]; [Some 1; Some 1]] (Some 1) None; mkhyper 7 [[Some 7]; [Some 7; Some 7]] (Some 7) None;
         mkhyper 3 [[Some (1#2)]; [None; None]] (Some (3#4)) (Some (1#100))]
        [[4; 2]] [(1#2)] [[(1#2); 2]] [(1#2)] ConstantLiar [(1#2); 1] MeanConstant None 5432 NotMM.
Example C06_example :
  exists d, wire ex_request = Some d /\ a_kind d = AfEIF /\ a_cost d = true /\
    map g_metric (all_gps d) = [2%nat; 0%nat] /\
    map g_hyp (a_gps d) = [[3; (1#2); 1; 1; (3#4)]] /\ map g_tik (a_gps d) = [Some (1#100)] /\
    map g_pts (a_gps d) = [[[1; 1; 0; 1]; [2; 0; 1; (1#2)]; [3; 1; 0; 1]; [4; 0; 1; (1#2)]]] /\
    Forall2 (Forall2 Qeq) (map g_vals (a_gps d)) [[(1#10); -(1#10); (1#10); (1#10)]] /\
    a_eval d = [[(1#2); 0; 1; (1#2)]] /\
    Forall2 Qeq (finalize d [(1#4)]) [(1#2)].
Proof.
  eexists. split; [vm_compute; reflexivity|].
  (* d is now the normal form of the description; one evaluation turns every remaining clause into an identity *)
  vm_compute. repeat split; repeat constructor.
Qed.
