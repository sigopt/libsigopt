(* C07 — acquisition optimizers stay in the domain and return the best point they saw.
   Statements, each closed by `exact` of a lemma of Proofs/ and followed by Print Assumptions; the examples are concrete instances.  Models: LV.Model.Optim, LV.Model.Multistart.
   af is any deterministic acquisition function, possibly undefined at some points (af p = None: the value there is NaN -
   the code's numpy.nanargmax anticipates exactly that); "highest value" ranges over the points that have a value.
   restrict is the k-th call of the domain's restriction (it may draw),
   gen the quasi-random generator, dom the (possibly constrained, possibly partially fixed) domain; the only contract
   used is  forall k b, Forall dom (restrict k b)  and  length (restrict k b) = length b. *)
From Coq Require Import List Qabs.
From LV Require Import Model.Optim Model.Multistart Proofs.Optim Proofs.OptimAdam Proofs.Multistart.
Import ListNotations.
Open Scope Q_scope.

(* Differential evolution, any parameters / starts / draws: every evaluated batch is in the domain; the returned point
   is the first evaluated point of maximal value among those that have one (first_max: af p = Some v, every defined value
   before it is smaller, every defined value after it is not larger) and best_value is af of it - a value, never NaN; it is
   >= the value at every restricted start that has a value; the reported results are the final population, in the domain,
   with re-evaluable values (NaN where af is undefined). *)
Theorem C07_de_optimize af restrict gen dom :
  (forall k b, Forall dom (restrict k b)) -> (forall k b, length (restrict k b) = length b) ->
  forall P maxiter selected ds o,
  de_optimize af restrict gen P maxiter selected ds = Ok o ->
  let s := o_state o in
  Forall (Forall dom) (evals s) /\
  (exists p v, best s = Some (p, v) /\ first_max af (concat (evals s)) p v /\
     (forall q w, In q (restrict 0%nat (starting_points gen (de_n P) selected)) -> af q = Some w -> w <= v)) /\
  o_start o = starting_points gen (de_n P) selected /\ o_vals o = map af (o_end o) /\ Forall dom (o_end o) /\
  exists pre, evals s = pre ++ [o_end o].
Proof. exact (de_optimize_ok af restrict gen dom). Qed.
Print Assumptions C07_de_optimize.

(* The same for Adam, whatever the update vectors are (so for every learning rate, betas, epsilon and gradient). *)
Theorem C07_adam_optimize af restrict gen dom :
  (forall k b, Forall dom (restrict k b)) -> (forall k b, length (restrict k b) = length b) ->
  forall n maxiter selected ups o,
  adam_optimize af restrict gen n maxiter selected ups = Ok o ->
  let s := o_state o in
  Forall (Forall dom) (evals s) /\
  (exists p v, best s = Some (p, v) /\ first_max af (concat (evals s)) p v /\
     (forall q w, In q (restrict 0%nat (starting_points gen n selected)) -> af q = Some w -> w <= v)) /\
  o_start o = starting_points gen n selected /\ o_vals o = map af (o_end o) /\ Forall dom (o_end o) /\
  exists pre, evals s = pre ++ [o_end o].
Proof. exact (fun H1 _ => adam_optimize_ok af restrict gen dom H1). Qed.
Print Assumptions C07_adam_optimize.

(* After any number of generations the next one keeps the population in the domain and replaces a member only by a
   point that HAS a value, which is >= the member's if the member has one (it equals the best value seen so far): a trial
   where af is undefined never enters the population. *)
Theorem C07_de_no_worse_replacement af restrict gen dom :
  (forall k b, Forall dom (restrict k b)) -> (forall k b, length (restrict k b) = length b) ->
  forall P selected ds1 d s1 s pop s' pop',
  let start := do_restrict restrict init (starting_points gen (de_n P) selected) in
  monitor af (fst start) (snd start) = Ok s1 ->
  de_loop af restrict P ds1 (s1, snd start) = Ok (s, pop) ->
  de_step af restrict P (s, pop) d = Ok (s', pop') ->
  Forall dom pop /\ Forall dom pop' /\ length pop = de_n P /\
  exists bv, option_map snd (best s') = Some bv /\
    Forall2 (fun old new => new = old \/
               exists w, af new = Some w /\ w == bv /\ forall u, af old = Some u -> u <= w) pop pop'.
Proof. exact (de_no_worse_replacement af restrict gen dom). Qed.
Print Assumptions C07_de_no_worse_replacement.

(* The bookkeeping step (evaluate_and_monitor) raises exactly when the batch holds no value at all - it is empty or af is
   undefined at every one of its points (numpy.nanargmax: "All-NaN slice") - and then it raises ValueError; a batch with a
   single defined value is monitored, whatever else it contains.  So the Ok hypotheses of the theorems above exclude, besides
   the documented DE preconditions, only runs in which some evaluated batch is undefined throughout. *)
Theorem C07_monitor_raises_only_without_a_value af s pts :
  (forall e, monitor af s pts = Err e -> e = ValueError /\ forall q, In q pts -> af q = None) /\
  (forall q w, pts <> [] -> In q pts -> af q = Some w -> exists s', monitor af s pts = Ok s').
Proof. exact (conj (monitor_err af s pts) (fun q w _ => monitor_defined af s pts q w)). Qed.
Print Assumptions C07_monitor_raises_only_without_a_value.

(* Fixed coordinates are re-imposed after every (box) restriction; the free coordinates are those of the clipped point. *)
Theorem C07_fixed_indices_reimposed lb ub fixed b q k v d :
  In q (restrict_box lb ub fixed b) -> lookup k fixed = Some v -> (k < length q)%nat -> nth k q d = v.
Proof. exact (restrict_box_fixed lb ub fixed b q k v d). Qed.
Print Assumptions C07_fixed_indices_reimposed.

(* PARTIAL (name says so): full clause = "restrict_box lands in box /\ fixed /\ constraints"; proved here: fixed values
   (above) and the scalar clip range; the constrained part is C08's theorem and enters C07 as the contract. *)
Theorem C07_restrict_box_in_range_partial lo hi x : lo <= hi -> lo <= clip lo hi x /\ clip lo hi x <= hi.
Proof. exact (clip_range lo hi x). Qed.
Print Assumptions C07_restrict_box_in_range_partial.

(* Adam: with s the square root of the unbiased second moment, the first step is lr * g / (|g| + eps) ... *)
Theorem C07_adam_first_step b1 b2 lr eps g s :
  ~ b1 == 1 -> 0 <= s -> s * s == a_vhat (adam_coord b1 b2 lr eps 1 0 0 g s) -> ~ b2 == 1 -> 0 < Qabs g + eps ->
  a_upd (adam_coord b1 b2 lr eps 1 0 0 g s) == adam_first lr eps g.
Proof. exact (fun H1 Hs Hv H2 _ => adam_first_step b1 b2 lr eps g s H1 Hs Hv H2). Qed.
Print Assumptions C07_adam_first_step.

(* ... which has the sign of the gradient (strictly, unless the gradient is zero), so the first update vector has a
   non-negative inner product with the gradient ... *)
Theorem C07_adam_first_step_ascent lr eps :
  (forall g, 0 <= lr -> 0 < Qabs g + eps -> 0 <= adam_first lr eps g * g) /\
  (forall g, 0 < lr -> 0 < Qabs g + eps -> ~ g == 0 -> 0 < adam_first lr eps g * g) /\
  (forall g, 0 <= lr -> 0 < eps -> 0 <= dot (map (adam_first lr eps) g) g).
Proof. exact (conj (adam_first_ascent lr eps) (conj (adam_first_ascent_strict lr eps) (adam_first_inner lr eps))). Qed.
Print Assumptions C07_adam_first_step_ascent.

(* ... and while the gradient of a coordinate keeps one sign, every update of that coordinate has that sign. *)
Theorem C07_adam_constant_sign_ascent b1 b2 lr eps gs ss :
  0 < b1 -> b1 < 1 -> 0 <= lr -> Forall (fun s => 0 < s + eps) ss ->
  (Forall (fun g => 0 <= g) gs -> Forall (fun o => 0 <= a_upd o) (adam_coord_run b1 b2 lr eps 1 0 0 gs ss)) /\
  (Forall (fun g => g <= 0) gs -> Forall (fun o => a_upd o <= 0) (adam_coord_run b1 b2 lr eps 1 0 0 gs ss)).
Proof. exact (adam_constant_sign_ascent b1 b2 lr eps gs ss). Qed.
Print Assumptions C07_adam_constant_sign_ascent.

(* Multistart (DESIGN `multistart_best_successful`): "the multistart SciPy wrappers return an in-domain point whose value
   is the best among their successful runs".  PROVED IN FULL for MultistartOptimizer.optimize (Model.Multistart), for every
   acceptability predicate, inner optimiser, generator, num_multistarts and selected starts: whenever the loop returns,
   the runs made are those of the first num_runs starts of all_starts (num_runs = len(selected_starts) if
   num_multistarts = 0, else num_multistarts; at least one), and with rows = what the code records for these runs
   (a failed / out-of-domain run has value NaN and success False; a run that raised keeps its start as end point)
   (a) starting_points, ending_points, function_values (and the success list) are these rows, in order;
   (b) if some run is recorded successful (so its end point is acceptable) with a real value, the result is the end
       point of the FIRST such run of maximal value (strictly larger than all earlier, >= all later ones), the best value
       is that value, and the result is acceptable;
   (c) otherwise the best value stays -inf and the result is the first start -- except when the first run itself is
       recorded successful with a NaN value: then the result is that run's (acceptable) end point.  In particular if no
       run is recorded successful the result is the first start.
   The exception in (c) is what the code does (see C07_multistart_first_start_fallback_refuted below). *)
Theorem C07_multistart_best_successful acc run gen nm selected st :
  ms_optimize acc run gen nm selected = Ok st ->
  exists p1 ran' rest,
    ms_all_starts gen nm selected = (p1 :: ran') ++ rest /\ length (p1 :: ran') = ms_num_runs nm selected /\
    let rows := ms_rows acc run 0 (p1 :: ran') in
    let row1 := ms_row_of acc run 0 p1 in
    ms_starts st = p1 :: ran' /\ ms_ends st = map r_end rows /\ ms_vals st = map r_val rows /\ ms_succ st = map r_succ rows /\
    ((exists r, In r rows /\ good_row r) ->
       exists e v, ms_best st = Some e /\ ms_bestv st = Some v /\ first_max_success rows e v /\ acc e = true) /\
    (no_good_row rows ->
       ms_bestv st = None /\
       ms_best st = Some (if r_succ row1 then r_end row1 else p1) /\
       (r_succ row1 = true -> acc (r_end row1) = true) /\
       ((forall r, In r rows -> r_succ r = false) -> ms_best st = Some p1)).
Proof. exact (ms_optimize_best_successful acc run gen nm selected st). Qed.
Print Assumptions C07_multistart_best_successful.

(* (b) and (c) are exhaustive: either some row counts or none does. *)
Theorem C07_multistart_cases_exhaustive (rows : list ms_row) : (exists r, In r rows /\ good_row r) \/ no_good_row rows.
Proof. exact (good_row_dec rows). Qed.
Print Assumptions C07_multistart_cases_exhaustive.

(* first_max_success is what it says: the value is >= the value of every row that counts. *)
Theorem C07_multistart_first_max_is_max rows e v :
  first_max_success rows e v -> forall r' w, In r' rows -> r_succ r' = true -> r_val r' = Some w -> w <= v.
Proof. exact (first_max_success_all_le rows e v). Qed.
Print Assumptions C07_multistart_first_max_is_max.

(* The fall-back clause read literally ("no successful in-domain run with a real value => the first start is returned")
   does not hold: one start [0], whose run reports success with x = [1] (acceptable) and fun = NaN, returns [1].
   Same on MultistartOptimizer in /repo (best_point [1.], function_values [nan]). *)
Theorem C07_multistart_first_start_fallback_refuted :
  exists acc run gen nm selected st p1,
    ms_optimize acc run gen nm selected = Ok st /\ ms_starts st = [p1] /\
    no_good_row (ms_rows acc run 0 [p1]) /\ ms_best st <> Some p1.
Proof. exact ms_first_start_fallback_refuted. Qed.
Print Assumptions C07_multistart_first_start_fallback_refuted.

(* Corollary: the result is an acceptable end point or one of the starting points. *)
Theorem C07_multistart_result_acceptable acc run gen nm selected st :
  ms_optimize acc run gen nm selected = Ok st ->
  exists p, ms_best st = Some p /\
    (acc p = true \/ In p (match selected with Some s => s | None => [] end) \/ exists k, In p (gen k)).
Proof. exact (ms_optimize_acceptable acc run gen nm selected st). Qed.
Print Assumptions C07_multistart_result_acceptable.

(* The loop returns (no RuntimeError) after exactly len(selected_starts) runs when num_multistarts = 0, resp. num_multistarts
   runs otherwise, whatever the runs' outcomes, as long as that many starts are available.  (Before the repair of the
   `continue` branch in /repo this was false for num_multistarts = 0 with a single failing start.) *)
Theorem C07_multistart_stops acc run nm nsel todo k st :
  (length (ms_vals st) < (if Nat.eqb nm 0 then nsel else nm))%nat ->
  ((if Nat.eqb nm 0 then nsel else nm) <= length (ms_vals st) + length todo)%nat ->
  exists st', ms_loop acc run nm nsel k todo st = Ok st' /\ length (ms_vals st') = (if Nat.eqb nm 0 then nsel else nm).
Proof. exact (ms_loop_stops acc run nm nsel todo k st). Qed.
Print Assumptions C07_multistart_stops.

(* non-vacuity: a 3-member best1bin generation on [0,4]^2 with a fixed second coordinate, af = -(x-3)^2, starts inside / outside
   the box, a tie for the best value (the first one is kept) and a replacement by an equally good trial *)
Example C07_example :
  let af := fun p : list Q => Some (Qred (- ((nth 0 p 0 - 3) * (nth 0 p 0 - 3)))) in
  let restrict := fun (_ : nat) b => restrict_box [0; 0] [4; 4] [(1%nat, 2)] b in
  match de_optimize af restrict (fun _ => []) (mkde 3 2 true (1#2) 1) 1 (Some [[0; 0]; [5; 1]; [2; 9]])
          [([(0, 1, 0); (1, 0, 0); (0, 1, 1)]%nat, [[0; 0]; [0; 0]; [0; 0]])] with
  | Ok o => best (o_state o) = Some ([4; 2], -1) /\ evals (o_state o) = [[[0; 2]; [4; 2]; [2; 2]]; [[4; 2]; [4; 2]; [2; 2]]; [[4; 2]; [4; 2]; [2; 2]]]
            /\ o_end o = [[4; 2]; [4; 2]; [2; 2]]
  | Err _ => False
  end.
Proof. vm_compute. repeat split. Qed.

(* non-vacuity with undefined values: the same run with af undefined where x0 > 3.  The start [5;1] is clipped to [4;2], where
   af is undefined (it would have been the maximiser): it is evaluated, never becomes the incumbent and keeps its place in the
   population; the best is [2;2] with value -1; the trials of members 0 and 1 land on [4;2] (undefined) and do NOT replace
   [0;2] resp. [4;2], the trial [0;2] of member 2 is worse than the best; the reported values carry None at the undefined member. *)
Example C07_example_undefined :
  let af := fun p : list Q => if Qltb 3 (nth 0 p 0) then None else Some (Qred (- ((nth 0 p 0 - 3) * (nth 0 p 0 - 3)))) in
  let restrict := fun (_ : nat) b => restrict_box [0; 0] [4; 4] [(1%nat, 2)] b in
  match de_optimize af restrict (fun _ => []) (mkde 3 2 true 2 1) 1 (Some [[0; 0]; [5; 1]; [2; 9]])
          [([(0, 1, 0); (1, 0, 0); (0, 1, 1)]%nat, [[0; 0]; [0; 0]; [0; 0]])] with
  | Ok o => best (o_state o) = Some ([2; 2], -1) /\
            evals (o_state o) = [[[0; 2]; [4; 2]; [2; 2]]; [[4; 2]; [4; 2]; [0; 2]]; [[0; 2]; [4; 2]; [2; 2]]]
            /\ o_end o = [[0; 2]; [4; 2]; [2; 2]] /\ o_vals o = [Some (-9); None; Some (-1)]
  | Err _ => False
  end.
Proof. vm_compute. repeat split. Qed.

(* non-vacuity of the multistart theorem: 5 runs on [0,4] from the starts [0], [1] and three generated [2]; the second run
   raises (start kept as end point, NaN), the fourth ends outside the domain (NaN, its value 100 is ignored), the third and
   the fifth tie for the best value 5: the third (first) is kept *)
Example C07_multistart_example :
  exists st, ms_optimize ms_example_acc ms_example_run (fun k => repeat [2] k) 5 (Some [[0]; [1]]) = Ok st /\
    ms_best st = Some [3] /\ ms_bestv st = Some 5 /\
    ms_starts st = [[0]; [1]; [2]; [2]; [2]] /\ ms_ends st = [[1]; [1]; [3]; [9]; [2]] /\
    ms_vals st = [Some 3; None; Some 5; None; Some 5] /\ ms_succ st = [true; false; true; false; true] /\
    first_max_success (ms_rows ms_example_acc ms_example_run 0 (ms_starts st)) [3] 5.
Proof. exact ms_example_run_result. Qed.
