(* C07, clause "a single constrained SLSQP run started inside the domain ends inside it": what the library contributes is the
   inequality it hands to SciPy (domain.py form_constraint_fun_and_jac / get_constraints_for_scipy, model LV.Model.ScipyCons).
   Statements, each closed by `exact` of a lemma of Proofs/ and followed by Print Assumptions; the examples are concrete instances.  SLSQP itself is a contract: it returns a point at
   which every inequality function is >= -delta (delta its absolute feasibility error, 0 in exact arithmetic). *)
From Coq Require Import List Qabs.
From LV Require Import Model.Restrict Model.ScipyCons Proofs.ScipyCons.
Import ListNotations.
Open Scope Q_scope.

(* the right-hand side given to SciPy is the user's, moved inwards by MARGIN * |rhs| (never outwards, whatever its sign) *)
Theorem C07_scipy_rhs_is_tightened r : scipy_rhs r == r + safety_margin * Qabs r /\ r <= scipy_rhs r /\ (~ r == 0 -> r < scipy_rhs r).
Proof. exact (conj (scipy_rhs_abs r) (conj (scipy_rhs_tightens r) (scipy_rhs_strict r))). Qed.
Print Assumptions C07_scipy_rhs_is_tightened.

(* a point that satisfies SciPy's inequalities up to delta satisfies every user constraint with slack MARGIN*|rhs| - delta: an
   SLSQP feasibility error not larger than a constraint's margin is absorbed, and with delta = 0 the point is inside *)
Theorem C07_scipy_feasible_is_inside d x delta :
  scipy_feasible_b delta d x = true ->
  Forall (fun c => snd c + (safety_margin * Qabs (snd c) - delta) <= dot (fst c) x) (cstrs d) /\
  Forall (fun c => delta <= safety_margin * Qabs (snd c) -> snd c <= dot (fst c) x) (cstrs d).
Proof. exact (scipy_feasible_inside d x delta). Qed.
Print Assumptions C07_scipy_feasible_is_inside.

(* the Jacobian handed to SciPy is the gradient of the inequality function (which is affine) *)
Theorem C07_scipy_jac_is_gradient w r x h : length x = length h ->
  scipy_fun w r (map2 Qplus x h) - scipy_fun w r x == dot (scipy_jac w x) h.
Proof. exact (scipy_jac_is_gradient w r x h). Qed.
Print Assumptions C07_scipy_jac_is_gradient.

(* non-vacuity: a negative right-hand side (the case a sign slip loosens) and a point on SciPy's boundary *)
Example C07_scipy_example :
  let d := Dom [(0, 4); (0, 4)] [([1; -(1)], -(2))] in
  scipy_feasible_b 0 d [1; 2999999980 # 1000000000] = true /\ scipy_rhs (-(2)) == -(2) + (2 # 100000000).
Proof. vm_compute. split; reflexivity. Qed.
