(* C08 — restriction and sampling never leave the constrained region.
   Statements, each closed by `exact` of a lemma of Proofs/ and followed by Print Assumptions; the examples are concrete instances.
   Models: LV.Model.Restrict (domain.py, geometry_utils.py), LV.Model.Samplers (samplers.py).
   A domain is its bounds plus constraints (weights, rhs) read as weights . x >= rhs; `feasible d x` is the region
   stated directly; `interior d c` says c has the right length and is strictly inside every halfspace row (what a
   Chebyshev centre with radius >= 1e-8 is, see C08_cheby_flag_gives_interior); draws are arbitrary values in [0,1]. *)
From Coq Require Import List QArith Permutation.
From LV Require Import Model.Restrict Model.Samplers Proofs.Restrict Proofs.Samplers Proofs.Cheby.
Import ListNotations.
Open Scope Q_scope.

(* Projection: for every box, constraint set, interior centre, optional viable point (any point at all), on_constraint
   flag, draws and input points, each output point lies in the box and satisfies every row with >= 2 non-zero weights. *)
Theorem C08_restrict_points_correct d c vp on us ps :
  interior d c -> Forall (fun p => length p = length (bounds d)) ps -> Forall unit_interval us ->
  let out := fst (restrict_points d c vp on us ps) in
  length out = length ps /\ Forall (in_box (bounds d)) out /\ Forall (sat_all (no_bound_rows (halfspaces d))) out.
Proof. exact (restrict_points_correct d c vp on us ps). Qed.
Print Assumptions C08_restrict_points_correct.

(* With the property's precondition (two or more non-zero weights per constraint) the output is in the region. *)
Theorem C08_restrict_in_domain d c vp on us ps :
  interior d c -> Forall (fun p => length p = length (bounds d)) ps -> Forall unit_interval us ->
  (forall h, In h (cons_rows d) -> (2 <= nnz (fst h))%nat) ->
  Forall (feasible d) (fst (restrict_points d c vp on us ps)).
Proof. exact (restrict_in_domain d c vp on us ps). Qed.
Print Assumptions C08_restrict_in_domain.

(* The viable point actually used (centre / supplied point / supplied point pushed 1% toward the centre) is strictly
   inside, whatever was supplied. *)
Theorem C08_viable_point_is_strict d c vp :
  is_constrained d = true -> interior d c -> interior d (select_viable d c vp).
Proof. exact (viable_point_is_strict d c vp). Qed.
Print Assumptions C08_viable_point_is_strict.

(* Feasible points (faces included, hence all strictly feasible ones) come back unchanged and use no random draw. *)
Theorem C08_restrict_fixes_feasible d c vp on us ps :
  interior d c -> Forall (feasible d) ps -> restrict_points d c vp on us ps = (ps, us).
Proof. exact (restrict_fixes_feasible d c vp on us ps). Qed.
Print Assumptions C08_restrict_fixes_feasible.

(* The library's halfspace rows describe exactly the region. *)
Theorem C08_halfspaces_sat_iff d x : length x = length (bounds d) -> (sat_all (halfspaces d) x <-> feasible d x).
Proof. exact (halfspaces_sat_iff d x). Qed.
Print Assumptions C08_halfspaces_sat_iff.

(* Perturbation around an acceptable point followed by restriction: one feasible point per normal row. *)
Theorem C08_near_point_in_domain d c pt on zs us out rest :
  interior d c -> Forall unit_interval us -> Forall (fun z => length z = length (bounds d)) zs ->
  (forall h, In h (cons_rows d) -> (2 <= nnz (fst h))%nat) ->
  near_point d c pt on zs us = Some (out, rest) -> length out = length zs /\ Forall (feasible d) out.
Proof. exact (near_point_in_domain d c pt on zs us out rest). Qed.
Print Assumptions C08_near_point_in_domain.

(* Fixed-coordinate wrapper: overwriting coordinates no constraint mentions by values inside their bounds keeps the region. *)
Theorem C08_fixed_wrappers_in_domain d fixed c vp on us ps :
  interior d c -> Forall (fun p => length p = length (bounds d)) ps -> Forall unit_interval us ->
  (forall h, In h (cons_rows d) -> (2 <= nnz (fst h))%nat) -> fixed_valid d fixed ->
  Forall (feasible d) (fixed_restrict d fixed c vp on us ps).
Proof. exact (fixed_wrappers_in_domain d fixed c vp on us ps). Qed.
Print Assumptions C08_fixed_wrappers_in_domain.

(* Unit-cube samplers (uniform, Sobol, Halton: any unit rows in [0,1]) mapped to the box stay in the box. *)
Theorem C08_cube_sampler_in_box bs rows : ordered_bounds bs ->
  Forall (fun u => length u = length bs /\ Forall unit_interval u) rows -> Forall (in_box bs) (cube_sampler bs rows).
Proof. exact (cube_sampler_in_box bs rows). Qed.
Print Assumptions C08_cube_sampler_in_box.

(* Latin hypercube: in dimension j the strata of the n points are exactly that dimension's own permutation of 0..n-1
   (one point per stratum); the permutations of different dimensions are independent arguments. *)
Theorem C08_lhs_one_per_stratum n dim U perms j : lhs_draws_ok n dim U -> (j < dim)%nat ->
  Permutation (seq 0 n) (nth j perms []) ->
  strata_of_dim n j (lhs_unit n dim U perms) = map Z.of_nat (nth j perms []) /\
  Permutation (map Z.of_nat (seq 0 n)) (strata_of_dim n j (lhs_unit n dim U perms)).
Proof. exact (lhs_one_per_stratum n dim U perms j). Qed.
Print Assumptions C08_lhs_one_per_stratum.

Theorem C08_lhs_points_in_box bs n U perms : ordered_bounds bs -> lhs_draws_ok n (length bs) U ->
  (forall j, (j < length bs)%nat -> Permutation (seq 0 n) (nth j perms [])) ->
  length (lhs_points bs n U perms) = n /\ Forall (in_box bs) (lhs_points bs n U perms).
Proof. exact (lhs_points_in_box bs n U perms). Qed.
Print Assumptions C08_lhs_points_in_box.

(* Rejection sampling returns only candidates that satisfy every row (and keep any property R of the candidates, e.g.
   being in the box); a reported success means exactly num points. *)
Theorem C08_rejection_outputs_feasible hs num bsz budget blocks (R : point -> Prop) :
  (forall blk p, In blk blocks -> In p blk -> R p) ->
  let r := rejection_sampling hs num bsz budget blocks in
  Forall (fun p => sat_all hs p /\ R p) (fst r) /\ (snd r = true -> length (fst r) = num).
Proof. exact (rejection_outputs_feasible hs num bsz budget blocks R). Qed.
Print Assumptions C08_rejection_outputs_feasible.

(* One hit-and-run move from a point of the polytope stays in the polytope, for every direction and u in [0,1]. *)
Theorem C08_hitandrun_step_inside hs x d u x' :
  sat_all hs x -> unit_interval u -> length x = length d -> hr_step hs x d u = Some x' -> sat_all hs x'.
Proof. exact (hitandrun_step_inside hs x d u x'). Qed.
Print Assumptions C08_hitandrun_step_inside.

(* The whole hit-and-run chain, and rejection sampling padded with it, return points of the polytope. *)
Theorem C08_hitandrun_inside hs dim num x0 draws out :
  hr_draws_ok dim draws -> length x0 = dim -> sat_all hs x0 -> hitandrun hs dim num x0 draws = Some out ->
  Forall (sat_all hs) out.
Proof. exact (hitandrun_inside hs dim num x0 draws out). Qed.
Print Assumptions C08_hitandrun_inside.

Theorem C08_rejection_with_padding_feasible hs dim num bsz budget blocks x0 draws out ok :
  hr_draws_ok dim draws -> length x0 = dim -> sat_all hs x0 ->
  rejection_with_padding hs dim num bsz budget blocks x0 draws = Some (out, ok) -> Forall (sat_all hs) out.
Proof. exact (rejection_with_padding_feasible hs dim num bsz budget blocks x0 draws out ok). Qed.
Print Assumptions C08_rejection_with_padding_feasible.

(* Grid points lie in the box. *)
Theorem C08_grid_in_box bs ppd : ordered_bounds bs -> (length ppd = length bs \/ length ppd = 1%nat) ->
  Forall (in_box bs) (grid_points ppd bs).
Proof. exact (grid_in_box bs ppd). Qed.
Print Assumptions C08_grid_in_box.

(* Chebyshev LP: (x, r) satisfies the LP constraints iff r >= 0 and the ball B(x, r) is inside the polytope
   (Cauchy-Schwarz over finite sums; norms supplied with n_i >= 0, n_i^2 = sum_j a_ij^2). *)
Theorem C08_cheby_lp_is_inscribed_ball dim hs norms x r : norms_ok dim hs norms -> length x = dim ->
  (lp_feasible hs norms x r <-> 0 <= r /\ forall y, in_ball x r y -> sat_all hs y).
Proof. exact (cheby_lp_is_inscribed_ball dim hs norms x r). Qed.
Print Assumptions C08_cheby_lp_is_inscribed_ball.

(* An LP optimum is feasible with its radius, and that radius is maximal among inscribed balls. *)
Theorem C08_cheby_optimum_is_maximal dim hs norms x r : norms_ok dim hs norms -> length x = dim ->
  lp_feasible hs norms x r -> (forall x' r', length x' = dim -> lp_feasible hs norms x' r' -> r' <= r) ->
  (forall y, in_ball x r y -> sat_all hs y) /\
  (forall x' r', length x' = dim -> 0 <= r' -> (forall y, in_ball x' r' y -> sat_all hs y) -> r' <= r).
Proof. exact (cheby_optimum_is_maximal dim hs norms x r). Qed.
Print Assumptions C08_cheby_optimum_is_maximal.

(* Reported feasible iff solver success, status other than 2, and radius >= 1e-8. *)
Theorem C08_cheby_flag success status radius :
  cheby_flag success status radius = true <-> success = true /\ status <> 2%Z /\ (1 # 100000000) <= radius.
Proof. exact (cheby_flag_spec success status radius). Qed.
Print Assumptions C08_cheby_flag.

Theorem C08_cheby_flag_gives_interior dim hs norms x r success status : norms_ok dim hs norms ->
  (forall h n, In (h, n) (combine hs norms) -> 0 < n) ->
  lp_feasible hs norms x r -> cheby_flag success status r = true -> strict_all hs x.
Proof. exact (cheby_flag_gives_interior dim hs norms x r success status). Qed.
Print Assumptions C08_cheby_flag_gives_interior.

(* non-vacuity: the triangle  x + y <= 3  in [0,2]^2  (constraint -x - y >= -3), centre (1/2, 1/2); an outside point is
   pulled onto the face (on_constraint), a feasible one is kept; Latin hypercube strata with two different permutations *)
Example C08_example :
  let d := Dom [(0, 2); (0, 2)] [([-(1); -(1)], -(3))] in
  let c := [1 # 2; 1 # 2] in
  sat_all_b (halfspaces d) c = true /\
  Forall2 (Forall2 Qeq) (fst (restrict_points d c None true [] [[5; 5]; [1; 2]; [2; 2]])) [[3 # 2; 3 # 2]; [1; 2]; [3 # 2; 3 # 2]] /\
  strata_of_dim 3 0 (lhs_unit 3 2 [[1 # 4; 0]; [0; 1 # 8]; [1 # 8; 1 # 4]] [[2; 0; 1]; [1; 2; 0]]%nat) = [2; 0; 1]%Z /\
  strata_of_dim 3 1 (lhs_unit 3 2 [[1 # 4; 0]; [0; 1 # 8]; [1 # 8; 1 # 4]] [[2; 0; 1]; [1; 2; 0]]%nat) = [1; 2; 0]%Z.
Proof. vm_compute. repeat split; repeat constructor; try reflexivity; try discriminate. Qed.
