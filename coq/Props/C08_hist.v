(* C08 over HISTORIES on one live ContinuousDomain object: restriction, perturbation, acceptability, the unconstrained-index list,
   the fixed-coordinate wrapper's admission test and the constrained sampling entry point all work with the constraint set that
   the latest set_constraint_list handed over - whether the caller passed a new list or the list object it had passed before and
   edited in place since.  Statements, each closed by `exact` of a lemma of Proofs/ and followed by Print Assumptions; the examples are concrete instances.
   Model: LV.Model.DomainHist (entry points written over the STORED fields _halfspaces / _one_hot_unconstrained_indices /
   _cheby_center / force_hitandrun_sampling; the pure functions of LV.Model.Restrict are what a freshly built domain computes). *)
From Coq Require Import List QArith.
From LV Require Import Model.Restrict Model.Samplers Model.DomainHist Proofs.Restrict Proofs.Samplers Proofs.DomainHist.
Import ListNotations.
Open Scope Q_scope.

(* Whatever happened to the object, the stored half-spaces and unconstrained indices are those of the constraint list it holds. *)
Theorem C08_history_stored_fields_are_current bs ops :
  let s := drun (dfresh bs) ops in
  s_bounds s = bs /\ s_cons s = latest_cons [] ops /\
  s_hs s = stored_hs bs (latest_cons [] ops) /\ s_uncon s = stored_uncon bs (latest_cons [] ops).
Proof. exact (history_stored_fields bs ops). Qed.
Print Assumptions C08_history_stored_fields_are_current.

(* A query (restrict / perturb / acceptable / unconstrained indices / fixed-wrapper admission) leaves the object as it was. *)
Theorem C08_history_query_reads_only s o : is_query o = true -> fst (dstep s o) = s.
Proof. exact (query_reads_only s o). Qed.
Print Assumptions C08_history_query_reads_only.

(* After ANY history - constraint sets replaced (by new lists or by the same list edited in place), cleared, the hit-and-run flag
   switched, samples drawn, any queries in between - a query answers exactly what a freshly built domain answers whose
   constraint list is the one handed over LAST. *)
Theorem C08_history_query_is_fresh bs pre o post : is_query o = true ->
  let s := drun (dfresh bs) pre in
  nth (length pre) (dtrace (dfresh bs) (pre ++ o :: post)) ONone = fresh_out (Dom bs (latest_cons [] pre)) (s_centre s) o.
Proof. exact (history_query_is_fresh bs pre o post). Qed.
Print Assumptions C08_history_query_is_fresh.

(* The list of unconstrained indices the domain keeps is exactly: the coordinates to which EVERY constraint gives weight zero
   (however small a non-zero weight is, its coordinate is constrained). *)
Theorem C08_unconstrained_indices_spec bs cs j :
  In j (stored_uncon bs cs) <-> (j < length bs)%nat /\ forall c, In c cs -> nth j (fst c) 0 == 0.
Proof. exact (uncon_indices_spec bs cs j). Qed.
Print Assumptions C08_unconstrained_indices_spec.

(* Region clauses at any moment of a history (state reached from a fresh object: `coherent`), for the constraints set last. *)
Theorem C08_history_restrict_in_domain s vp on us ps : coherent s -> s_constrained s = true ->
  interior (dom_of s) (s_centre s) -> Forall (fun p => length p = s_dim s) ps -> Forall unit_interval us ->
  (forall h, In h (cons_rows (dom_of s)) -> (2 <= nnz (fst h))%nat) ->
  exists m used, snd (dstep s (DRestrict vp on us ps)) = OPts m used /\ length m = length ps /\ Forall (feasible (dom_of s)) m.
Proof. exact (fun H _ => history_restrict_feasible s vp on us ps H). Qed.
Print Assumptions C08_history_restrict_in_domain.

Theorem C08_history_near_point_in_domain s pt on zs us m : coherent s -> s_constrained s = true ->
  interior (dom_of s) (s_centre s) -> Forall (fun z => length z = s_dim s) zs -> Forall unit_interval us ->
  (forall h, In h (cons_rows (dom_of s)) -> (2 <= nnz (fst h))%nat) ->
  snd (dstep s (DNear pt on zs us)) = ONear (Some m) -> length m = length zs /\ Forall (feasible (dom_of s)) m.
Proof. exact (fun H _ => history_near_feasible s pt on zs us m H). Qed.
Print Assumptions C08_history_near_point_in_domain.

(* A fixed-coordinate wrapper is accepted only for coordinates no constraint of the current set mentions (with values inside
   their bounds): C08_fixed_wrappers_in_domain then applies to it. *)
Theorem C08_history_fixed_accepted_is_valid s fixed : coherent s -> fixed_ok_st s fixed = true -> fixed_valid (dom_of s) fixed.
Proof. exact (fixed_accepted_is_valid s fixed). Qed.
Print Assumptions C08_history_fixed_accepted_is_valid.

(* The constrained sampling entry point hands the sampler the FULL half-space system of the current constraints (constraint rows and
   both bound rows of every coordinate); if what the sampler returns satisfies the system it was handed (C08_hitandrun_inside,
   C08_rejection_with_padding_feasible), the points returned - in the forced branch with the unconstrained columns overwritten by
   values inside their bounds - lie in the region of the current constraints. *)
Theorem C08_history_sample_in_domain s n raw ok vals : coherent s -> s_constrained s = true ->
  Forall (fun p => length p = s_dim s /\ sat_all (s_hs s) p) raw -> Forall (in_box (sub_bounds s)) vals ->
  exists forced x0 box out, snd (dstep s (DSample n raw ok vals)) = OSample forced (halfspaces (dom_of s)) x0 box out /\
                            Forall (feasible (dom_of s)) out.
Proof. exact (history_sample_feasible s n raw ok vals). Qed.
Print Assumptions C08_history_sample_in_domain.

(* non-vacuity: the box [0,2]^3.  The caller sets  x + y >= 1  (centre (1, 1, 1)); column 2 is unconstrained; the outside point
   (0, 0, 0) is pulled onto that face.  The caller then edits its list in place - the constraint becomes  x + (1/2^28) z >= 3/2  -
   and sets it again: now column 1 is unconstrained and column 2, whose weight is tiny but not zero, is constrained; a wrapper fixing
   column 2 is refused, one fixing column 1 is accepted; the same outside point is now pulled onto the NEW face. *)
Example C08_history_example :
  let bs := [(0, 2); (0, 2); (0, 2)] in
  let c1 := [([1; 1; 0], 1)] in
  let c2 := [([1; 0; 1 # 268435456], 3 # 2)] in
  let ops := [DSet c1 [1; 1; 1] true; DUncon; DRestrict None true [] [[0; 0; 0]];
              DSet c2 [7 # 4; 1; 1] true; DUncon; DFixOk [(2%nat, 1)]; DFixOk [(1%nat, 1)]; DRestrict None true [] [[0; 0; 0]]] in
  let t := dtrace (dfresh bs) ops in
  nth 1 t ONone = OIdx [2%nat] /\ nth 4 t ONone = OIdx [1%nat] /\
  nth 5 t ONone = OBool false /\ nth 6 t ONone = OBool true /\
  (exists m1 m2, nth 2 t ONone = OPts [m1] 0 /\ nth 7 t ONone = OPts [m2] 0 /\
                 dot [1; 1; 0] m1 == 1 /\ dot [1; 0; 1 # 268435456] m2 == 3 # 2 /\ ~ dot [1; 0; 1 # 268435456] m1 == 3 # 2) /\
  s_cons (drun (dfresh bs) ops) = c2.
Proof.
  (* the trace is evaluated once and its entries read off *)
  intros bs c1 c2 ops t. vm_compute in t. subst t. lazy beta iota delta [nth].
  do 4 (split; [reflexivity|]). split; [|exact (proj1 (proj2 (history_stored_fields bs ops)))].
  eexists _, _. do 2 (split; [reflexivity|]). vm_compute. repeat split. discriminate.
Qed.
