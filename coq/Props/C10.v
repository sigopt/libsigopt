(* C10 — Distinct and random sampling: no repeats, full support, priors honoured.
   Statements, each closed by `exact` of a lemma of Proofs/ and followed by Print Assumptions; the examples are concrete instances.  Model: LV.Model.Distinct; the specification
   vocabulary (peq, wf_dom, typed, enumerative, oracle_ok, In_domain, draw_ok, cols_ok, keep_mask) is in LV.Proofs.Distinct. *)
From Coq Require Import QArith SetoidList.
From LV Require Import Model.Distinct Proofs.Distinct.
Import ListNotations.
Open Scope Q_scope.

(* ---- index <-> configuration bijection (map_index_to_discrete_point / map_discrete_point_to_index) *)
Theorem C10_index_roundtrip els : wf_els els -> forall i, (0 <= i < total_of els)%Z ->
  point_to_index els (index_to_point els i) = Some i /\ length (index_to_point els i) = length els.
Proof. exact (index_roundtrip els). Qed.
Print Assumptions C10_index_roundtrip.

Theorem C10_point_roundtrip els : wf_els els -> forall p i, length p = length els -> point_to_index els p = Some i ->
  (0 <= i < total_of els)%Z /\ peqb (index_to_point els i) p = true.
Proof. exact (point_roundtrip els). Qed.
Print Assumptions C10_point_roundtrip.

(* the configuration space the counts refer to: the cartesian product of the element lists, total_of many rows *)
Theorem C10_configs_enumeration d :
  zlen (configs d) = total_of (map elements d) /\
  forall c, In c (configs d) <-> Forall2 (fun e x => In x e) (map elements d) c.
Proof. exact (conj (configs_length d) (configs_In d)). Qed.
Print Assumptions C10_configs_enumeration.

Theorem C10_in_domain_decided d p : in_domain_b d p = true <-> In_domain d p.
Proof. exact (in_domain_b_iff d p). Qed.
Print Assumptions C10_in_domain_decided.

(* ---- distinct sampling.  For a well-formed discrete domain with fewer than 10^5 configurations, any typed history
   (repeats, out-of-range rows), any k >= 0, on the enumerating branch (more requested than remain, or
   k + #distinct in-domain history rows > duplicate_prob * total), and whatever numpy.random.choice(replace=False)
   returns within its contract: exactly min(k, #unobserved) rows, pairwise distinct, all in the domain, none observed. *)
Theorem C10_distinct_spec d k h dp orc cols :
  wf_dom d = true -> is_discrete d = true -> (total_of (map elements d) < max_search)%Z -> (0 <= k)%Z ->
  Forall (fun p => typed d p = true) h ->
  enumerative d k h dp ->
  oracle_ok (distinct_plan d k h dp) orc ->
  exists r, distinct_points d k h dp orc cols = Some r /\
    zlen r = Z.min k (zlen (unobserved d h)) /\ NoDupA peq r /\
    Forall (fun p => in_domain_b d p = true) r /\ Forall (fun p => ~ InA peq p h) r.
Proof. exact (distinct_spec d k h dp orc cols). Qed.
Print Assumptions C10_distinct_spec.

(* Without the branch hypothesis the clause is false: 5000 configurations, 3 history rows, k = 2, default
   duplicate_prob: admissible draws return the same observed configuration twice (known finding
   "C10:iid-shortcut-below-duplicate-prob"). *)
Theorem C10_distinct_shortcut_refuted :
  exists d k h dp orc cols r,
    wf_dom d = true /\ is_discrete d = true /\ (total_of (map elements d) < max_search)%Z /\ (0 <= k)%Z /\
    Forall (fun p => typed d p = true) h /\ oracle_ok (distinct_plan d k h dp) orc /\
    cols_ok (Z.to_nat k) (quasi_requests d) cols /\
    distinct_points d k h dp orc cols = Some r /\
    ~ NoDupA peq r /\ (exists p, In p r /\ InA peq p h) /\ ~ enumerative d k h dp.
Proof. exact distinct_shortcut_refuted. Qed.
Print Assumptions C10_distinct_shortcut_refuted.

(* ---- de-duplication.  `far` is the library's test: standardised Euclidean distance > tol * sqrt(dim), on squares *)
Theorem C10_far_meaning V tol u v :
  far V tol u v = true <-> tol < 0 \/ tol * tol * inject_Z (zlen V) < sdist2 V u v.
Proof. exact (far_iff V tol u v). Qed.
Print Assumptions C10_far_meaning.

(* member j is kept iff it is far from every earlier member (dropped or not) and from every history row; in
   particular member 0 can only be dropped by the history *)
Theorem C10_dedupe_member_rule d tol eps ehs j : (j < length eps)%nat ->
  nth j (keep_mask d tol eps ehs) false =
  forallb (fun e => far (map scale1 d) tol e (nth j eps [])) (firstn j eps) &&
  forallb (fun c => far (map scale1 d) tol c (nth j eps [])) ehs.
Proof. exact (keep_mask_nth d tol eps ehs j). Qed.
Print Assumptions C10_dedupe_member_rule.

(* replace_duplicate_points = kept members in order, then the distinct sampler's rows for the dropped count
   (eps / ehs: batch and history with category labels replaced by their positions) *)
Theorem C10_dedupe_spec d pts hist tol orc cols eps ehs :
  all_some (map (enum_point d) pts) = Some eps -> all_some (map (enum_point d) hist) = Some ehs ->
  let kept := select (keep_mask d tol eps ehs) pts in
  replace_duplicates d pts hist tol orc cols =
    match distinct_points d (zlen pts - zlen kept) hist default_dup_prob orc cols with
    | Some fill => Some (kept ++ fill)
    | None => None
    end.
Proof. exact (dedupe_spec d pts hist tol orc cols eps ehs). Qed.
Print Assumptions C10_dedupe_spec.

(* batch size restored whenever enough unobserved configurations exist (enumerating branch) *)
Theorem C10_dedupe_size d pts hist tol orc cols eps ehs :
  all_some (map (enum_point d) pts) = Some eps -> all_some (map (enum_point d) hist) = Some ehs ->
  let kept := select (keep_mask d tol eps ehs) pts in
  let m := (zlen pts - zlen kept)%Z in
  wf_dom d = true -> is_discrete d = true -> (total_of (map elements d) < max_search)%Z ->
  Forall (fun p => typed d p = true) hist ->
  enumerative d m hist default_dup_prob ->
  oracle_ok (distinct_plan d m hist default_dup_prob) orc ->
  exists fill, replace_duplicates d pts hist tol orc cols = Some (kept ++ fill) /\
    zlen fill = Z.min m (zlen (unobserved d hist)) /\
    ((m <= zlen (unobserved d hist))%Z -> zlen (kept ++ fill) = zlen pts) /\
    NoDupA peq fill /\ Forall (fun p => in_domain_b d p = true) fill /\ Forall (fun p => ~ InA peq p hist) fill.
Proof. exact (dedupe_size d pts hist tol orc cols eps ehs). Qed.
Print Assumptions C10_dedupe_size.

(* ... and always on the random branches (non-discrete or huge domain, shortcut) *)
Theorem C10_dedupe_size_random d pts hist tol orc cols eps ehs n :
  all_some (map (enum_point d) pts) = Some eps -> all_some (map (enum_point d) hist) = Some ehs ->
  let kept := select (keep_mask d tol eps ehs) pts in
  distinct_plan d (zlen pts - zlen kept) hist default_dup_prob = PRandom n ->
  exists fill, replace_duplicates d pts hist tol orc cols = Some (kept ++ fill) /\ zlen (kept ++ fill) = zlen pts.
Proof. exact (dedupe_size_random d pts hist tol orc cols eps ehs n). Qed.
Print Assumptions C10_dedupe_size_random.

(* ---- plain random sampling: the draw requested for a parameter (randint(lo, hi + 1), choice over the elements,
   uniform(lo, hi)) covers exactly the parameter's values: every int with both bounds, every category, every grid
   element *)
Theorem C10_full_support c x : in_comp c x <-> draw_ok (request1 c) x.
Proof. exact (full_support c x). Qed.
Print Assumptions C10_full_support.

Theorem C10_quasi_random_in_domain d n cols : cols_ok (Z.to_nat n) (quasi_requests d) cols ->
  Forall (In_domain d) (quasi_random n cols).
Proof. exact (quasi_random_in_domain d n cols). Qed.
Print Assumptions C10_quasi_random_in_domain.

Theorem C10_quasi_random_reaches d p : In_domain d p ->
  exists cols, cols_ok 1 (quasi_requests d) cols /\ quasi_random 1 cols = [p].
Proof. exact (quasi_random_reaches d p). Qed.
Print Assumptions C10_quasi_random_reaches.

(* ---- priors: truncnorm is requested with standardised bounds ((lo-m)/s, (hi-m)/s), loc m, scale s, whose support
   is exactly [lo, hi]; beta with loc lo and scale hi-lo, support [lo, hi]; no prior = the plain draw *)
Theorem C10_prior_normal_truncated lo hi m s x : ~ s == 0 ->
  exists a b, request_prior (CDouble lo hi) (Normal m s) = RTruncnorm a b m s /\
    a == (lo - m) / s /\ b == (hi - m) / s /\
    (draw_ok (RTruncnorm a b m s) x <-> lo <= x /\ x <= hi).
Proof. exact (prior_normal_truncated lo hi m s x). Qed.
Print Assumptions C10_prior_normal_truncated.

Theorem C10_prior_beta_scaled lo hi a b x :
  request_prior (CDouble lo hi) (Beta a b) = RBeta a b lo (hi - lo) /\
  (draw_ok (RBeta a b lo (hi - lo)) x <-> lo <= x /\ x <= hi).
Proof. exact (prior_beta_scaled lo hi a b x). Qed.
Print Assumptions C10_prior_beta_scaled.

Theorem C10_prior_absent c : request_prior c NoPrior = request1 c.
Proof. exact (prior_absent c). Qed.
Print Assumptions C10_prior_absent.

(* the random, SPE-initialisation and SPE-search-initialisation paths use the prior sampler iff priors are supplied
   and the domain is unconstrained *)
Theorem C10_view_dispatch {A} (ps : list A) constrained :
  view_path ps constrained = UsePriors <-> ps <> [] /\ constrained = false.
Proof. exact (view_dispatch ps constrained). Qed.
Print Assumptions C10_view_dispatch.

(* a whole SPE request: the estimator produces the suggestions only when the experiment is past its initialisation phase, has more than
   1.7 observations per open suggestion and the estimator could be formed ... *)
Theorem C10_spe_view_estimator_iff {A} (ps : list A) constrained init obs open formed :
  spe_view_sampler ps constrained init obs open formed = SEstimator <->
  init = false /\ sample_randomly obs open = false /\ formed = true.
Proof. exact (spe_view_estimator_iff ps constrained init obs open formed). Qed.
Print Assumptions C10_spe_view_estimator_iff.

(* ... and EVERY other route (initialisation phase, many open suggestions, too little data for the estimator) is a random-suggestion path
   that draws from the priors iff priors are supplied and the domain is unconstrained *)
Theorem C10_spe_view_random_routes {A} (ps : list A) constrained init obs open formed :
  init = true \/ sample_randomly obs open = true \/ formed = false ->
  spe_view_sampler ps constrained init obs open formed = random_sampler ps constrained /\
  (spe_view_sampler ps constrained init obs open formed = SPriors <-> ps <> [] /\ constrained = false).
Proof. exact (spe_view_random_routes ps constrained init obs open formed). Qed.
Print Assumptions C10_spe_view_random_routes.

(* the search variant: its initialisation sequence, and every random route of the SPE request its exploitation phase delegates to *)
Theorem C10_spe_search_view_random_routes {A} (ps : list A) constrained ph init obs open formed :
  ph = SearchInit \/ (ph = SearchExploit /\ (init = true \/ sample_randomly obs open = true \/ formed = false)) ->
  spe_search_view_sampler ps constrained ph init obs open formed = random_sampler ps constrained /\
  (spe_search_view_sampler ps constrained ph init obs open formed = SPriors <-> ps <> [] /\ constrained = false).
Proof. exact (spe_search_view_random_routes ps constrained ph init obs open formed). Qed.
Print Assumptions C10_spe_search_view_random_routes.

Theorem C10_sample_randomly_spec obs open : sample_randomly obs open = true <-> inject_Z obs <= (17 # 10) * inject_Z open.
Proof. exact (sample_randomly_spec obs open). Qed.
Print Assumptions C10_sample_randomly_spec.

(* non-vacuity: priors on an unconstrained domain, past the initialisation phase, 6 observations, no open suggestion, the estimator refused
   (fewer than 10 observations): the suggestions come from the priors; with 12 observations and a formed estimator they come from the estimator;
   with 12 observations and 8 open suggestions (12 <= 13.6) from the priors again *)
Example C10_spe_view_example :
  spe_view_sampler [Normal (-100) 5; NoPrior] false false 6 0 false = SPriors /\
  spe_view_sampler [Normal (-100) 5; NoPrior] false false 12 0 true = SEstimator /\
  spe_view_sampler [Normal (-100) 5; NoPrior] false false 12 8 true = SPriors /\
  spe_view_sampler [Normal (-100) 5; NoPrior] true false 6 0 false = SQuasi /\
  spe_search_view_sampler [Normal (-100) 5; NoPrior] false SearchExploit false 6 0 false = SPriors.
Proof. vm_compute. repeat split; reflexivity. Qed.

(* non-vacuity: 15 configurations, one observed 14 times plus an out-of-domain row, ask 5 *)
Example C10_example :
  let d := [CInt 0 4; CCat [1; 2; 5]%Z] in
  let h := repeat [2; 5] 14 ++ [[9; 1]] in
  wf_dom d = true /\ is_discrete d = true /\ Forall (fun p => typed d p = true) h /\
  enumerative d 5 h 0 /\ oracle_ok (distinct_plan d 5 h 0) [0; 3; 7; 9; 13]%Z /\
  distinct_points d 5 h 0 [0; 3; 7; 9; 13]%Z [] = Some [[0; 1]; [3; 1]; [2; 2]; [4; 2]; [3; 5]] /\
  zlen (unobserved d h) = 14%Z.
Proof. exact distinct_example. Qed.
