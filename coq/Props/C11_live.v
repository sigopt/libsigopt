(* C11 - the LIVE likelihood object: which model a value belongs to after a history of hyperparameter vectors (accepted, rejected, such
   that the kernel matrix cannot be factored, sent twice) and of observations appended to the container it holds.  Statements about
   Model.LogLikLive (set_hyperparameters statement by statement, including what is assigned when an exception leaves it), tied to the
   running class by the op-sequence correspondence (lcase / lcheck).  Only statements, each closed by `exact`.
   chol_ok is LAPACK's outcome on the kernel matrix of (the vector sent, the observations held then): external code, an input. *)
From Coq Require Import List QArith.
From LV Require Import Model.LogLikLive Proofs.LogLikLive.
Import ListNotations.
Open Scope Q_scope.

(* a set that returns normally has fitted THIS vector (kernel hyperparameters and nugget slot) on ALL observations held now: the GP that
   compute_log_likelihood reads was built from exactly these, and what the object reports is what it fitted *)
Theorem C11_live_normal_set_fits o hp ok o' : l_set o hp ok = (o', RNormal) ->
  ok = true /\ length hp = problem_size o /\
  l_cov o' = firstn (S (l_dim o)) hp /\
  l_gp o' = mksnap (firstn (S (l_dim o)) hp) (if l_auto o then Some (last hp 0) else None) (l_n o) /\
  l_n o' = l_n o /\ l_dim o' = l_dim o /\ l_auto o' = l_auto o /\ fitted o'.
Proof. exact (set_normal_fits o hp ok o'). Qed.
Print Assumptions C11_live_normal_set_fits.

(* a vector whose kernel matrix cannot be factored is never accepted - in whatever state the object is, however often it is sent *)
Theorem C11_live_unfactorable_never_accepted o hp : snd (l_set o hp false) <> RNormal.
Proof. exact (set_unfactorable_never_normal o hp). Qed.
Print Assumptions C11_live_unfactorable_never_accepted.

(* what a set does is independent of the hyperparameters and of the fit the object held before: re-sending the vector it already
   reports is a fit like any other (on the observations held NOW) *)
Theorem C11_live_set_is_history_free o1 o2 hp ok : l_dim o1 = l_dim o2 -> l_auto o1 = l_auto o2 -> l_n o1 = l_n o2 ->
  snd (l_set o1 hp ok) = snd (l_set o2 hp ok) /\
  (snd (l_set o1 hp ok) = RNormal -> fst (l_set o1 hp ok) = fst (l_set o2 hp ok)).
Proof. exact (set_outcome_history_free o1 o2 hp ok). Qed.
Print Assumptions C11_live_set_is_history_free.

(* in ANY history: the value read right after a set that returned normally belongs to the vector just sent and to the
   n0 + (everything appended so far) observations - never to an earlier fit *)
Theorem C11_live_value_after_normal_set o ops1 hp ok ops2 :
  nth (length ops1) (snd (l_run o (ops1 ++ LSet hp ok :: LValue :: ops2))) (MSet RLen) = MSet RNormal ->
  nth (S (length ops1)) (snd (l_run o (ops1 ++ LSet hp ok :: LValue :: ops2))) (MSet RLen)
  = MValue (mksnap (firstn (S (l_dim o)) hp) (if l_auto o then Some (last hp 0) else None) (l_n o + appended ops1)).
Proof. exact (history_value_after_normal_set o ops1 hp ok ops2). Qed.
Print Assumptions C11_live_value_after_normal_set.

(* a concrete history (hypotheses satisfiable): fit [2, 1/2] on 3 observations; a vector that cannot be factored is refused twice (the
   object then REPORTS it - the covariance was updated - while its value is still that of [2, 1/2]: no fit, no claim); two observations are
   appended and [2, 1/2] is sent again: the value now belongs to 5 observations *)
Example C11_live_example :
  snd (l_run (l_init 1 false [1; 1] None 3)
             [LSet [2; 1#2] true; LValue; LSet [1; 1024] false; LSet [1; 1024] false; LGet; LValue; LSet [2; 1#2] true; LAppend 2; LSet [2; 1#2] true; LValue])
  = [MSet RNormal; MValue (mksnap [2; 1#2] None 3); MSet RLinAlg; MSet RLinAlg; MGet [1; 1024]; MValue (mksnap [2; 1#2] None 3);
     MSet RNormal; MSet RNormal; MSet RNormal; MValue (mksnap [2; 1#2] None 5)].
Proof. vm_compute. reflexivity. Qed.
