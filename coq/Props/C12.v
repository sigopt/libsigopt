(* C12 -- Metric normalisation is an order-respecting, invertible affine map.
   Statements, each closed by `exact` of a lemma of Proofs/ and followed by Print Assumptions; the examples are concrete instances.  Model: LV.Model.Midpoint
   (smmi = SingleMetricMidpointInfo.__init__, mmi = MultiMetricMidpointInfo.__init__, rel_value / undo_value / rel_var /
   undo_var / lie_value = the methods, preprocess = View._preprocess_{optimization,constraint}_metrics).
   Every division of the code is the guarded Qdiv_safe: a result `Some _` means no division by zero happened, which is
   the only source of NaN / inf on finite inputs. *)
From Coq Require Import List QArith.
From LV Require Import Model.Midpoint Proofs.Midpoint.
Import ListNotations.
Open Scope Q_scope.

(* Order: for both objectives (and objective None = maximise), every branch of the constructor, all values a b (observed,
   lie or threshold): a is better than b in the user's sense  <->  a's scaled value is strictly smaller.  Hence equal
   values stay equal and no pair is ever flipped. *)
Theorem C12_order_law vals fails o i a b : smmi vals fails o = Some i ->
  (better o a b <-> rel_value i a < rel_value i b).
Proof. exact (order_law_c vals fails o i a b). Qed.
Print Assumptions C12_order_law.

(* Inverse, both directions; the division in undo_scaling never has a zero denominator. *)
Theorem C12_undo_after_scale vals fails o i v : smmi vals fails o = Some i ->
  exists v', undo_value i (rel_value i v) = Some v' /\ v' == v.
Proof. exact (fun H => undo_relative_id o i v (smmi_wf vals fails o i H)). Qed.
Print Assumptions C12_undo_after_scale.

Theorem C12_scale_after_undo vals fails o i y : smmi vals fails o = Some i ->
  exists v, undo_value i y = Some v /\ rel_value i v == y.
Proof. exact (fun H => relative_undo_id o i y (smmi_wf vals fails o i H)). Qed.
Print Assumptions C12_scale_after_undo.

(* Span: the regular branch is taken exactly when two non-failed values differ by at least 2e-8 (non-degenerate
   metric); then all non-failed values land in [-0.1, 0.1] and both ends are attained. *)
Theorem C12_span_exact vals fails o i : smmi vals fails o = Some i ->
  (i_branch i = BRegular <->
   exists a b, In a (nonfail vals fails) /\ In b (nonfail vals fails) /\ 2 * MIN_HALF_WIDTH <= a - b) /\
  (i_branch i = BRegular ->
   (forall v, In v (nonfail vals fails) -> -(1 # 10) <= rel_value i v <= 1 # 10) /\
   (exists lo, In lo (nonfail vals fails) /\ rel_value i lo == -(1 # 10)) /\
   (exists hi, In hi (nonfail vals fails) /\ rel_value i hi == 1 # 10)).
Proof. exact (fun H => conj (regular_iff vals fails o i H) (span_exact vals fails o i H)). Qed.
Print Assumptions C12_span_exact.

(* Variances: the squared slope of the value map is var_factor (scale^2, or 1 in skip mode); the scaled variance is the
   larger of w * var_factor and the floor (1e-10, or 1e-6 in skip mode), never below the minimum variance 1e-10; when the
   floor is not hit, undo_scaling_variances recovers w. *)
Theorem C12_variance_law vals fails o i w a b : smmi vals fails o = Some i ->
  (rel_value i a - rel_value i b) * (rel_value i a - rel_value i b) == var_factor i * ((a - b) * (a - b)) /\
  MIN_VALUE_VAR <= rel_var i w /\ var_floor i <= rel_var i w /\ w * var_factor i <= rel_var i w /\
  (rel_var i w == w * var_factor i \/ rel_var i w == var_floor i) /\
  (var_floor i <= w * var_factor i -> exists w', undo_var i (rel_var i w) = Some w' /\ w' == w).
Proof. exact (variance_law_c vals fails o i w a b). Qed.
Print Assumptions C12_variance_law.

(* Lie: with at least one success, the constant-liar-min value is a non-failed value, no non-failed value is worse in
   the user's sense, and after scaling it is the largest non-failed value. *)
Theorem C12_lie_is_worst vals fails o i : smmi vals fails o = Some i -> nonfail vals fails <> [] ->
  exists l, lie_value i LieMin = Some l /\ In l (nonfail vals fails) /\
    (forall v, In v (nonfail vals fails) -> ~ better o l v) /\
    (forall v, In v (nonfail vals fails) -> rel_value i v <= rel_value i l).
Proof. exact (lie_is_worst vals fails o i). Qed.
Print Assumptions C12_lie_is_worst.

(* Never NaN / inf: for ALL value lists, failure masks (all-failed, identical values, any offsets) and objectives the
   constructor, both inverse maps and every lie method are defined (every denominator is non-zero in its branch). *)
Theorem C12_no_nan vals fails o : exists i, smmi vals fails o = Some i /\
  (forall y, undo_value i y <> None) /\ (forall w, undo_var i w <> None) /\ (forall m, lie_value i m <> None).
Proof. exact (no_nan vals fails o). Qed.
Print Assumptions C12_no_nan.

(* Degenerate inputs: nothing succeeded -> skip mode, scaling is multiplication by the sign; otherwise the scale is
   strictly positive; identical values -> one of the two degenerate-width fallbacks (never the division by max - min). *)
Theorem C12_degenerate vals fails o i : smmi vals fails o = Some i ->
  (nonfail vals fails = [] -> i_skip i = true /\ forall v, rel_value i v == negate_of o * v) /\
  (i_skip i = false -> 0 < i_scale i) /\
  (forall x, (forall v, In v (nonfail vals fails) -> v == x) -> nonfail vals fails <> [] ->
     i_skip i = false /\ (i_branch i = BDegenBig \/ i_branch i = BDegenSmall)).
Proof. exact (degenerate_c vals fails o i). Qed.
Print Assumptions C12_degenerate.

(* Any number of metrics: the multi-metric object always exists and is exactly the tuple of the single-metric objects
   of its columns (so every law above holds per metric); all metrics are in skip mode together. *)
Theorem C12_multi_is_columnwise m vals fails objs :
  exists infos, mmi m vals fails objs = Some infos /\ length infos = m /\
    forall k, (k < m)%nat ->
      smmi (column k vals) fails (obj_at objs k) = Some (nth k infos dinfo) /\
      i_skip (nth k infos dinfo) = m_skip infos.
Proof. exact (mmi_is_columnwise m vals fails objs). Qed.
Print Assumptions C12_multi_is_columnwise.

(* The view: preprocessing is always defined; for the j-th selected metric (column c = ix[j]) the outputs are those of
   the single-metric object i of that column: failed rows hold the scaled constant-liar-min lie, the other rows the scaled
   value, every entry is <= the scaled lie, and a threshold is scaled by the same map (None = no threshold stays None),
   so by C12_order_law "value better than threshold" <-> "scaled value < scaled threshold". *)
Theorem C12_view_law ix vals vars fails objs thr : length fails = length vals ->
  exists out, preprocess ix vals vars fails objs thr = Some out /\
    length (v_lie out) = length ix /\ length (v_values out) = length vals /\
    forall j, (j < length ix)%nat ->
      let c := nth j ix O in
      exists i l,
        smmi (column c vals) fails (nth c objs NoObjective) = Some i /\
        lie_value i LieMin = Some l /\
        nth j (v_lie out) 0 = rel_value i l /\
        (forall r, (r < length vals)%nat ->
           nth j (nth r (v_values out) []) 0 =
           if nth r fails false then rel_value i l else rel_value i (nth c (nth r vals []) 0)) /\
        (forall r, (r < length vals)%nat -> nth j (nth r (v_values out) []) 0 <= nth j (v_lie out) 0) /\
        nth j (v_thresholds out) None = option_map (rel_value i) (nth c thr None).
Proof. exact (view_law ix vals vars fails objs thr). Qed.
Print Assumptions C12_view_law.

(* "Failure masks (none, some, all)": an observation reported as FAILED still carries a stored number (a placeholder, a sentinel
   such as 1e30 or the largest double, whatever the client sent).  The normalisation never reads it.  `overwrite_failed fails vals
   junk` is the history whose failed observations store the entries of `junk` instead (non-failed entries kept): the whole scaling
   object of a metric - skip flag, branch, sign, MIDPOINT, SCALE, non-failed values, hence every scaled success, every lie and every
   inverse - is the same, for one metric, for several, and through the view (where the failed rows hold the scaled lie). *)
Theorem C12_failed_values_ignored vals fails junk o : smmi (overwrite_failed fails vals junk) fails o = smmi vals fails o.
Proof. exact (smmi_overwrite_failed vals fails junk o). Qed.
Print Assumptions C12_failed_values_ignored.

Theorem C12_multi_failed_values_ignored m vals fails junk objs :
  mmi m (overwrite_failed fails vals junk) fails objs = mmi m vals fails objs.
Proof. exact (mmi_overwrite_failed m vals fails junk objs). Qed.
Print Assumptions C12_multi_failed_values_ignored.

Theorem C12_view_failed_values_ignored ix vals vars fails objs thr junk :
  preprocess ix (overwrite_failed fails vals junk) vars fails objs thr = preprocess ix vals vars fails objs thr.
Proof. exact (preprocess_overwrite_failed ix vals vars fails objs thr junk). Qed.
Print Assumptions C12_view_failed_values_ignored.

(* non-vacuity: the failed observation of C12_example storing 10^30 instead of 100 (overwrite_failed really changes the history);
   midpoint 2 and scale 1/10 as in C12_example below *)
Example C12_example_failed_sentinel :
  let big := 1000000000000000000000000000000 in
  overwrite_failed [false; true; false; false] [3; 100; 1; 2] [0; big; 0; 0] = [3; big; 1; 2] /\
  exists i, smmi [3; big; 1; 2] [false; true; false; false] Maximize = Some i /\ i_branch i = BRegular /\
    i_mid i == 2 /\ i_scale i == 1 # 10 /\ rel_value i 3 == -(1 # 10) /\ rel_value i 1 == 1 # 10.
Proof.
  cbv zeta. split; [reflexivity|]. eexists. split; [vm_compute; reflexivity|]. vm_compute. repeat split; reflexivity || discriminate.
Qed.

(* non-vacuity: a regular maximised metric with one failure, an all-failed one, and a constant one at a large offset *)
Example C12_example :
  (exists i, smmi [3; 100; 1; 2] [false; true; false; false] Maximize = Some i /\ i_branch i = BRegular /\
     i_mid i == 2 /\ i_scale i == 1 # 10 /\ rel_value i 3 == -(1 # 10) /\ rel_value i 1 == 1 # 10 /\
     lie_value i LieMin = Some 1 /\ undo_value i (1 # 20) = Some ((-1 * (1 # 20)) / (2 * (1 # 10) / (3 - 1)) + (3 + 1) * (1 # 2))) /\
  (exists i, smmi [3; 4] [true; true] Minimize = Some i /\ i_skip i = true /\ lie_value i LieMin = Some DEFAULT_LIE) /\
  (exists i, smmi [1000; 1000] [false; false] Minimize = Some i /\ i_branch i = BDegenBig /\ i_mid i == 1000 /\
     i_scale i == 1 # 1000).
Proof.
  split; [|split].
  - eexists. split; [vm_compute; reflexivity|]. vm_compute. repeat split; reflexivity || discriminate.
  - eexists. split; [vm_compute; reflexivity|]. vm_compute. repeat split; reflexivity.
  - eexists. split; [vm_compute; reflexivity|]. vm_compute. repeat split; reflexivity.
Qed.
