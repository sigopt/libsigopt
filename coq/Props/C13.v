(* C13 — Pareto frontier and epsilon-constraint thresholds are exact.
   Statements, each closed by `exact` of a lemma of Proofs/ and followed by Print Assumptions; the examples are concrete instances. Models: LV.Model.Pareto; LV.Model.Filters for the
   two wrappers that consume the labelling (filter_multimetric_points_sampled, filter_multimetric_points_sampled_spe). *)
From Coq Require Import List QArith Permutation Sorted.
From LV Require Import Model.Pareto Proofs.Pareto Model.Phases Model.Filters Proofs.Filters.
Import ListNotations.
Open Scope Q_scope.

(* The two returned lists are exactly the labels of the non-dominated and of the dominated rows, in order, every copy of
   a tied row kept; non-dominated means: no row is >= in every metric and > in one. *)
Theorem C13_pareto_partition_exact {A} (vals : list (list Q)) (width : nat) (obs : list A) (dflt : A) :
  (forall r, In r vals -> length r = width) -> length obs = length vals ->
  let ix := seq 0 (length vals) in
  pareto_split vals obs =
  (map (fun j => nth j obs dflt) (filter (nondominated_b vals) ix),
   map (fun j => nth j obs dflt) (filter (fun j => negb (nondominated_b vals j)) ix))
  /\ forall j, (j < length vals)%nat ->
       (nondominated_b vals j = true <->
        ~ exists k, (k < length vals)%nat /\ Dominates (nth k vals []) (nth j vals [])).
Proof. exact (@pareto_partition_exact A vals width obs dflt). Qed.
Print Assumptions C13_pareto_partition_exact.

(* The frontier sorted along the first metric, as the threshold-clipped epsilon routine consumes it
   (_find_sorted_pareto_frontier_values_minimization): a rearrangement of exactly the rows that no row dominates under
   minimisation - every copy of a tied row kept - in non-decreasing order of the first metric. *)
Theorem C13_sorted_frontier_exact (vals : list (list Q)) (width : nat) :
  (forall r, In r vals -> length r = width) ->
  let nv := neg_rows vals in
  Permutation (sorted_pareto_min vals)
              (map (fun j => nth j vals []) (filter (nondominated_b nv) (seq 0 (length vals)))) /\
  StronglySorted (fun a b => nth 0 a 0 <= nth 0 b 0) (sorted_pareto_min vals) /\
  forall j, (j < length vals)%nat ->
    (nondominated_b nv j = true <->
     ~ exists k, (k < length vals)%nat /\ Dominates (nth k nv []) (nth j nv [])).
Proof. exact (sorted_frontier_exact vals width). Qed.
Print Assumptions C13_sorted_frontier_exact.

(* Without thresholds: convex combination of the constrained metric's values at the two single-metric optima
   (first minimum of each column). *)
Theorem C13_epsilon_no_bounds eps cm vals : vals <> [] ->
  let b0 := argmin (col 0 vals) in let b1 := argmin (col 1 vals) in
  (b0 < length vals)%nat /\ (b1 < length vals)%nat /\
  (forall k, (k < length vals)%nat -> at_ vals b0 0 <= at_ vals k 0) /\
  (forall k, (k < length vals)%nat -> at_ vals b1 1 <= at_ vals k 1) /\
  (forall k, (k < b0)%nat -> at_ vals b0 0 < at_ vals k 0) /\
  (forall k, (k < b1)%nat -> at_ vals b1 1 < at_ vals k 1) /\
  find_eps eps cm vals None None =
    (1 - eps) * Qminb (at_ vals b0 cm) (at_ vals b1 cm) + eps * Qmaxb (at_ vals b0 cm) (at_ vals b1 cm).
Proof. exact (epsilon_no_bounds eps cm vals). Qed.
Print Assumptions C13_epsilon_no_bounds.

(* With any thresholds (none, one, both; any values) the result stays in the range of that metric over the observations. *)
Theorem C13_epsilon_with_bounds_in_range eps cm vals t0 t1 lo hi :
  0 < eps -> eps < 1 -> vals <> [] -> (forall r, In r vals -> lo <= nth cm r 0 <= hi) ->
  lo <= find_eps eps cm vals t0 t1 <= hi.
Proof. exact (epsilon_with_bounds_in_range eps cm vals t0 t1 lo hi). Qed.
Print Assumptions C13_epsilon_with_bounds_in_range.

(* The repair clears only failures, reaches max(before, min(5, n)) successes and clears lowest-valued failures. *)
Theorem C13_min_successes om vals fails : length vals = length fails ->
  let out := force_min om vals fails in
  let succ l := count_true (map negb l) in
  length out = length fails /\
  (forall j, nth j out false = true -> nth j fails false = true) /\
  succ out = Nat.max (succ fails) (Nat.min 5 (length fails)) /\
  (forall a b, nth a fails false = true -> nth a out false = false -> nth b out false = true ->
     at_ vals a om <= at_ vals b om).
Proof. exact (min_successes om vals fails). Qed.
Print Assumptions C13_min_successes.

(* Labelling by the epsilon threshold never leaves fewer than five (or all, when fewer exist) successful points. *)
Theorem C13_labelling_keeps_minimum eps om cm vals fails : length vals = length fails ->
  (Nat.min 5 (length fails) <= count_true (map negb (eps_labelling eps om cm vals fails)))%nat.
Proof. exact (labelling_keeps_minimum eps om cm vals fails). Qed.
Print Assumptions C13_labelling_keeps_minimum.

(* ---- the guaranteed minimum at the consumers of the labelling (epsilon-constraint method) -------------------- *)
(* GP path (filter_multimetric_points_sampled): for EVERY failure mask - any number of reported failures, fewer than five
   good observations, n < 5, every observation a reported failure, ties - at least min(5, n) rows reach the Gaussian
   process; points, values and variances are equally long and are the rows kept, in order. *)
Theorem C13_wrapper_gp_keeps_minimum eps om cm n pts vals vars fails lie : aligned n pts vals vars fails ->
  let o := filter_gp (EpsC om cm eps) pts vals vars fails lie in
  (Nat.min 5 n <= length (o_pts o))%nat /\
  length (o_pts o) = arr_len (o_vals o) /\ arr_len (o_vals o) = arr_len (o_vars o) /\
  exists keepm, length keepm = n /\ count_true keepm = length (o_pts o) /\
    o_pts o = select keepm pts /\ o_vals o = A1 (select keepm (col om vals)) /\ o_vars o = A1 (select keepm (col om vars)).
Proof. exact (wrapper_gp_keeps_minimum eps om cm n pts vals vars fails lie). Qed.
Print Assumptions C13_wrapper_gp_keeps_minimum.

(* Parzen-estimator path (filter_multimetric_points_sampled_spe), again for EVERY failure mask: points untouched, every row
   carries its own optimising value or the lie value, at least min(5, n) rows carry their own value, and when the lie
   value differs from every observed value at least min(5, n) rows are not the lie - nothing after the repair re-marks a
   promoted row. *)
Theorem C13_wrapper_spe_keeps_minimum eps om cm n pts vals fails lie : aligned n pts vals vals fails ->
  let o := filter_spe (EpsC om cm eps) pts vals fails lie in
  fst o = pts /\ length (snd o) = n /\
  (forall j, (j < n)%nat -> nth j (snd o) 0 = at_ vals j om \/ nth j (snd o) 0 = nth om lie 0) /\
  (Nat.min 5 n <= own_count (col om vals) (snd o))%nat /\
  ((forall j, (j < n)%nat -> ~ at_ vals j om == nth om lie 0) ->
   (Nat.min 5 n <= not_lie_count (nth om lie 0%Q) (snd o))%nat).
Proof. exact (wrapper_spe_keeps_minimum eps om cm n pts vals fails lie). Qed.
Print Assumptions C13_wrapper_spe_keeps_minimum.

(* The mask that marks every observation (the repaired defect: the code used to raise ValueError): nothing is labelled by
   the threshold, the GP is handed all n rows, and on the Parzen path exactly min(5, n) rows are not the lie. *)
Theorem C13_wrapper_all_failed eps om cm n pts vals vars lie : aligned n pts vals vars (repeat true n) ->
  let fails := repeat true n in
  eps_failures eps cm vals fails = repeat false n /\
  o_pts (filter_gp (EpsC om cm eps) pts vals vars fails lie) = pts /\
  ((forall j, (j < n)%nat -> ~ at_ vals j om == nth om lie 0) ->
   not_lie_count (nth om lie 0%Q) (snd (filter_spe (EpsC om cm eps) pts vals fails lie)) = Nat.min 5 n).
Proof. exact (wrapper_all_failed eps om cm n pts vals vars lie). Qed.
Print Assumptions C13_wrapper_all_failed.

(* non-vacuity: a 4-row instance with a tie and a dominated row *)
Example C13_example :
  pareto_split [[1;2]; [2;1]; [1;1]; [1;2]] [10;11;12;13]%nat = ([10;11;13]%nat, [12]%nat) /\
  find_eps (1#4) 1 [[1;5]; [3;2]; [2;4]] None None == (1 - (1#4)) * 2 + (1#4) * 5 /\
  force_min 0 [[3;0]; [1;0]; [2;0]; [5;0]; [4;0]; [0;0]; [9;0]] [true; true; true; false; true; true; true]
    = [false; false; false; false; true; false; true] /\
  sorted_pareto_min [[1;9]; [1;2]; [5;5]; [1;2]; [7;1]; [7;1]; [8;8]] = [[1;2]; [1;2]; [7;1]; [7;1]].
Proof. vm_compute. repeat split; reflexivity. Qed.

(* non-vacuity of the wrapper theorems: three good observations and four reported failures (carrying the value 9); the
   repair promotes two reported failures, five of seven rows keep their value on the Parzen path (lie value 77) and five
   rows reach the GP.  The all-failed witness (seven rows, every one a reported failure): nothing is labelled by the
   threshold, the five lowest rows of the optimising metric keep their value on the Parzen path and all seven reach the GP. *)
Example C13_wrapper_example :
  let vals := [[0;6]; [9;9]; [3;3]; [9;9]; [6;0]; [9;9]; [9;9]] in
  let fails := [false; true; false; true; false; true; true] in
  let all_failed := [true; true; true; true; true; true; true] in
  let vals2 := [[4;6]; [1;9]; [3;3]; [8;2]; [6;0]; [2;5]; [7;7]] in
  let pts := [[0];[1];[2];[3];[4];[5];[6]] in
  (let '(p, v) := filter_spe (EpsC 0 1 (1#2)) pts vals fails [77; 99] in
   list_eqb (list_eqb Qeq_bool) p pts && list_eqb Qeq_bool v [0; 9; 3; 9; 6; 77; 77]
   && Nat.eqb (not_lie_count 77 v) 5 && Nat.eqb (own_count (col 0 vals) v) 5) = true /\
  (let o := filter_gp (EpsC 0 1 (1#2)) pts vals vals fails [77; 99] in
   arr_eqb (o_vals o) (A1 [0; 9; 3; 9; 6]) && Nat.eqb (length (o_pts o)) 5) = true /\
  eps_failures (1#2) 1 vals2 all_failed = [false; false; false; false; false; false; false] /\
  eps_labelling (1#2) 0 1 vals2 all_failed = [false; false; false; true; false; false; true] /\
  (let '(p, v) := filter_spe (EpsC 0 1 (1#2)) pts vals2 all_failed [77; 99] in
   list_eqb Qeq_bool v [4; 1; 3; 77; 6; 2; 77] && Nat.eqb (not_lie_count 77 v) 5) = true /\
  (let o := filter_gp (EpsC 0 1 (1#2)) pts vals2 vals2 all_failed [77; 99] in
   arr_eqb (o_vals o) (A1 [4; 1; 3; 8; 6; 2; 7]) && Nat.eqb (length (o_pts o)) 7) = true.
Proof. vm_compute. repeat split; reflexivity. Qed.
