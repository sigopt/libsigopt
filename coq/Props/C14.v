(* C14 — Multi-metric scheduling and data filtering follow their contracts.
   Statements, each closed by `exact` of a lemma of Proofs/ and followed by Print Assumptions; the examples are concrete instances.
   Models: LV.Model.Phases, LV.Model.Filters (and LV.Model.Pareto for the epsilon-constraint labelling). *)
From Coq Require Import List QArith.
From LV Require Import Model.Pareto Proofs.Pareto Model.Phases Proofs.Phases Model.Filters Proofs.Filters.
Import ListNotations.
Open Scope Q_scope.

(* ---- phase selectors: total -------------------------------------------------------------------------------- *)
(* For every budget, count, failure count and number of open suggestions (any integers, budgets below the failure
   count and zero open suggestions included) the divisor is >= 1 and a phase is returned; the keyword argument
   "fraction_of_phase_completed" is present exactly for the three phases that read it and lies in (0, 1]. *)
Theorem C14_multimetric_phase_total thr b c f o :
  (1 <= adjusted_budget b f o)%Z /\
  match snd (mm_stage thr b c f o) with
  | Some cf => needs_fraction (fst (mm_stage thr b c f o)) = true /\ 0 < cf <= 1
  | None => needs_fraction (fst (mm_stage thr b c f o)) = false
  end.
Proof. exact (mm_phase_total thr b c f o). Qed.
Print Assumptions C14_multimetric_phase_total.

(* The phase is the position of the served fraction among the documented fractions 15/30/45/55/65 (55 with
   thresholds)/95 %, with initialisation also while at most 10 % is completed. *)
Theorem C14_multimetric_stage_table thr b c f o :
  let fs := fraction_served b c f o in let fc := fraction_completed b c f o in
  let s := fst (mm_stage thr b c f o) in
  (s = MInit <-> fs <= 15#100 \/ fc <= 1#10) /\
  (s = MOptOne <-> ~ (fs <= 15#100 \/ fc <= 1#10) /\ fs <= 30#100) /\
  (s = MRandom <-> ~ fc <= 1#10 /\ 30#100 < fs <= 45#100) /\
  (s = MSeq <-> ~ fc <= 1#10 /\ 45#100 < fs <= 55#100) /\
  (s = MPolish <-> ~ fc <= 1#10 /\ 55#100 < fs <= POLISH_ONE_METRIC_FRAC thr) /\
  (s = MEps <-> ~ fc <= 1#10 /\ POLISH_ONE_METRIC_FRAC thr < fs <= 95#100) /\
  (s = MCompletion <-> ~ fc <= 1#10 /\ 95#100 < fs).
Proof. exact (mm_stage_table thr b c f o). Qed.
Print Assumptions C14_multimetric_stage_table.

(* The metric optimised in the one-metric and epsilon phases alternates with the parity of the observation count. *)
Theorem C14_multimetric_label_parity thr b c f o :
  let l := fst (mm_phase thr b c f o) in
  (l = LOpt1 \/ l = LEps1 -> Z.odd c = true) /\ (l = LOpt0 \/ l = LEps0 -> Z.odd c = false).
Proof. exact (mm_label_parity thr b c f o). Qed.
Print Assumptions C14_multimetric_label_parity.

(* ---- phase selectors: monotone in the observation count (reading of DESIGN 7.0) ---------------------------- *)
Theorem C14_multimetric_phase_monotone thr b f o c c' : (c <= c')%Z ->
  (mstage_ix (fst (mm_stage thr b c f o)) <= mstage_ix (fst (mm_stage thr b c' f o)))%Z.
Proof. exact (mm_stage_monotone thr b f o c c'). Qed.
Print Assumptions C14_multimetric_phase_monotone.

Theorem C14_search_phase_table b o f c :
  let fs := fraction_served b c f o in
  (search_phase b c o f = SInit <-> fs <= 2#10) /\
  (search_phase b c o f = SExploit <-> 2#10 < fs <= 4#10) /\
  (search_phase b c o f = SResolve <-> 4#10 < fs).
Proof. exact (search_phase_table b o f c). Qed.
Print Assumptions C14_search_phase_table.

Theorem C14_search_phase_monotone b o f c c' : (c <= c')%Z ->
  (sphase_ix (search_phase b c o f) <= sphase_ix (search_phase b c' o f))%Z.
Proof. exact (search_phase_monotone b o f c c'). Qed.
Print Assumptions C14_search_phase_monotone.

(* Parzen-estimator selector: budget >= 1 (the caller substitutes 50 * dim for a missing or zero budget: C14_spe_view_budget
   below), counts >= 0. *)
Theorem C14_spe_phase_monotone b f c c' : (1 <= b)%Z -> (0 <= f)%Z -> (0 <= c <= c')%Z ->
  (pphase_ix (fst (spe_phase b c f)) <= pphase_ix (fst (spe_phase b c' f)))%Z.
Proof. exact (spe_phase_monotone b f c c'). Qed.
Print Assumptions C14_spe_phase_monotone.

(* The table of the Parzen-estimator selector: initialisation while the successful fraction is below 15 % (unless more than
   30 % of the budget is spent and more than 10 % of the observations succeeded), completion from 75 % on; the progress
   returned is the successful fraction. *)
Theorem C14_spe_phase_table b c f :
  let sp := success_progress b c f in let tp := total_progress b c in let pr := success_proportion c f in
  let p := fst (spe_phase b c f) in
  (p = PInit <-> sp < 15#100 /\ ~ (30#100 < tp /\ 1#10 < pr)) /\
  (p = PSko <-> ~ (sp < 15#100 /\ ~ (30#100 < tp /\ 1#10 < pr)) /\ sp < 75#100) /\
  (p = PCompletion <-> 75#100 <= sp) /\ snd (spe_phase b c f) = sp.
Proof. exact (spe_phase_table b c f). Qed.
Print Assumptions C14_spe_phase_table.

(* "for every budget ... the Parzen-estimator selector returns a phase": the hypothesis `1 <= b` above is DISCHARGED by the
   request view (SPENextPoints.view: `observation_budget or dim * 50`).  For every request -- no budget (None), budget 0,
   any positive budget -- on a domain of at least one parameter the budget handed to the selector is >= 1, a phase is
   served, and it is the selector's phase at the effective budget: the request's own budget when positive, the phantom
   budget 50 * dim otherwise. *)
Theorem C14_spe_view_budget ob dim : (1 <= dim)%Z -> budget_ok ob ->
  (1 <= spe_view_budget ob dim)%Z /\
  (forall b, ob = Some b -> (1 <= b)%Z -> spe_view_budget ob dim = b) /\
  (ob = None \/ ob = Some 0%Z -> spe_view_budget ob dim = (50 * dim)%Z).
Proof. exact (fun Hd Hb => conj (spe_view_budget_pos ob dim Hd Hb) (spe_view_budget_cases ob dim)). Qed.
Print Assumptions C14_spe_view_budget.

Theorem C14_spe_view_phase_total ob dim c f : (1 <= dim)%Z -> budget_ok ob ->
  let eff := match ob with Some b => if (1 <=? b)%Z then b else (50 * dim)%Z | None => (50 * dim)%Z end in
  (1 <= eff)%Z /\ spe_view_phase ob dim c f = Some (spe_phase eff c f).
Proof. exact (spe_view_phase_total ob dim c f). Qed.
Print Assumptions C14_spe_view_phase_total.

Theorem C14_spe_view_phase_monotone ob dim f c c' : (1 <= dim)%Z -> budget_ok ob -> (0 <= f)%Z -> (0 <= c <= c')%Z ->
  match spe_view_phase ob dim c f, spe_view_phase ob dim c' f with
  | Some (p, _), Some (p', _) => (pphase_ix p <= pphase_ix p')%Z
  | _, _ => False
  end.
Proof. exact (spe_view_phase_monotone ob dim f c c'). Qed.
Print Assumptions C14_spe_view_phase_monotone.

(* non-vacuity: a one-parameter request with budget 0 and one observation is in the initialisation phase of the phantom budget
   50 (progress 1/50), it reaches the SKO phase at 8 observations (8/50 >= 15 %) exactly as a request without a budget does,
   and a request with budget 10 is already past 75 % there *)
Example C14_example_spe_view :
  match spe_view_phase (Some 0%Z) 1 1 0 with Some (PInit, pr) => Qeq_bool pr (1#50) | _ => false end = true /\
  match spe_view_phase (Some 0%Z) 1 8 0, spe_view_phase None 1 8 0 with
  | Some (PSko, a), Some (PSko, b) => Qeq_bool a b | _, _ => false end = true /\
  match spe_view_phase (Some 10%Z) 1 8 0 with Some (PCompletion, _) => true | _ => false end = true /\
  spe_view_budget (Some 0%Z) 3 = 150%Z.
Proof. vm_compute. repeat split; reflexivity. Qed.

(* gamma of the solver options is a proper fraction (the code asserts 0 < gamma < 1) *)
Theorem C14_spe_gamma_range b c f u : (1 <= b)%Z -> (0 <= f <= c)%Z ->
  let '(p, progress) := spe_phase b c f in
  let gamma := fst (spe_solver_options p progress u) in
  6#100 <= gamma <= 11#100 /\ (p <> PSko -> gamma == 6#100 /\ snd (spe_solver_options p progress u) = u).
Proof. intros Hb Hf. exact (spe_gamma_range b c f u Hb (proj2 Hf)). Qed.
Print Assumptions C14_spe_gamma_range.

(* ---- weights and epsilon ------------------------------------------------------------------------------------ *)
(* For every fraction (in or out of [0, 1]), every script of numpy.random.random() draws in [0, 1) and every Halton
   table satisfying its contract (101 numbers in [0.1, 0.9]): two weights in [0.1, 0.9] summing to 1, taken from the
   table of the phase. *)
Theorem C14_weights_spec rs halton f us : halton_ok halton = true -> draws_ok us ->
  exists w0 w1, form_weights rs halton f us = Some (w0, w1) /\ band w0 /\ band w1 /\ w0 + w1 == 1 /\
                In w0 (if rs then halton else grid_table).
Proof. exact (weights_spec rs halton f us). Qed.
Print Assumptions C14_weights_spec.

Theorem C14_epsilon_spec f us : draws_ok us -> exists e, form_epsilon f us = Some e /\ band e /\ In e grid_table.
Proof. exact (epsilon_spec f us). Qed.
Print Assumptions C14_epsilon_spec.

(* the table cell selected is the one the fraction lies in, and the sequential table is 0.1 + 0.8 k / 100 *)
Theorem C14_table_cell f k : 0 <= f <= 1 ->
  (let i := qtrunc (100 * f) in (0 <= i <= 100)%Z /\ qz i <= 100 * f < qz i + 1) /\
  grid k == (1#10) + (8#10) * (qz (Z.of_nat k) / 100).
Proof. intros H. exact (conj (conj (index_range f H) (index_is_cell f H)) (grid_value k)). Qed.
Print Assumptions C14_table_cell.

(* Every request - any flags, budget, counts, random choices - gets a well-formed multimetric_info. *)
Theorem C14_schedule_spec rp thr b c f o pick us halton : halton_ok halton = true -> draws_ok us ->
  exists i, view_info rp thr b c f o pick us halton = Some i /\ info_ok i.
Proof. exact (schedule_spec rp thr b c f o pick us halton). Qed.
Print Assumptions C14_schedule_spec.

(* the decidable specification evaluated on the implementation's outputs is the statement above *)
Theorem C14_info_ok_decidable i : info_ok_b i = true <-> info_ok i.
Proof. exact (info_ok_b_spec i). Qed.
Print Assumptions C14_info_ok_decidable.

(* ---- the request-level wiring: which threshold entries decide the schedule ---------------------------------------- *)
(* MetricsInfo.has_optimized_metric_thresholds: with thresholds stored per metric column and the optimised metrics in any
   columns (in range), the flag is "some OPTIMISED metric column carries a threshold". *)
Theorem C14_threshold_flag_spec thr opt : in_range thr opt ->
  exists flag, has_optimized_metric_thresholds thr opt = Some flag /\
    (flag = true <-> exists i t, In i opt /\ nth_error thr i = Some (Some t)).
Proof. exact (has_thresholds_spec thr opt). Qed.
Print Assumptions C14_threshold_flag_spec.

(* Only the entries at the optimised columns are consulted: thresholds of constraint / stored metrics, and the order in
   which the optimised columns are listed, do not matter. *)
Theorem C14_threshold_flag_only_optimized_columns thr thr' opt opt' : in_range thr opt -> in_range thr' opt' ->
  (forall i, In i opt <-> In i opt') ->
  (forall i, In i opt -> (nth_error thr i = Some None <-> nth_error thr' i = Some None)) ->
  has_optimized_metric_thresholds thr opt = has_optimized_metric_thresholds thr' opt'.
Proof. exact (has_thresholds_only_optimized_columns thr thr' opt opt'). Qed.
Print Assumptions C14_threshold_flag_only_optimized_columns.

(* View.form_multimetric_info: the phase (and the multimetric_info) computed from a request is the phase selector applied
   to the documented flag, the budget, the number of observations, the number of reported failures and the number of open
   suggestions (0 when the request carries none). *)
Theorem C14_request_phase_documented r : in_range (rq_thresholds r) (rq_optimized r) ->
  exists flag, (flag = true <-> has_optimized_threshold (rq_thresholds r) (rq_optimized r)) /\
    request_phase r =
      Some (if rq_pareto r
            then mm_phase flag (rq_budget r) (Z.of_nat (length (rq_failures r))) (Z.of_nat (count_true (rq_failures r)))
                          (match rq_open r with Some k => Z.of_nat k | None => 0%Z end)
            else (LNotMM, None)) /\
    forall pick us halton,
      request_info r pick us halton =
      view_info (rq_pareto r) flag (rq_budget r) (Z.of_nat (length (rq_failures r))) (Z.of_nat (count_true (rq_failures r)))
                (match rq_open r with Some k => Z.of_nat k | None => 0%Z end) pick us halton.
Proof. exact (request_phase_documented r). Qed.
Print Assumptions C14_request_phase_documented.

Theorem C14_request_schedule_spec r pick us halton : in_range (rq_thresholds r) (rq_optimized r) ->
  halton_ok halton = true -> draws_ok us ->
  exists i, request_info r pick us halton = Some i /\ info_ok i.
Proof. exact (request_schedule_spec r pick us halton). Qed.
Print Assumptions C14_request_schedule_spec.

(* The boundary pair that depends on the flag: past 10 % completed, with the served fraction in (55 %, 65 %], a request
   polishes one metric exactly when no optimised column carries a threshold; otherwise it is in the epsilon phase. *)
Theorem C14_request_polish_window r : in_range (rq_thresholds r) (rq_optimized r) -> rq_pareto r = true ->
  let fs := fraction_served (rq_budget r) (rq_count r) (rq_failure_count r) (rq_open_count r) in
  let fc := fraction_completed (rq_budget r) (rq_count r) (rq_failure_count r) (rq_open_count r) in
  55#100 < fs <= 65#100 -> ~ fc <= 1#10 ->
  exists l kw, request_phase r = Some (l, kw) /\
    (has_optimized_threshold (rq_thresholds r) (rq_optimized r) -> (l = LEps0 \/ l = LEps1) /\ kw <> None) /\
    (~ has_optimized_threshold (rq_thresholds r) (rq_optimized r) -> (l = LOpt0 \/ l = LOpt1) /\ kw = None).
Proof. exact (request_polish_window r). Qed.
Print Assumptions C14_request_polish_window.

(* the decidable forms evaluated by the correspondence are the statements above *)
Theorem C14_request_decidable thr opt :
  (optimized_threshold_b thr opt = true <-> has_optimized_threshold thr opt) /\
  (columns_in_range thr opt = true <-> in_range thr opt).
Proof. exact (conj (optimized_threshold_b_spec thr opt) (columns_in_range_spec thr opt)). Qed.
Print Assumptions C14_request_decidable.

(* non-vacuity: metrics [constraint (threshold 0), optimised, optimised], budget 100, 60 observations, none failed, no open
   suggestions: served fraction 0.6, no optimised threshold -> polish one metric; a threshold on column 2 -> epsilon phase;
   the constraint metric's threshold in column 0 is not consulted *)
Example C14_request_example :
  let fails := repeat false 60 in
  request_phase (mkRequest true 100 [Some 0; None; None] [1; 2]%nat fails (Some 0%nat)) = Some (LOpt0, None) /\
  fst (mm_phase true 100 60 0 0) = LEps0 /\
  match request_phase (mkRequest true 100 [Some 0; None; Some (1#2)] [1; 2]%nat fails None) with
  | Some (LEps0, Some cf) => Qeq_bool cf (1#8) | _ => false end = true /\
  has_optimized_metric_thresholds [None; Some 1; None] [0; 2]%nat = Some false /\
  has_optimized_metric_thresholds [None; Some 1; None] [2; 1]%nat = Some true /\
  has_optimized_metric_thresholds [None] [1]%nat = None.
Proof. vm_compute. repeat split; reflexivity. Qed.

(* ---- filters: equally long outputs -------------------------------------------------------------------------- *)
Theorem C14_filter_gp_lengths info n pts vals vars fails lie : aligned n pts vals vars fails ->
  let o := filter_gp info pts vals vars fails lie in
  length (o_pts o) = arr_len (o_vals o) /\ arr_len (o_vals o) = arr_len (o_vars o) /\
  (match info with EpsC _ _ _ => (arr_len (o_vals o) <= n)%nat | _ => arr_len (o_vals o) = n end).
Proof. exact (filter_gp_lengths info n pts vals vars fails lie). Qed.
Print Assumptions C14_filter_gp_lengths.

Theorem C14_filter_spe_lengths info n pts vals fails lie : aligned n pts vals vals fails ->
  let o := filter_spe info pts vals fails lie in length (fst o) = n /\ length (snd o) = n.
Proof. exact (filter_spe_lengths info n pts vals fails lie). Qed.
Print Assumptions C14_filter_spe_lengths.

(* ---- filters: the right metric columns ---------------------------------------------------------------------- *)
Theorem C14_filter_gp_columns_plain info pts vals vars fails lie :
  match info with
  | Convex _ _ => filter_gp info pts vals vars fails lie = {| o_pts := pts; o_vals := A2 vals; o_vars := A2 vars; o_lie := A1 lie |}
  | OptOne om _ => filter_gp info pts vals vars fails lie =
                   {| o_pts := pts; o_vals := A1 (col om vals); o_vars := A1 (col om vars); o_lie := Sc (nth om lie 0) |}
  | NotMM => filter_gp info pts vals vars fails lie =
             {| o_pts := pts; o_vals := A1 (col 0 vals); o_vars := A1 (col 0 vars); o_lie := Sc (nth 0 lie 0) |}
  | EpsC _ _ _ => True
  end.
Proof. exact (filter_gp_columns_plain info pts vals vars fails lie). Qed.
Print Assumptions C14_filter_gp_columns_plain.

Theorem C14_filter_gp_columns_eps eps om cm n pts vals vars fails lie : aligned n pts vals vars fails ->
  let o := filter_gp (EpsC om cm eps) pts vals vars fails lie in
  let lab := pf_labelling eps om cm vals fails in
  let thr := eps_threshold eps cm vals fails in
  length lab = n /\
  combine (o_pts o) (combine (arr1 (o_vals o)) (arr1 (o_vars o))) =
    select (map negb lab) (combine pts (combine (col om vals) (col om vars))) /\
  o_lie o = Sc (nth om lie 0) /\
  (forall j, (j < n)%nat -> nth j lab false = true -> thr <= at_ vals j cm) /\
  (forall j, (j < n)%nat -> at_ vals j cm < thr -> nth j lab false = false) /\
  (Nat.min 5 n <= count_true (map negb lab))%nat /\
  (forall a b, (a < n)%nat -> thr <= at_ vals a cm -> nth a lab false = false -> nth b lab false = true ->
     at_ vals a om <= at_ vals b om).
Proof. exact (filter_gp_columns_eps eps om cm n pts vals vars fails lie). Qed.
Print Assumptions C14_filter_gp_columns_eps.

Theorem C14_filter_spe_columns_plain info n pts vals fails lie j : aligned n pts vals vals fails -> (j < n)%nat ->
  let o := filter_spe info pts vals fails lie in
  fst o = pts /\
  match info with
  | NotMM => nth j (snd o) 0 = if nth j fails false then nth 0 lie 0 else at_ vals j 0
  | OptOne om _ => nth j (snd o) 0 = if nth j fails false then nth om lie 0 else at_ vals j om
  | Convex w0 w1 => nth j (snd o) 0 = if nth j fails false then dot lie [w0; w1] else dot (nth j vals []) [w0; w1]
  | EpsC _ _ _ => True
  end.
Proof. exact (filter_spe_columns_plain info n pts vals fails lie j). Qed.
Print Assumptions C14_filter_spe_columns_plain.

Theorem C14_weighted_sum a b w0 w1 : dot [a; b] [w0; w1] == w0 * a + w1 * b.
Proof. exact (dot2 a b w0 w1). Qed.
Print Assumptions C14_weighted_sum.

Theorem C14_filter_spe_columns_eps eps om cm n pts vals fails lie : aligned n pts vals vals fails ->
  let o := filter_spe (EpsC om cm eps) pts vals fails lie in
  let lab := eps_labelling eps om cm vals fails in
  let thr := eps_threshold eps cm vals fails in
  fst o = pts /\ length lab = n /\
  (forall j, (j < n)%nat -> nth j (snd o) 0 = if nth j lab false then nth om lie 0 else at_ vals j om) /\
  (forall j, (j < n)%nat -> nth j lab false = true -> nth j fails false = true \/ thr <= at_ vals j cm) /\
  (Nat.min 5 n <= count_true (map negb lab))%nat.
Proof. exact (filter_spe_columns_eps eps om cm n pts vals fails lie). Qed.
Print Assumptions C14_filter_spe_columns_eps.

(* ---- SPE failure augmentation ------------------------------------------------------------------------------- *)
Theorem C14_exceeds_spec vals thr j : (j < length vals)%nat ->
  (nth j (exceeds vals thr) false = true <->
   exists i t, nth_error thr i = Some (Some t) /\ t <= at_ vals j i).
Proof. exact (exceeds_spec vals thr j). Qed.
Print Assumptions C14_exceeds_spec.

Theorem C14_spe_augmentation_spec rp hc obs af_vals opt_thr pf_vals con_thr :
  length af_vals = length obs -> length pf_vals = length obs ->
  let out := augment rp hc obs af_vals opt_thr pf_vals con_thr in
  let bv := if rp then exceeds af_vals opt_thr else repeat false (length obs) in
  let cv := if hc then exceeds pf_vals con_thr else repeat false (length obs) in
  length out = length obs /\
  (forall j, nth j obs false = true -> nth j out false = true) /\
  (forall j, nth j out false = true -> nth j obs false = true \/ nth j bv false = true \/ nth j cv false = true) /\
  (out = obs \/
   (out = or3 obs bv cv /\ (5 <= count_true (map negb out))%nat /\ (1 <= count_true (map negb bv))%nat)).
Proof. exact (spe_augmentation_spec rp hc obs af_vals opt_thr pf_vals con_thr). Qed.
Print Assumptions C14_spe_augmentation_spec.

(* non-vacuity: budget 100, 40 observations -> random-spread phase two thirds done; a Halton table meeting its contract;
   the epsilon filter on six rows labels three rows at or above the threshold and the minimum rule restores the two
   with the lowest optimising value, so one row is removed *)
Example C14_example :
  match mm_phase false 100 40 0 0 with (LRandom, Some cf) => Qeq_bool cf (2#3) | _ => false end = true /\
  fst (mm_phase true 60 37 0 0) = LEps1 /\ fst (mm_phase false 10 3 7 0) = LCompletion /\
  halton_ok (repeat (1#2) 101) = true /\
  match view_info true false 100 50 0 0 false [1#2] (repeat (1#3) 101) with
  | Some (Convex w0 w1) => Qeq_bool w0 (5#10) && Qeq_bool w1 (5#10) | _ => false end = true /\
  match view_info true false 100 40 0 0 false [1#2] (repeat (1#3) 101) with
  | Some (Convex w0 w1) => Qeq_bool w0 (1#3) && Qeq_bool w1 (2#3) | _ => false end = true /\
  match view_info true false 100 80 0 0 false [1#2] (repeat (1#2) 101) with
  | Some (EpsC 0 1 e) => Qeq_bool e (1#2) | _ => false end = true /\
  fst (spe_phase 100 40 10) = PSko /\
  arr_eqb (o_vals (filter_gp (EpsC 0 1 (1#2)) [[0];[1];[2];[3];[4];[5]] [[5;0];[4;1];[3;2];[2;3];[1;4];[0;5]]
            [[1;1];[1;1];[1;1];[1;1];[1;1];[1;1]] [false;false;false;false;false;false] [9;9])) (A1 [5;4;3;1;0]) = true /\
  qlist_eqb (snd (filter_spe (Convex (1#4) (3#4)) [[0];[1]] [[4;8];[8;4]] [false;true] [16;16])) [7; 16] = true.
Proof. vm_compute. repeat split; reflexivity. Qed.
