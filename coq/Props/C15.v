(* C15 — pending-point bookkeeping and request data stay consistent over any history.
   Statements, each closed by `exact` of a lemma of Proofs/ and followed by Print Assumptions; the examples are concrete instances.  Model: LV.Model.Lies.
   Aliasing clauses ("leave the caller's acquisition function, models and request data unchanged") cannot be stated
   about a pure model; they are decided by the deep comparisons of tools/props/C15.py on every run. *)
From Coq Require Import List Qabs.
From LV Require Import Model.Lies Proofs.Lies.
Import ListNotations.
Open Scope Q_scope.

(* One append to a GP, from any consistent state: the data grow by exactly the lie block - the given locations, each
   carrying the worst observed value of that moment (max for constant_liar_min, min for constant_liar_max, the mean
   for constant_liar_mean) and the lie noise; the memoised best index is dropped. *)
Theorem C15_gp_append_carries_worst g locs m : hist_wf (g_hist g) -> dims_ok (h_dim (g_hist g)) locs ->
  exists v, worst m (h_vals (g_hist g)) v /\
    let g' := fst (gp_append g locs m) in
    snd (gp_append g locs m) = None /\ g_best g' = None /\
    h_dim (g_hist g') = h_dim (g_hist g) /\
    h_pts (g_hist g') = h_pts (g_hist g) ++ locs /\
    h_vals (g_hist g') = h_vals (g_hist g) ++ repeat v (length locs) /\
    h_noise (g_hist g') = h_noise (g_hist g) ++ repeat lie_noise (length locs).
Proof. exact (gp_append_spec g locs m). Qed.
Print Assumptions C15_gp_append_carries_worst.

(* Any history of appends, accessor reads and predictions keeps points, values and noise of equal length (and
   non-empty, with a consistent best-index memo); the accessors called in between are irrelevant to the data. *)
Theorem C15_gp_lie_invariant g0 ops : gp_wf g0 -> Forall (gop_ok (h_dim (g_hist g0))) ops ->
  let g := run gp_step g0 ops in
  (length (h_vals (g_hist g)) = length (h_pts (g_hist g)) /\ length (h_noise (g_hist g)) = length (h_pts (g_hist g)) /\
   h_vals (g_hist g) <> []) /\
  g_hist g = g_hist (run gp_step g0 (filter is_gappend ops)) /\
  (* every accessor reports the data as they are now; best_observed_value is a minimum of the current values *)
  snd (gp_step g GNum) = ONat (length (h_pts (g_hist g))) /\
  snd (gp_step g GPts) = OPts (h_pts (g_hist g)) /\
  snd (gp_step g GVals) = OVec (h_vals (g_hist g)) /\
  snd (gp_step g GNoise) = OVec (h_noise (g_hist g)) /\
  exists v, snd (gp_step g GBest) = OVal v /\ In v (h_vals (g_hist g)) /\ forall y, In y (h_vals (g_hist g)) -> v <= y.
Proof. exact (gp_lie_invariant g0 ops). Qed.
Print Assumptions C15_gp_lie_invariant.

(* With the library's lie method (constant_liar_min): after any history the data are the initial data followed by every
   appended location in order, all carrying the maximum of the initial values, with the lie noise. *)
Theorem C15_gp_history_closed_form g0 ops w : gp_wf g0 -> Forall (gop_ok (h_dim (g_hist g0))) ops -> Forall only_liemin ops ->
  lie_value LieMin (h_vals (g_hist g0)) = Some w ->
  let g := run gp_step g0 ops in let k := length (appended ops) in
  h_pts (g_hist g) = h_pts (g_hist g0) ++ appended ops /\
  h_vals (g_hist g) = h_vals (g_hist g0) ++ repeat w k /\
  h_noise (g_hist g) = h_noise (g_hist g0) ++ repeat lie_noise k.
Proof. exact (fun _ => gp_liemin_closed_form ops g0 w). Qed.
Print Assumptions C15_gp_history_closed_form.

(* Sum of GPs: after any history every read returns the weighted sums (weights w for values, w^2 for noise) over the
   components' CURRENT data, of the current length; each component went through the same appends. *)
Theorem C15_gpsum_fresh_reads ops d s0 : sum_wf d s0 -> c_vals s0 = None -> c_noise s0 = None -> c_best s0 = None ->
  Forall (sop_ok d) ops ->
  let s := run (s_step true) s0 ops in
  snd (s_step true s SNum) = ONat (s_num s) /\
  snd (s_step true s SVals) = OVec (fresh_vals s) /\
  snd (s_step true s SNoise) = OVec (fresh_noise s) /\
  (exists v, snd (s_step true s SBest) = OVal v /\ In v (fresh_vals s) /\ forall y, In y (fresh_vals s) -> v <= y) /\
  length (fresh_vals s) = s_num s /\ length (fresh_noise s) = s_num s /\
  (forall i, (i < s_num s)%nat ->
     nth i (fresh_vals s) 0 == dot i (combine (s_weights s0) (map (fun g => h_vals (g_hist g)) (s_comps s))) /\
     nth i (fresh_noise s) 0 == dot i (combine (map (fun w => w * w) (s_weights s0)) (map (fun g => h_noise (g_hist g)) (s_comps s)))) /\
  s_comps s = map (fun g => run gp_step g (map sop_gop ops)) (s_comps s0).
Proof. exact (gpsum_reads ops d s0). Qed.
Print Assumptions C15_gpsum_fresh_reads.

(* Documentation of the repaired defect: the same machine without the cache reset in append_lie_data (the code before
   commit 1aeae01) violates the statement on [read values; append; read values]. *)
Theorem C15_gpsum_refuted_without_reset : ~ reads_fresh false.
Proof. exact gpsum_fresh_reads_refuted_without_reset. Qed.
Print Assumptions C15_gpsum_refuted_without_reset.

(* Parzen estimator: any interleaving of append, clear, stash and recover leaves exactly base points ++ current lies. *)
Theorem C15_parzen_lie_invariant ops s0 : p_lower_lies s0 = [] -> p_greater_lies s0 = [] -> Forall (pop_ok (p_dim s0)) ops ->
  let s := run pz_step s0 ops in
  p_lower s = p_lower s0 ++ p_lower_lies s /\ p_greater s = p_greater s0 ++ p_greater_lies s.
Proof. exact (parzen_lie_invariant ops s0). Qed.
Print Assumptions C15_parzen_lie_invariant.

(* ... and what "the current lies" are after each operation. *)
Theorem C15_parzen_lies_semantics blo bgr s : pz_inv blo bgr s ->
  (forall lies lower, dims_ok (p_dim s) lies ->
     let s' := fst (pz_step s (PAppend lies lower)) in
     p_lower_lies s' = (if lower then p_lower_lies s ++ lies else p_lower_lies s) /\
     p_greater_lies s' = (if lower then p_greater_lies s else p_greater_lies s ++ lies)) /\
  (p_lower_lies (fst (pz_step s PClear)) = [] /\ p_greater_lies (fst (pz_step s PClear)) = []) /\
  (pz_step s PStash = (s, OStash (p_lower_lies s) (p_greater_lies s))) /\
  (forall lo gr, dims_ok (p_dim s) lo -> dims_ok (p_dim s) gr ->
     let s' := fst (pz_step s (PRecover lo gr)) in
     p_lower_lies s' = lo /\ p_greater_lies s' = gr /\ p_lower s' = blo ++ lo /\ p_greater s' = bgr ++ gr).
Proof. exact (parzen_lies_semantics blo bgr s). Qed.
Print Assumptions C15_parzen_lies_semantics.

(* Stash, then anything valid, then recover: lies and point sets are those of the stash moment. *)
Theorem C15_recover_restores blo bgr s ops : pz_inv blo bgr s -> Forall (pop_ok (p_dim s)) ops ->
  let s' := fst (pz_step (run pz_step s ops) (PRecover (p_lower_lies s) (p_greater_lies s))) in
  p_lower_lies s' = p_lower_lies s /\ p_greater_lies s' = p_greater_lies s /\ p_lower s' = p_lower s /\ p_greater s' = p_greater s.
Proof. exact (recover_restores blo bgr s ops). Qed.
Print Assumptions C15_recover_restores.

(* Constant liar, any optimiser, any predictor type: pick i is the optimiser's answer on the copy after lies at picks 0..i-1. *)
Theorem C15_constant_liar_conditions_on_previous {St} (append1 : St -> point -> St) (pick : St -> point) n s :
  length (fst (cl_loop append1 pick n s)) = n /\ length (snd (cl_loop append1 pick n s)) = n /\
  forall i, (i < n)%nat ->
    let si := fold_left append1 (firstn i (fst (cl_loop append1 pick n s))) s in
    nth_error (snd (cl_loop append1 pick n s)) i = Some si /\ nth_error (fst (cl_loop append1 pick n s)) i = Some (pick si).
Proof. exact (cl_loop_spec append1 pick n s). Qed.
Print Assumptions C15_constant_liar_conditions_on_previous.

(* ... and for a GP predictor those lies sit at the previous picks with the maximum observed value and the lie noise. *)
Theorem C15_constant_liar_gp (pick : gp -> point) n g0 w : gp_wf g0 -> lie_value LieMin (h_vals (g_hist g0)) = Some w ->
  (forall g, length (pick g) = h_dim (g_hist g0)) ->
  let picks := fst (cl_loop gp_append1 pick n g0) in let seen := snd (cl_loop gp_append1 pick n g0) in
  length picks = n /\
  forall i, (i < n)%nat -> exists gi, nth_error seen i = Some gi /\ nth_error picks i = Some (pick gi) /\
    h_pts (g_hist gi) = h_pts (g_hist g0) ++ firstn i picks /\
    h_vals (g_hist gi) = h_vals (g_hist g0) ++ repeat w i /\
    h_noise (g_hist gi) = h_noise (g_hist g0) ++ repeat lie_noise i.
Proof. exact (fun _ => constant_liar_gp pick n g0 w). Qed.
Print Assumptions C15_constant_liar_gp.

(* ... and for the Parzen estimator (SPENextPoints.suggest_next_points_constant_liar), on an estimator in ANY consistent state -
   in particular one that already holds lies, the request's pending points: every pick is optimised against the caller's
   estimator (base points and the lies it held, untouched) plus lies at the previous picks of the batch, and the caller gets
   its estimator back exactly as it was - the batch's lies gone, the lies held before still there. *)
Theorem C15_parzen_constant_liar blo bgr (pick : pz -> point) n s :
  pz_inv blo bgr s -> (forall t, length (pick t) = p_dim s) ->
  let '(picks, seen, final) := pz_constant_liar pick n s in
  length picks = n /\
  (forall i, (i < n)%nat -> exists si, nth_error seen i = Some si /\ nth_error picks i = Some (pick si) /\
     p_dim si = p_dim s /\ p_lower si = p_lower s /\ p_lower_lies si = p_lower_lies s /\
     p_greater si = p_greater s ++ firstn i picks /\ p_greater_lies si = p_greater_lies s ++ firstn i picks) /\
  final = s.
Proof. exact (parzen_constant_liar blo bgr pick n s). Qed.
Print Assumptions C15_parzen_constant_liar.

(* Search: pick i is optimised with the previous picks (mapped to the search cube) among the repulsors and the i-th
   drawn distance value; the caller's acquisition function is handed back with its repulsors and distance value. *)
Theorem C15_search_picks_become_repulsors_and_state_restored to_cube pick draws n a : (n <= length draws)%nat ->
  let '(picks, seen, final) := search_loop to_cube pick draws n a in
  length picks = n /\
  (forall i, (i < n)%nat -> exists ai, nth_error seen i = Some ai /\ nth_error picks i = Some (pick ai) /\
     repulsors ai = repulsors a ++ map to_cube (firstn i picks) /\ dist_par ai = nth i (dist_par a :: draws) 0) /\
  final = a.
Proof. exact (search_picks_become_repulsors to_cube pick draws n a). Qed.
Print Assumptions C15_search_picks_become_repulsors_and_state_restored.

(* Endpoints.  GP endpoint, for every GP of the acquisition function's predictor, every history, pending set and all four
   combinations of parallelism and multitask: the optimiser is handed a model whose data END WITH THE PENDING POINTS AS LIES (one
   value, the lie noise; the constant-liar optimiser runs), or parallel EI is handed EXACTLY THE PENDING POINTS AS ITS PENDING SET
   over the data as built.  Which of the two, and which lie value:
     constant liar (single task or multitask)  lies with the lie value the view supplies (worst non-failed value of the request);
     qEI, single task, something pending        pending set of parallel EI;
     qEI, multitask, something pending          lies appended by append_lie_locations before the optimiser runs (the repair of
                                                the defect `qEI + multitask drops the pending points`): the lie value is the worst
                                                (maximal) value of the model's OWN data, the view's lie value is not used.
   The Parzen model receives them as lies of the greater set; search as repulsors. *)
Theorem C15_pending_points_fed :
  (forall par mt h pending lie, hist_wf h -> dims_ok (h_dim h) pending ->
     exists f, feed_gp par mt h pending lie = inl f /\ pending_fed h pending f) /\
  (forall mt h pending lie, dims_ok (h_dim h) pending ->
     exists f, feed_gp ConstantLiar mt h pending lie = inl f /\ fed_as_lies h pending lie f) /\
  (forall h pending lie, pending <> [] ->
     exists f, feed_gp QEI false h pending lie = inl f /\ fed_as_pending_set h pending f) /\
  (forall h pending lie, hist_wf h -> dims_ok (h_dim h) pending -> pending <> [] ->
     exists v f, worst LieMin (h_vals h) v /\ feed_gp QEI true h pending lie = inl f /\ fed_as_lies h pending v f) /\
  (forall s pending, dims_ok (p_dim s) pending ->
     let s' := fst (feed_parzen s pending) in
     snd (feed_parzen s pending) = None /\ p_greater s' = p_greater s ++ pending /\
     p_greater_lies s' = p_greater_lies s ++ pending /\ p_lower s' = p_lower s /\ p_lower_lies s' = p_lower_lies s) /\
  (forall to_cube sampled pending d,
     repulsors (feed_search to_cube sampled pending d) = map to_cube sampled ++ map to_cube pending).
Proof. exact pending_points_fed. Qed.
Print Assumptions C15_pending_points_fed.

(* The Parzen endpoint beyond the moment of feeding (create_spe_suggestions, then draw_samples): the optimiser that finds
   max_location runs against the formed estimator plus the pending points as lies, and the estimator on which max_value and
   every expected-improvement evaluation of the rejection sampler are computed afterwards is that same state - the
   constant-liar pick inside draw_samples does not cost the model its pending points. *)
Theorem C15_parzen_endpoint_keeps_pending blo bgr (pick : pz -> point) s pending :
  pz_inv blo bgr s -> dims_ok (p_dim s) pending -> (forall t, length (pick t) = p_dim s) ->
  exists seen, spe_sampling pick s pending = inl (pick seen, seen, seen) /\ seen = fst (feed_parzen s pending) /\
    p_greater seen = p_greater s ++ pending /\ p_greater_lies seen = p_greater_lies s ++ pending /\
    p_lower seen = p_lower s /\ p_lower_lies seen = p_lower_lies s.
Proof. exact (spe_sampling_keeps_pending blo bgr pick s pending). Qed.
Print Assumptions C15_parzen_endpoint_keeps_pending.

(* The meaning of the three predicates above, unfolded (so that the statement can be read without Proofs/Lies.v). *)
Theorem C15_pending_fed_meaning h pending f :
  pending_fed h pending f <->
  ((exists v, f_use_qei f = false /\ f_pending_set f = [] /\ h_dim (f_hist f) = h_dim h /\
      h_pts (f_hist f) = h_pts h ++ pending /\
      h_vals (f_hist f) = h_vals h ++ repeat v (length pending) /\
      h_noise (f_hist f) = h_noise h ++ repeat lie_noise (length pending))
   \/ (f_use_qei f = true /\ f_pending_set f = pending /\ f_hist f = h)).
Proof. exact (iff_refl _). Qed.
Print Assumptions C15_pending_fed_meaning.

(* The GPs under the failure model (constraint metrics, epsilon-constraint thresholds) are built by the same
   form_single_gaussian_process: lies with the view's lie value under constant liar; under qEI they stay as built (parallel EI with
   failures samples them at its pending set; in the multitask fall-back append_lie_locations reaches the predictor only, as it does
   for the picks inside the constant-liar loop). *)
Theorem C15_failure_model_gps :
  (forall h pending lie, dims_ok (h_dim h) pending ->
     exists h', feed_failure_gp ConstantLiar h pending lie = inl h' /\ h_dim h' = h_dim h /\
       h_pts h' = h_pts h ++ pending /\ h_vals h' = h_vals h ++ repeat lie (length pending) /\
       h_noise h' = h_noise h ++ repeat lie_noise (length pending)) /\
  (forall h pending lie, feed_failure_gp QEI h pending lie = inl h).
Proof. exact failure_gp_feed. Qed.
Print Assumptions C15_failure_model_gps.

(* non-vacuity: the hypotheses are satisfiable and the machines move *)
Example C15_example :
  let g0 := mkGp (mkHist 1 [[0]; [1]; [3]] [1; 4; 2] [1#2; 1#4; 1#8]) None in
  gp_wf g0 /\
  g_hist (run gp_step g0 [GBest; GAppend [[2]; [5]] LieMin; GVals; GAppend [[7]] LieMin]) =
    mkHist 1 [[0]; [1]; [3]; [2]; [5]; [7]] [1; 4; 2; 4; 4; 4] [1#2; 1#4; 1#8; lie_noise; lie_noise; lie_noise] /\
  snd (gp_step (run gp_step g0 [GBest; GAppend [[2]] LieMax]) GBest) = OVal 1 /\
  sum_wf 1 stale_witness /\
  (match snd (s_step true (run (s_step true) stale_witness [SVals; SBest; SAppend [[1#2]] LieMin]) SVals) with
   | OVec v => vec_eqb v [3#2; 5#2; 5#2] | _ => false end) = true /\
  p_greater (run pz_step (mkPz 1 [[0]] [[5]; [6]] [] []) [PAppend [[7]] false; PAppend [[8]] true; PClear; PRecover [[9]] [[7]]]) = [[5]; [6]; [7]] /\
  Qabs (lie_noise - (1 # 1000000000000)) < 1 # 10000000000000000000000000000 /\
  (* Parzen constant liar on an estimator holding a pending-point lie [7]: both picks see it, the second also the first pick; restored *)
  (let s := mkPz 1 [[0]] [[5]; [6]; [7]] [] [[7]] in
   pz_constant_liar (fun t => [inject_Z (Z.of_nat (length (p_greater t)))]) 2 s =
     ([[3]; [4]], [s; mkPz 1 [[0]] [[5]; [6]; [7]; [3]] [] [[7]; [3]]], s)) /\
  (* the input of the repaired defect (qEI, multitask, one pending point; the view's lie value 7 is NOT what is appended) *)
  feed_gp QEI true (mkHist 2 [[0; 1]; [1; 1#4]] [1; 2] [0; 0]) [[5#2; 1]] 7 =
    inl (mkFeed (mkHist 2 [[0; 1]; [1; 1#4]; [5#2; 1]] [1; 2; 2] [0; 0; lie_noise]) [] false).
Proof.
  cbv zeta. split; [|split; [|split; [|split; [|split; [|split; [|split; [|split]]]]]]]; try (vm_compute; reflexivity).
  - unfold gp_wf, hist_wf, gp_cache_ok. cbn. repeat split; try discriminate. left. reflexivity.
  - exact stale_witness_wf.
Qed.
