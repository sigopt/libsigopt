(* C16 — the Parzen-estimator model splits and scores data as specified.
   Statements, each closed by `exact` of a lemma of Proofs/ and followed by Print Assumptions; the examples are concrete instances.  Model: LV.Model.ParzenSplit. *)
From Coq Require Import List QArith Permutation Qround.
From LV Require Import Model.ParzenSplit Model.ParzenSplitCorr Proofs.ParzenSplit.
Import ListNotations.
Open Scope Q_scope.

(* Split: for every observation set (ties, duplicates), gamma, forget factor >= 0 and EVERY permutation numpy.argsort may
   return (contract: a permutation of the kept indices under which the values are non-decreasing), a constructed
   estimator has |lower| = s = max(int(gamma m), 3) >= 3, |greater| = m - s >= 1 with m = n - int(forget n) >= 10 the
   number of unforgotten points, lower ++ greater is a rearrangement of the kept observations, and every lower value
   is <= every greater value (reading of 7.0: any size-s sub-multiset of lowest values). *)
Theorem C16_split_spec gamma forget pts vals perm lower greater :
  0 <= forget -> length vals = length pts ->
  form_model gamma forget pts vals perm = Ok (lower, greater) ->
  let zm := unforgotten forget (length pts) in
  let m := Z.to_nat zm in
  let s := Z.to_nat (lower_size gamma zm) in
  sorting_perm_b (firstn m vals) perm = true ->
  length lower = s /\ length greater = (m - s)%nat /\ (3 <= s)%nat /\ (s < m)%nat /\ (10 <= m <= length pts)%nat /\
  Permutation (lower ++ greater) (kept_obs m pts vals) /\
  (forall a b, In a lower -> In b greater -> snd a <= snd b).
Proof. exact (split_spec gamma forget pts vals perm lower greater). Qed.
Print Assumptions C16_split_spec.

(* int() is floor here: s = max(floor(gamma m), 3) and m = n - floor(forget n). *)
Theorem C16_split_sizes_floor gamma forget n :
  0 <= gamma -> 0 <= forget -> (0 <= unforgotten forget n)%Z ->
  unforgotten forget n = (Z.of_nat n - Qfloor (forget * inject_Z (Z.of_nat n)))%Z /\
  lower_size gamma (unforgotten forget n) = Z.max (Qfloor (inject_Z (unforgotten forget n) * gamma)) 3.
Proof.
  exact (fun Hg Hf Hm => conj (unforgotten_floor forget n Hf) (lower_size_floor gamma (unforgotten forget n) Hg Hm)).
Qed.
Print Assumptions C16_split_sizes_floor.

(* The insufficient-data error is raised exactly when that split is impossible: fewer than ten unforgotten points, or
   the lower set would leave no greater point (s > m - 1). *)
Theorem C16_split_errors gamma forget pts vals perm :
  let zm := unforgotten forget (length pts) in
  form_model gamma forget pts vals perm = ErrInsufficientData <-> (zm < 10 \/ zm - 1 < lower_size gamma zm)%Z.
Proof. exact (split_error_iff gamma forget pts vals perm). Qed.
Print Assumptions C16_split_errors.

(* Greater density: the mean of the kernel values over the set (d n = sum), 0 <= d <= alpha. *)
Theorem C16_density_nonneg krow alpha : krow <> [] -> (forall x, In x krow -> 0 <= x <= alpha) ->
  exists d, greater_density krow = Some d /\ d * qlen krow == qsum krow /\ 0 <= d <= alpha.
Proof. exact (density_nonneg krow alpha). Qed.
Print Assumptions C16_density_nonneg.

(* Lower density: the same mean plus the 1e-10 floor, hence >= 1e-10 > 0. *)
Theorem C16_lower_floor krow alpha : krow <> [] -> (forall x, In x krow -> 0 <= x <= alpha) ->
  exists d, lower_density krow = Some (d + SPE_MINIMUM_LOWER_DENSITY_VALUE) /\ greater_density krow = Some d /\
            d * qlen krow == qsum krow /\
            SPE_MINIMUM_LOWER_DENSITY_VALUE <= d + SPE_MINIMUM_LOWER_DENSITY_VALUE /\
            0 < d + SPE_MINIMUM_LOWER_DENSITY_VALUE <= alpha + SPE_MINIMUM_LOWER_DENSITY_VALUE.
Proof. exact (lower_floor krow alpha). Qed.
Print Assumptions C16_lower_floor.

(* Ratio: defined, equal to 1 / (gamma + (1 - gamma) g / l), and in (0, 1/gamma]. *)
Theorem C16_ratio_formula_and_range gamma l g : 0 < gamma -> gamma < 1 -> 0 < l -> 0 <= g ->
  exists r, ratio gamma l g = Some r /\ r == 1 / (gamma + (1 - gamma) * (g / l)) /\ 0 < r /\ r <= 1 / gamma.
Proof. exact (ratio_spec gamma l g). Qed.
Print Assumptions C16_ratio_formula_and_range.

(* evaluate_expected_improvement on non-empty sets, for all kernel values in [0, alpha]. *)
Theorem C16_expected_improvement gamma alpha klow kgre : 0 < gamma -> gamma < 1 -> klow <> [] -> kgre <> [] ->
  (forall x, In x klow -> 0 <= x <= alpha) -> (forall x, In x kgre -> 0 <= x <= alpha) ->
  exists l g r, expected_improvement gamma klow kgre = Some (l, g, r) /\
    lower_density klow = Some l /\ greater_density kgre = Some g /\
    0 < l /\ 0 <= g /\
    r == 1 / (gamma + (1 - gamma) * (g / l)) /\ 0 < r /\ r <= 1 / gamma.
Proof. exact (ei_spec gamma alpha klow kgre). Qed.
Print Assumptions C16_expected_improvement.

(* Every estimator the constructor builds satisfies the whole ratio clause (both sets are non-empty). *)
Theorem C16_constructor_ratio_clause gamma forget pts vals perm lower greater :
  0 < gamma -> gamma < 1 -> 0 <= forget -> length vals = length pts ->
  form_model gamma forget pts vals perm = Ok (lower, greater) ->
  sorting_perm_b (firstn (Z.to_nat (unforgotten forget (length pts))) vals) perm = true ->
  ratio_clause gamma (map fst lower) (map fst greater).
Proof. exact (constructor_ratio_clause gamma forget pts vals perm lower greater). Qed.
Print Assumptions C16_constructor_ratio_clause.

(* Lies: a lie at p adds the entry k(p,p) = alpha >= every entry to the kernel row at p; the density there does not go
   down (and stays <= alpha) - one lie, any number of lies, greater or lower set. *)
Theorem C16_lie_raises_density krow alpha j d d' : krow <> [] -> (forall x, In x krow -> x <= alpha) ->
  qmean krow = Some d -> qmean (append_lie_entries krow (repeat alpha j)) = Some d' -> d <= d' /\ d' <= alpha.
Proof. exact (lies_raise_density krow alpha j d d'). Qed.
Print Assumptions C16_lie_raises_density.

Theorem C16_lie_raises_lower_density krow alpha l l' : krow <> [] -> (forall x, In x krow -> x <= alpha) ->
  lower_density krow = Some l -> lower_density (append_lie_entries krow [alpha]) = Some l' -> l <= l'.
Proof. exact (lie_raises_lower_density krow alpha l l'). Qed.
Print Assumptions C16_lie_raises_lower_density.

(* ... and a larger greater density never raises the improvement ratio. *)
Theorem C16_ratio_antitone_in_greater gamma l g g' r r' : 0 < gamma -> gamma < 1 -> 0 < l -> 0 <= g -> g <= g' ->
  ratio gamma l g = Some r -> ratio gamma l g' = Some r' -> r' <= r.
Proof. exact (ratio_antitone_in_greater gamma l g g' r r'). Qed.
Print Assumptions C16_ratio_antitone_in_greater.

(* Bandwidths: whatever the point spread (NaN from an empty set included), the covariance built by
   form_one_hot_covariance has 1 + one_hot_dim hyperparameters, all finite and > 0 (fallback included). *)
Theorem C16_bandwidths_valid numerical cat_ls factor stds :
  let h := one_hot_covariance numerical cat_ls factor stds in
  length h = S (length stds) /\ forall x, In x h -> exists q, x = Some q /\ 0 < q.
Proof. exact (bandwidths_valid numerical cat_ls factor stds). Qed.
Print Assumptions C16_bandwidths_valid.

(* With finite spreads the fallback is not taken and numerical bandwidths are factor^2 (std + 1e-8) / 2. *)
Theorem C16_bandwidths_from_spread numerical c factor stds :
  0 < factor -> 0 < c -> (forall s, In s stds -> exists q, s = Some q /\ 0 <= q) ->
  one_hot_covariance numerical (Some c) factor stds =
    raw_hyperparameters numerical (Some c) (map (bandwidth_sq factor) stds) /\
  forall s q, In s stds -> s = Some q ->
    exists b, bandwidth_sq factor s = Some b /\ b == factor * factor * ((q + STD_EPSILON_HACK) / 2) /\ 0 < b.
Proof. exact (bandwidths_from_spread numerical c factor stds). Qed.
Print Assumptions C16_bandwidths_from_spread.

(* Search variant (form_sigopt_parzen_estimator_for_search after the repair "fix: SPE search forces the threshold split only
   when some observation violates a threshold").  Membership clause, in full: whenever at least one observation violates a
   threshold (is not strictly below some non-NaN scaled upper threshold) and more observations satisfy the thresholds than the
   space has dimensions, lower = exactly the satisfiers, greater = exactly the violators, both non-empty, and
   gamma = #violators / n lies in (0, 1). *)
Theorem C16_search_split dim (pts : list point) thr pf dflt :
  length pf = length pts ->
  let viol := violations thr pf in
  (0 < count_true viol)%nat ->
  (dim < length pts - count_true viol)%nat ->
  exists lower greater gamma,
    search_split dim pts viol dflt = (lower, greater, gamma) /\
    Permutation (lower ++ greater) pts /\
    length greater = count_true viol /\ length lower = (length pts - count_true viol)%nat /\
    (forall x, In x lower <-> exists i, (i < length pts)%nat /\ within thr (nth i pf []) = true /\ nth i pts [] = x) /\
    (forall x, In x greater <-> exists i, (i < length pts)%nat /\ within thr (nth i pf []) = false /\ nth i pts [] = x) /\
    gamma == inject_Z (Z.of_nat (count_true viol)) / inject_Z (Z.of_nat (length pts)) /\
    0 < gamma /\ gamma < 1 /\ lower <> [] /\ greater <> [].
Proof. exact (search_split_spec dim pts thr pf dflt). Qed.
Print Assumptions C16_search_split.

(* Otherwise - no violator at all, or the satisfiers do not outnumber the dimension - the constructor's split and gamma stay. *)
Theorem C16_search_split_default dim (pts : list point) viol dflt :
  (count_true viol = 0 \/ ~ (dim < length pts - count_true viol))%nat -> search_split dim pts viol dflt = dflt.
Proof. exact (search_split_default dim pts viol dflt). Qed.
Print Assumptions C16_search_split_default.

(* The threshold split, whenever it is forced, satisfies the ratio clause. *)
Theorem C16_search_ratio_clause_forced dim (pts : list point) thr pf dflt lower greater gamma :
  length pf = length pts ->
  (0 < count_true (violations thr pf))%nat ->
  (dim < length pts - count_true (violations thr pf))%nat ->
  search_split dim pts (violations thr pf) dflt = (lower, greater, gamma) ->
  0 < gamma /\ gamma < 1 /\ ratio_clause gamma lower greater.
Proof. exact (search_ratio_clause_forced dim pts thr pf dflt lower greater gamma). Qed.
Print Assumptions C16_search_ratio_clause_forced.

(* Companion, NO VIOLATOR.  With no violator the property's membership clause cannot hold literally: "lower = all satisfiers,
   greater = the violators" would make the greater set empty, and an empty set has no density (the mean over an empty axis is
   NaN; `expected_improvement gamma klow [] = None` in the model), so the density and ratio clauses of the same property would
   fail - this is what the code did before the repair (gamma = 0, NaN ratio, the endpoint died with an AssertionError).  The
   reading of DESIGN 11.5 therefore restricts the membership clause to requests with at least one violator, and the repaired
   view keeps the constructor's estimator here: gamma stays gamma0 (the view passes 0.2), the lower set holds the
   s = max(floor(gamma0 n), 3) observations with the lowest values of the chosen constraint metric, the greater set the
   n - s >= 1 others (for every permutation numpy.argsort may return), both densities are defined and the ratio lies in
   (0, 1/gamma0]. *)
Theorem C16_search_no_violator gamma0 dim pts vals perm thr pf lower greater gamma :
  0 < gamma0 -> gamma0 < 1 -> length vals = length pts ->
  count_true (violations thr pf) = 0%nat ->
  sorting_perm_b vals perm = true ->
  search_model gamma0 dim pts vals perm thr pf = Ok (lower, greater, gamma) ->
  gamma = gamma0 /\
  exists lo gr, form_model gamma0 0 pts vals perm = Ok (lo, gr) /\ lower = map fst lo /\ greater = map fst gr /\
    let n := length pts in
    let s := Z.to_nat (lower_size gamma0 (Z.of_nat n)) in
    Z.of_nat s = Z.max (Qfloor (inject_Z (Z.of_nat n) * gamma0)) 3 /\
    length lower = s /\ length greater = (n - s)%nat /\ (3 <= s)%nat /\ (s < n)%nat /\ (10 <= n)%nat /\
    Permutation (lo ++ gr) (combine pts vals) /\
    (forall a b, In a lo -> In b gr -> snd a <= snd b) /\
    ratio_clause gamma lower greater.
Proof. exact (search_model_no_violator gamma0 dim pts vals perm thr pf lower greater gamma). Qed.
Print Assumptions C16_search_no_violator.

(* Hence EVERY estimator the search view builds (threshold split or constructor's split; any thresholds, NaN thresholds
   included; any sorting permutation) has gamma in (0, 1), two non-empty sets, and satisfies the whole ratio clause: no
   hypothesis about violators is left (before the repair this was `_partial`, with a `_refuted` sibling for gamma = 0). *)
Theorem C16_search_ratio_clause gamma0 dim pts vals perm thr pf lower greater gamma :
  0 < gamma0 -> gamma0 < 1 -> length vals = length pts -> length pf = length pts ->
  sorting_perm_b vals perm = true ->
  search_model gamma0 dim pts vals perm thr pf = Ok (lower, greater, gamma) ->
  0 < gamma /\ gamma < 1 /\ lower <> [] /\ greater <> [] /\ ratio_clause gamma lower greater.
Proof. exact (search_model_ratio_clause gamma0 dim pts vals perm thr pf lower greater gamma). Qed.
Print Assumptions C16_search_ratio_clause.

(* non-vacuity of the three search cases (ten 1-d observations 0..9 with values 0..9; the first instance is the request on
   which the view, before its repair, produced gamma = 0 and a NaN ratio) *)
Example C16_search_example :
  let rows a n := map (fun k => [inject_Z (Z.of_nat k)]) (seq a n) in
  sorting_perm_b search_witness_vals (seq 0 10) = true /\
  count_true (violations [Some 100] search_witness_pf) = 0%nat /\
  search_model (1 # 5) 1 search_witness_pts search_witness_vals (seq 0 10) [Some 100] search_witness_pf
    = Ok (rows 0 3, rows 3 7, 1 # 5)%nat /\
  count_true (violations [Some 8] search_witness_pf) = 2%nat /\
  search_model (1 # 5) 1 search_witness_pts search_witness_vals (seq 0 10) [Some 8] search_witness_pf
    = Ok (rows 0 8, rows 8 2, 2 # 10)%nat /\
  search_model (1 # 5) 9 search_witness_pts search_witness_vals (seq 0 10) [Some 8] search_witness_pf
    = Ok (rows 0 3, rows 3 7, 1 # 5)%nat /\
  (exists l g r, expected_improvement (1 # 5) [1; 1 # 2; 1 # 4] (repeat (1 # 8) 7) = Some (l, g, r) /\ 0 < r /\ r <= 5).
Proof.
  cbv zeta. repeat (split; [vm_compute; reflexivity|]).
  eexists _, _, _. split; [vm_compute; reflexivity|]. vm_compute. split; [reflexivity|discriminate].
Qed.

(* Tie: a split case accepted by the in-Coq correspondence check (with the argsort permutation NumPy returned) shows the
   implementation's lower_points / greater_points to be, row by row, the points of a model split for which everything in
   C16_split_spec holds. *)
Theorem C16_correspondence_split_sound gamma forget pts vals p lo gr :
  0 <= forget -> length vals = length pts ->
  split_case_ok gamma forget pts vals (Some p) (OOk lo gr) = true ->
  exists lower greater,
    form_model gamma forget pts vals p = Ok (lower, greater) /\
    Forall2 (Forall2 Qeq) (map fst lower) lo /\ Forall2 (Forall2 Qeq) (map fst greater) gr /\
    let m := Z.to_nat (unforgotten forget (length pts)) in
    let s := Z.to_nat (lower_size gamma (unforgotten forget (length pts))) in
    length lower = s /\ length greater = (m - s)%nat /\ (3 <= s)%nat /\ (s < m)%nat /\ (10 <= m <= length pts)%nat /\
    Permutation (lower ++ greater) (kept_obs m pts vals) /\
    (forall a b, In a lower -> In b greater -> snd a <= snd b).
Proof. exact (split_case_ok_sound gamma forget pts vals p lo gr). Qed.
Print Assumptions C16_correspondence_split_sound.

(* non-vacuity: 12 observations with ties and a duplicate point, gamma = 1/4, a sorting permutation that is not the stable
   one; densities, ratio and a lie on concrete kernel rows; bandwidths with a NaN spread *)
Example C16_example :
  let pts := map (fun k => [inject_Z k; 1]) [0; 1; 2; 3; 4; 5; 6; 7; 8; 9; 10; 10]%Z in
  let vals := [5; 3; 3; 9; 1; 3; 7; 8; 2; 6; 4; 3] in
  let perm := [4; 8; 11; 2; 1; 5; 10; 0; 9; 6; 7; 3]%nat in
  sorting_perm_b vals perm = true /\
  (exists lo gr, form_model (1 # 4) 0 pts vals perm = Ok (lo, gr) /\
     map snd lo = [1; 2; 3] /\ length gr = 9%nat /\ map fst lo = [[4; 1]; [8; 1]; [10; 1]]) /\
  form_model (1 # 4) 0 (firstn 9 pts) (firstn 9 vals) (seq 0 9) = ErrInsufficientData /\
  form_model (1 # 2) (1 # 4) pts vals perm = ErrInsufficientData /\
  (exists l g r, expected_improvement (1 # 4) [1; 1 # 2; 1 # 4] [1 # 8; 0] = Some (l, g, r) /\
     r == 1 / ((1 # 4) + (3 # 4) * (g / l)) /\ 0 < r /\ r <= 4) /\
  (exists d d', qmean [1 # 2; 1 # 4] = Some d /\ qmean (append_lie_entries [1 # 2; 1 # 4] [1]) = Some d' /\
     d == 3 # 8 /\ d' == 7 # 12) /\
  one_hot_covariance [1]%nat (Some (3 # 10)) 1 [None; None] = [Some 1; Some 1; Some 1].
Proof.
  cbv zeta. split; [vm_compute; reflexivity|]. split.
  { eexists _, _. split; [vm_compute; reflexivity|]. vm_compute. repeat split; reflexivity. }
  split; [vm_compute; reflexivity|]. split; [vm_compute; reflexivity|]. split.
  { eexists _, _, _. split; [vm_compute; reflexivity|]. vm_compute. repeat split; discriminate. }
  split; [|vm_compute; reflexivity].
  eexists _, _. split; [vm_compute; reflexivity|]. split; [vm_compute; reflexivity|]. vm_compute. split; reflexivity.
Qed.
