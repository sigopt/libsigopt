(* C16 over HISTORIES ("for all ... sequences of lies"): a live estimator object scores the data, the kernels and the gamma it
   holds at the moment it is asked.  Statements, each closed by `exact` of a lemma of Proofs/ and followed by Print Assumptions; the examples are concrete instances.
   Model: LV.Model.ParzenHist (lie bookkeeping = the state machine of LV.Model.Lies).  `kern` is any kernel function. *)
From Coq Require Import List QArith.
From LV Require Import Model.ParzenSplit Model.ParzenSplitCorr Model.ParzenHist Proofs.ParzenSplit Proofs.ParzenHist.
From LV Require Model.Lies Proofs.Lies.
Import ListNotations.
Open Scope Q_scope.

(* An evaluation (expected improvement, either density, the optimiser's objective) leaves the object as it was. *)
Theorem C16_history_eval_reads_only kern s o : is_eval o = true -> fst (hstep kern s o) = s.
Proof. exact (eval_reads_only kern s o). Qed.
Print Assumptions C16_history_eval_reads_only.

(* After ANY history on one object - lies told, withdrawn and replaced (append / clear / stash / recover), kernels replaced
   (update_covariances) or re-tuned in place, gamma / lower_points / greater_points assigned directly as the search view does,
   and any number of evaluations in between, at the same points or not - an evaluation returns exactly what a freshly built
   estimator returns whose sets, kernels and gamma are those the history's MUTATIONS leave (`mutations pre` = the history with
   every evaluation erased): densities and ratio are functions of the current content only. *)
Theorem C16_history_eval_is_fresh kern s pre o post : is_eval o = true ->
  let s' := hrun kern s (mutations pre) in
  nth (length pre) (htrace kern s (pre ++ o :: post)) HNone =
    fresh_out kern (e_gamma s') (e_hl s') (e_hg s') (e_lower s') (e_greater s') o.
Proof. exact (history_eval_is_fresh kern s pre o post). Qed.
Print Assumptions C16_history_eval_is_fresh.

Theorem C16_history_same_content_same_answers kern s1 s2 o : is_eval o = true ->
  e_gamma s1 = e_gamma s2 -> e_hl s1 = e_hl s2 -> e_hg s1 = e_hg s2 -> e_lower s1 = e_lower s2 -> e_greater s1 = e_greater s2 ->
  snd (hstep kern s1 o) = snd (hstep kern s2 o).
Proof. exact (same_content_same_answers kern s1 s2 o). Qed.
Print Assumptions C16_history_same_content_same_answers.

(* When nobody assigns the sets from outside, the set a density is taken over is, after any history, the constructor's set
   followed by exactly the lies outstanding now (C15's invariant carried through kernel / gamma changes and evaluations). *)
Theorem C16_history_sets_are_base_plus_lies kern s ops :
  Lies.p_lower_lies (e_pz s) = [] -> Lies.p_greater_lies (e_pz s) = [] ->
  forallb (fun o => negb (assigns_sets o)) ops = true ->
  Forall (fun o => match o with HLie p => Proofs.Lies.pop_ok (e_dim s) p | _ => True end) ops ->
  let s' := hrun kern s ops in
  e_lower s' = e_lower s ++ Lies.p_lower_lies (e_pz s') /\ e_greater s' = e_greater s ++ Lies.p_greater_lies (e_pz s').
Proof. exact (history_sets_are_base_plus_lies kern s ops). Qed.
Print Assumptions C16_history_sets_are_base_plus_lies.

(* A lie told at p to a live estimator does not lower the density it reports at p (kernel maximal at distance 0). *)
Theorem C16_history_lie_raises_greater_density kern s p d d' :
  length p = e_dim s -> e_greater s <> [] ->
  (forall z, In z (e_greater s) -> kern (e_hg s) p z <= kern (e_hg s) p p) ->
  let s' := fst (hstep kern s (HLie (Lies.PAppend [p] false))) in
  snd (hstep kern s (HGreaterDens [p])) = HDens [Some d] -> snd (hstep kern s' (HGreaterDens [p])) = HDens [Some d'] ->
  d <= d'.
Proof. exact (history_lie_raises_greater_density kern s p d d'). Qed.
Print Assumptions C16_history_lie_raises_greater_density.

Theorem C16_history_lie_raises_lower_density kern s p l l' :
  length p = e_dim s -> e_lower s <> [] ->
  (forall z, In z (e_lower s) -> kern (e_hl s) p z <= kern (e_hl s) p p) ->
  let s' := fst (hstep kern s (HLie (Lies.PAppend [p] true))) in
  snd (hstep kern s (HLowerDens [p])) = HDens [Some l] -> snd (hstep kern s' (HLowerDens [p])) = HDens [Some l'] ->
  l <= l'.
Proof. exact (history_lie_raises_lower_density kern s p l l'). Qed.
Print Assumptions C16_history_lie_raises_lower_density.

(* The whole ratio clause at any moment of a history: gamma in (0,1), both sets non-empty, kernel values in [0, alpha]. *)
Theorem C16_history_ratio_clause kern s x alpha :
  0 < e_gamma s -> e_gamma s < 1 -> e_lower s <> [] -> e_greater s <> [] ->
  (forall z, In z (e_lower s) -> 0 <= kern (e_hl s) x z <= alpha) ->
  (forall z, In z (e_greater s) -> 0 <= kern (e_hg s) x z <= alpha) ->
  exists l g r, snd (hstep kern s (HEval [x])) = HEI [Some (l, g, r)] /\
    fresh_lower kern (e_hl s) (e_lower s) x = Some l /\ fresh_greater kern (e_hg s) (e_greater s) x = Some g /\
    0 < l /\ 0 <= g /\ r == 1 / (e_gamma s + (1 - e_gamma s) * (g / l)) /\ 0 < r /\ r <= 1 / e_gamma s.
Proof. exact (history_ratio_clause kern s x alpha). Qed.
Print Assumptions C16_history_ratio_clause.

(* The rational kernel the correspondence runs the library with satisfies the kernel contracts used above. *)
Theorem C16_rational_kernel_contract alpha ls x z : 0 < alpha -> (forall l, In l ls -> 0 < l) ->
  0 < rkern (alpha :: ls) x z <= alpha /\ rkern (alpha :: ls) x x == alpha.
Proof. exact (rkern_contract alpha ls x z). Qed.
Print Assumptions C16_rational_kernel_contract.

(* non-vacuity: one object, 1-d, lower {0, 1}, greater {4, 6}; evaluate at 5; a lie at 2 is told, withdrawn and replaced by a
   lie at 5 (same set sizes); evaluate at 5 again; the greater kernel is re-tuned; gamma is assigned; evaluate at 5 again.
   The three answers differ, each is the fresh answer for the content of that moment, and the lie at 5 raised the density at 5. *)
Example C16_history_example :
  let s0 := mkEst (Lies.mkPz 1 [[0]; [1]] [[4]; [6]] [] []) (1 # 4) [1; 1] [1; 1] in
  let ops := [HEval [[5]]; HLie (Lies.PAppend [[2]] false); HEval [[5]]; HLie Lies.PClear; HLie (Lies.PAppend [[5]] false);
              HEval [[5]]; HCov [1; 1] [2; 1 # 2]; HGamma (1 # 2); HEval [[5]]] in
  let t := htrace rkern s0 ops in
  nth 0 t HNone = HEI [fresh_ei rkern (1 # 4) [1; 1] [1; 1] [[0]; [1]] [[4]; [6]] [5]] /\
  nth 2 t HNone = HEI [fresh_ei rkern (1 # 4) [1; 1] [1; 1] [[0]; [1]] [[4]; [6]; [2]] [5]] /\
  nth 5 t HNone = HEI [fresh_ei rkern (1 # 4) [1; 1] [1; 1] [[0]; [1]] [[4]; [6]; [5]] [5]] /\
  nth 8 t HNone = HEI [fresh_ei rkern (1 # 2) [1; 1] [2; 1 # 2] [[0]; [1]] [[4]; [6]; [5]] [5]] /\
  (exists g2 g5, fresh_greater rkern [1; 1] [[4]; [6]; [2]] [5] = Some g2 /\ fresh_greater rkern [1; 1] [[4]; [6]; [5]] [5] = Some g5 /\
                 g2 == 11 # 30 /\ g5 == 2 # 3 /\ ~ g2 == g5) /\
  e_greater (hrun rkern s0 ops) = [[4]; [6]; [5]].
Proof.
  cbv zeta. repeat split; try (vm_compute; reflexivity).
  eexists _, _. split; [vm_compute; reflexivity|]. split; [vm_compute; reflexivity|]. vm_compute. repeat split; discriminate.
Qed.
