(* C18 — multi-solution best assignments are distinct, valid and best in their cluster.
   Statements, each closed by `exact` of a lemma of Proofs/ and followed by Print Assumptions; the examples are concrete instances. Model: LV.Model.KCenter.
   Distances are SQUARED distances throughout (d2ix pts i j = dist2 of points i and j), as in the source, which never takes
   the square root; x -> x^2 is increasing on x >= 0, so the farthest / nearest index is the same for both.
   omind pts pre t = the least squared distance from observation t to a centre listed in `pre`. *)
From Coq Require Import List QArith.
From LV Require Import Model.KCenter Proofs.KCenter.
Import ListNotations.
Open Scope Q_scope.

(* the expanded form the source computes, fmax(0, |a|^2 + |b|^2 - 2 a.b), is the sum of squared coordinate differences *)
Theorem C18_dist2_is_squared_distance a b : length a = length b -> dist2 a b == sqdiff a b.
Proof. exact (dist2_sqdiff a b). Qed.
Print Assumptions C18_dist2_is_squared_distance.

Theorem C18_nearest_centre_distance pts pre t : pre <> [] ->
  (forall c, In c pre -> omind pts pre t <= d2ix pts c t) /\ exists c, In c pre /\ omind pts pre t = d2ix pts c t.
Proof. exact (fun H => conj (fun c Hc => omind_le pts pre t c Hc) (omind_attained pts pre t H)). Qed.
Print Assumptions C18_nearest_centre_distance.

(* k_center_clustering raises no AssertionError on 0 < k < n and a first index in range *)
Theorem C18_k_center_accepts_valid_input pts first k :
  (0 < k < length pts)%nat -> (first < length pts)%nat -> k_center pts first k <> None.
Proof. exact (k_center_total pts first k). Qed.
Print Assumptions C18_k_center_accepts_valid_input.

(* first_centre_is_given, centres_distinct, next_centre_farthest (first on ties):
   k centres, the first is the given index, pairwise distinct, in range; centre i (i >= 1) is not among centres 0..i-1, every
   other not-yet-chosen observation is no farther from the chosen centres, and every such observation with a smaller index is
   strictly nearer. *)
Theorem C18_centres_farthest_first pts first k cs part :
  k_center pts first k = Some (cs, part) ->
  length cs = k /\ hd O cs = first /\ NoDup cs /\ (forall c, In c cs -> (c < length pts)%nat) /\
  forall i, (1 <= i < k)%nat ->
    let pre := firstn i cs in let c := nth i cs O in
    (c < length pts)%nat /\ ~ In c pre /\
    (forall t, (t < length pts)%nat -> ~ In t pre -> omind pts pre t <= omind pts pre c) /\
    (forall t, (t < c)%nat -> ~ In t pre -> omind pts pre t < omind pts pre c).
Proof. exact (k_center_centres pts first k cs part). Qed.
Print Assumptions C18_centres_farthest_first.

(* partition_nearest, clusters_nonempty: every observation gets one cluster label < k; centre i is in cluster i; the centre of
   an observation's cluster is a nearest centre, and for a non-centre it is the first nearest one *)
Theorem C18_partition_nearest pts first k cs part :
  k_center pts first k = Some (cs, part) ->
  length part = length pts /\
  forall t, (t < length pts)%nat ->
    let c := nth t part O in
    (c < k)%nat /\
    (forall i, (i < k)%nat -> nth i cs O = t -> c = i) /\
    (forall j, (j < k)%nat -> d2ix pts (nth c cs O) t <= d2ix pts (nth j cs O) t) /\
    (~ In t cs -> forall j, (j < c)%nat -> d2ix pts (nth c cs O) t < d2ix pts (nth j cs O) t).
Proof. exact (k_center_partition pts first k cs part). Qed.
Print Assumptions C18_partition_nearest.

(* The values the view compares are EXTENDED values (Model.KCenter.xv): `Val q` = a finite scaled value, `PInf` = +inf, which
   the view substitutes for every failed observation (values = numpy.where(failures, inf, scaled[:, 0])).  vltb is the
   comparison `<` the code makes (inf < inf is false); vlt a b := vltb a b = true; vle a b := vltb b a = false (a <= b). *)

(* best_indices_distinct_valid, overall_best_included, each_is_cluster_best, for the endpoint body on ANY values and search
   points: no AssertionError for 2 <= k < n; k distinct indices in range; the first one is the first minimum of the values
   (which is also the first centre); entry c lies in cluster c and is the first minimum of the values over that cluster. *)
Theorem C18_best_assignments values spts k :
  length values = length spts -> (2 <= k < length spts)%nat ->
  exists cs part best,
    k_center spts (vargmin values) k = Some (cs, part) /\
    best_assignments values spts k = Some best /\
    length best = k /\ NoDup best /\ (forall i, In i best -> (i < length spts)%nat) /\
    hd O best = vargmin values /\
    forall c, (c < k)%nat ->
      let b := nth c best O in
      nth b part O = c /\
      (forall t, (t < length spts)%nat -> nth t part O = c -> vle (nth b values PInf) (nth t values PInf)) /\
      (forall t, (t < b)%nat -> nth t part O = c -> vlt (nth b values PInf) (nth t values PInf)).
Proof. exact (best_assignments_spec values spts k). Qed.
Print Assumptions C18_best_assignments.

Theorem C18_first_minimum l : l <> [] ->
  let r := vargmin l in
  (r < length l)%nat /\ (forall k, (k < length l)%nat -> vle (nth r l PInf) (nth k l PInf)) /\
  (forall k, (k < r)%nat -> vlt (nth r l PInf) (nth k l PInf)).
Proof. exact (vargmin_first l). Qed.
Print Assumptions C18_first_minimum.

(* the same through the glue of the view: any domain (categoricals separated by tgt = sqrt(one_hot_dim)), any history whose
   categorical values are legal, failures, both objectives; the compared values are the scaled values, +inf for failures *)
Theorem C18_view cs tgt points vals fails maximize k ohs :
  all_some (map (to_one_hot cs) points) = Some ohs ->
  length vals = length points -> length fails = length points -> (2 <= k < length points)%nat ->
  let mv := masked_values (scaled_values maximize vals fails) fails in
  let spts := map (search_point cs tgt) ohs in
  exists centres part best,
    k_center spts (vargmin mv) k = Some (centres, part) /\
    view cs tgt points vals fails maximize k = Some best /\
    length best = k /\ NoDup best /\ (forall i, In i best -> (i < length points)%nat) /\
    hd O best = vargmin mv /\
    forall c, (c < k)%nat ->
      let b := nth c best O in
      nth b part O = c /\
      (forall t, (t < length points)%nat -> nth t part O = c -> vle (nth b mv PInf) (nth t mv PInf)) /\
      (forall t, (t < b)%nat -> nth t part O = c -> vlt (nth b mv PInf) (nth t mv PInf)).
Proof. exact (view_spec cs tgt points vals fails maximize k ohs). Qed.
Print Assumptions C18_view.

(* scaled values (views/view.py; a failed row holds the lie there): with at least one success they are negate * s * (w - m)
   for ONE s > 0 and one m, w = raw value of a success (= the worst successful raw value for a failure); such a map keeps the
   order of the objective.  The view then replaces the entry of every failed observation by +inf, so a failure is strictly
   after every success and "best compared value" = best raw value among the successes.  The link to the RAW values:
   C18_compared_order_is_raw_order, C18_first_min_is_best_success, C18_cluster_min_is_best_success and, through the whole
   endpoint, C18_view_strict / C18_overall_best_strict / C18_never_only_failures. *)
Theorem C18_scaled_values_affine (maximize : bool) vals fails :
  select (map negb fails) vals <> [] ->
  exists s m lie, 0 < s /\
    lie = (if maximize then lmin (select (map negb fails) vals) else lmax (select (map negb fails) vals)) /\
    scaled_values maximize vals fails =
    map (fun vf : Q * bool => (if maximize then Qopp 1 else 1) * s * ((if snd vf then lie else fst vf) - m)) (combine vals fails).
Proof. exact (scaled_values_affine maximize vals fails). Qed.
Print Assumptions C18_scaled_values_affine.

Theorem C18_affine_scaling_keeps_order (neg s m a b : Q) : 0 < s -> (neg == 1 \/ neg == -(1)) ->
  (neg * s * (a - m) <= neg * s * (b - m) <-> neg * a <= neg * b).
Proof. exact (fun Hs _ => affine_order neg s m a b Hs). Qed.
Print Assumptions C18_affine_scaling_keeps_order.

(* RAW values.  Throughout: nf = the raw values of the successful observations (in order), bestv = the best of them for the
   objective (greatest when maximising, least when minimising); observation t is a success when fails[t] = false;
   mv = the values the view compares. *)

(* what the view compares: +inf for a failure, the scaled value for a success; between two successes the comparison IS the
   comparison of the raw values for the objective (smaller compared value = better raw value); a success is strictly before
   every failure *)
Theorem C18_compared_order_is_raw_order (maximize : bool) vals fails t u :
  length fails = length vals ->
  let nf := select (map negb fails) vals in
  nf <> [] -> (t < length vals)%nat -> (u < length vals)%nat ->
  let mv := masked_values (scaled_values maximize vals fails) fails in
  (nth t fails false = true -> nth t mv PInf = PInf) /\
  (nth t fails true = false -> nth u fails false = true -> vlt (nth t mv PInf) (nth u mv PInf)) /\
  (nth t fails true = false -> nth u fails true = false ->
     (vle (nth t mv PInf) (nth u mv PInf) <-> if maximize then nth u vals 0 <= nth t vals 0 else nth t vals 0 <= nth u vals 0) /\
     (vlt (nth t mv PInf) (nth u mv PInf) <-> if maximize then nth u vals 0 < nth t vals 0 else nth t vals 0 < nth u vals 0)).
Proof.
  exact (fun Hl Hne Ht Hu =>
    conj (m_failed maximize vals fails Hl t Ht)
      (conj (m_success_lt_failed maximize vals fails Hl t u Ht Hu)
         (m_success_order maximize vals fails Hl Hne t u Ht Hu))).
Qed.
Print Assumptions C18_compared_order_is_raw_order.

(* overall_best_included in the user's sense.  b = the first minimum of the compared values (the first centre and the index the
   view returns first, C18_view): b is a SUCCESSFUL observation, its raw value is bestv, no success has a better raw value and
   every earlier success is strictly worse (b is the first success with the best raw value). *)
Theorem C18_first_min_is_best_success (maximize : bool) vals fails :
  length fails = length vals ->
  let nf := select (map negb fails) vals in
  nf <> [] ->
  let mv := masked_values (scaled_values maximize vals fails) fails in
  let bestv := if maximize then lmax nf else lmin nf in
  let b := vargmin mv in
  (b < length vals)%nat /\ nth b fails true = false /\ nth b vals 0 == bestv /\
  (forall t, (t < length vals)%nat -> nth t fails true = false ->
     if maximize then nth t vals 0 <= nth b vals 0 else nth b vals 0 <= nth t vals 0) /\
  (forall t, (t < b)%nat -> nth t fails true = false ->
     if maximize then nth t vals 0 < nth b vals 0 else nth b vals 0 < nth t vals 0).
Proof. exact (first_min_is_best_success maximize vals fails). Qed.
Print Assumptions C18_first_min_is_best_success.

(* each_is_cluster_best in the user's sense, for ANY set P of observations (a cluster) and any index b whose compared value is
   the first minimum over P (what C18_view gives for the index returned for a cluster).  If P holds a success then b is a
   success; when b is a success its raw value is at least as good as that of every successful member and strictly better than
   that of every earlier successful member; b is a failure only if EVERY member of P failed, and then no member precedes b. *)
Theorem C18_cluster_min_is_best_success (maximize : bool) vals fails (P : nat -> Prop) (b : nat) :
  length fails = length vals ->
  let nf := select (map negb fails) vals in
  nf <> [] ->
  let mv := masked_values (scaled_values maximize vals fails) fails in
  (b < length vals)%nat ->
  (forall t, (t < length vals)%nat -> P t -> vle (nth b mv PInf) (nth t mv PInf)) ->
  (forall t, (t < b)%nat -> P t -> vlt (nth b mv PInf) (nth t mv PInf)) ->
  ((exists t, (t < length vals)%nat /\ P t /\ nth t fails true = false) -> nth b fails true = false) /\
  (nth b fails true = false ->
     (forall t, (t < length vals)%nat -> P t -> nth t fails true = false ->
        if maximize then nth t vals 0 <= nth b vals 0 else nth b vals 0 <= nth t vals 0) /\
     (forall t, (t < b)%nat -> P t -> nth t fails true = false ->
        if maximize then nth t vals 0 < nth b vals 0 else nth b vals 0 < nth t vals 0)) /\
  (nth b fails false = true ->
     (forall t, (t < length vals)%nat -> P t -> nth t fails false = true) /\
     (forall t, (t < b)%nat -> ~ P t)).
Proof. exact (fun Hl Hne Hb H1 H2 => set_min_is_best_success maximize vals fails Hl Hne P b Hb (conj H1 H2)). Qed.
Print Assumptions C18_cluster_min_is_best_success.

(* the whole endpoint in terms of RAW values (any domain, any history with at least one success, both objectives) - the STRICT
   reading of the property: the first returned index b0 is a success with the best raw value, the first such index.  The index
   b returned for cluster c lies in cluster c; if the cluster holds a success, b is a success whose raw value is at least as
   good as that of every successful member (strictly better than the earlier ones): the first best success of the cluster;
   b is a failed observation only for a cluster without any success, and is then its first member. *)
Theorem C18_view_strict cs tgt points vals fails maximize k ohs :
  all_some (map (to_one_hot cs) points) = Some ohs ->
  length vals = length points -> length fails = length points -> (2 <= k < length points)%nat ->
  let nf := select (map negb fails) vals in
  nf <> [] ->
  let mv := masked_values (scaled_values maximize vals fails) fails in
  let spts := map (search_point cs tgt) ohs in
  let bestv := if maximize then lmax nf else lmin nf in
  exists centres part best,
    k_center spts (vargmin mv) k = Some (centres, part) /\
    view cs tgt points vals fails maximize k = Some best /\
    length best = k /\ NoDup best /\ (forall i, In i best -> (i < length points)%nat) /\
    (let b0 := hd O best in
     In b0 best /\ nth b0 fails true = false /\ nth b0 vals 0 == bestv /\
     (forall t, (t < length points)%nat -> nth t fails true = false ->
        if maximize then nth t vals 0 <= nth b0 vals 0 else nth b0 vals 0 <= nth t vals 0) /\
     (forall t, (t < b0)%nat -> nth t fails true = false ->
        if maximize then nth t vals 0 < nth b0 vals 0 else nth b0 vals 0 < nth t vals 0)) /\
    forall c, (c < k)%nat ->
      let b := nth c best O in
      nth b part O = c /\
      ((exists t, (t < length points)%nat /\ nth t part O = c /\ nth t fails true = false) -> nth b fails true = false) /\
      (nth b fails true = false ->
         (forall t, (t < length points)%nat -> nth t part O = c -> nth t fails true = false ->
            if maximize then nth t vals 0 <= nth b vals 0 else nth b vals 0 <= nth t vals 0) /\
         (forall t, (t < b)%nat -> nth t part O = c -> nth t fails true = false ->
            if maximize then nth t vals 0 < nth b vals 0 else nth b vals 0 < nth t vals 0)) /\
      (nth b fails false = true ->
         (forall t, (t < length points)%nat -> nth t part O = c -> nth t fails false = true) /\
         (forall t, (t < b)%nat -> nth t part O <> c)).
Proof. exact (view_strict cs tgt points vals fails maximize k ohs). Qed.
Print Assumptions C18_view_strict.

(* STRICT reading of "one of which is the overall best observation", a theorem for EVERY history with at least one success:
   the endpoint answers, and the first returned index is a SUCCESSFUL observation whose raw value no success beats, every
   earlier success being strictly worse.  (Before the repair of the view - failures carried the lie and tied with the worst
   success - this failed: witness corpus/C18/c18_only_failed_returned.json.) *)
Theorem C18_overall_best_strict cs tgt points vals fails maximize k ohs :
  all_some (map (to_one_hot cs) points) = Some ohs ->
  length vals = length points -> length fails = length points -> (2 <= k < length points)%nat ->
  (exists i, (i < length points)%nat /\ nth i fails true = false) ->
  exists best,
    view cs tgt points vals fails maximize k = Some best /\
    let b0 := hd O best in
    In b0 best /\ (b0 < length points)%nat /\ nth b0 fails true = false /\
    (forall t, (t < length points)%nat -> nth t fails true = false ->
       if maximize then nth t vals 0 <= nth b0 vals 0 else nth b0 vals 0 <= nth t vals 0) /\
    (forall t, (t < b0)%nat -> nth t fails true = false ->
       if maximize then nth t vals 0 < nth b0 vals 0 else nth b0 vals 0 < nth t vals 0).
Proof. exact (overall_best_strict cs tgt points vals fails maximize k ohs). Qed.
Print Assumptions C18_overall_best_strict.

(* the negation of the former finding: whenever the endpoint answers and the history holds a success, a successful
   observation is among the returned indices *)
Theorem C18_never_only_failures cs tgt points vals fails maximize k best :
  length vals = length points -> length fails = length points -> (2 <= k < length points)%nat ->
  view cs tgt points vals fails maximize k = Some best ->
  (exists i, (i < length points)%nat /\ nth i fails true = false) ->
  exists i, In i best /\ nth i fails true = false.
Proof. exact (never_only_failures cs tgt points vals fails maximize k best). Qed.
Print Assumptions C18_never_only_failures.

(* the two witnesses of the former findings (corpus/C18): one success among failures - the success is returned first and the
   failed observation 1 only represents the cluster {1}, which holds no success; a cluster {1, 3} whose only success is the
   worst success overall - the success 3 is returned, not the failed observation 1 that precedes it. *)
Example C18_example_former_findings :
  view [CNum 0 4] 1 [[0]; [4]; [1]] [5; 7; 3] [true; true; false] false 2 = Some [2; 1]%nat /\
  k_center (map (search_point [CNum 0 4] 1) [[0]; [4]; [1]]) 2 2 = Some ([2; 1]%nat, [0; 1; 0]%nat) /\
  view [CNum 0 4] 1 [[0]; [4]; [1]; [3]] [5; 7; 3; 6] [false; true; false; false] false 2 = Some [2; 3]%nat /\
  k_center (map (search_point [CNum 0 4] 1) [[0]; [4]; [1]; [3]]) 2 2 = Some ([2; 1]%nat, [0; 1; 0; 1]%nat).
Proof. vm_compute. repeat split; reflexivity. Qed.

(* non-vacuity: duplicated points (the test-suite's repeated-point instance, shortened) and a mixed domain with a categorical *)
Example C18_example :
  k_center [[1;1]; [1;1]; [1;1]; [9;9]; [1;1]; [1;1]] 4 3 = Some ([4; 3; 0]%nat, [2; 0; 0; 1; 0; 0]%nat) /\
  view [CNum 0 4; CCat [1; 2; 5]] 2 [[0;1]; [4;2]; [1;5]; [1;1]] [5; 7; 3; 3] [false; false; false; false] true 3
    = Some [1; 0; 2]%nat.
Proof. vm_compute. split; reflexivity. Qed.

(* non-vacuity of the raw-value statements: one double in [0,4], four observations at 0, 4, 1, 3 with raw values 5, 7, 3, 4,
   the second one FAILED (its 7 is ignored), two clusters {0, 2} and {1, 3}.  Successful raw values: [5; 3; 4].
   Maximising: the best success is observation 0 (5); cluster {1, 3} returns its success 3, not the failed observation 1.
   Minimising: the best success is observation 2 (3); cluster {1, 3} returns the success 3.
   Third instance (raw value 6 instead of 4, minimising): the only success of cluster {1, 3} is the worst success overall; it
   is still returned (the failed observation 1 is +inf).  Fourth instance (observation 3 failed as well): cluster {1, 3} holds
   no success and its first member 1 is returned: the failure clause of C18_view_strict is not vacuous.
   The four view results are also what the real endpoint returns on these inputs. *)
Example C18_example_raw :
  let cs := [CNum 0 4] in let pts := [[0]; [4]; [1]; [3]] in let fails := [false; true; false; false] in
  let vals := [5; 7; 3; 4] in
  all_some (map (to_one_hot cs) pts) = Some pts /\
  select (map negb fails) vals = [5; 3; 4] /\
  masked_values (scaled_values false vals fails) fails = [Val (4 # 40); PInf; Val (-4 # 40); Val (0 # 40)] /\
  k_center (map (search_point cs 1) pts) 0 2 = Some ([0; 1]%nat, [0; 1; 0; 1]%nat) /\
  vargmin (masked_values (scaled_values true vals fails) fails) = 0%nat /\
  view cs 1 pts vals fails true 2 = Some [0; 3]%nat /\
  k_center (map (search_point cs 1) pts) 2 2 = Some ([2; 1]%nat, [0; 1; 0; 1]%nat) /\
  vargmin (masked_values (scaled_values false vals fails) fails) = 2%nat /\
  view cs 1 pts vals fails false 2 = Some [2; 3]%nat /\
  view cs 1 pts [5; 7; 3; 6] fails false 2 = Some [2; 3]%nat /\
  view cs 1 pts [5; 7; 3; 6] [false; true; false; true] false 2 = Some [2; 1]%nat.
Proof. vm_compute. repeat split; reflexivity. Qed.

(* "for all histories ... failures": an observation reported as FAILED still carries a stored number (a placeholder, a sentinel
   such as 1e30 or the largest double, whatever the client sent).  The endpoint never reads it: the scale, the midpoint, the lie
   and every compared value are functions of the successful values and the failure mask alone.  `overwrite fails vals junk` is
   the history whose failed observations store the entries of `junk` instead (Model.KCenter); successes keep their values. *)
Theorem C18_scaled_values_ignore_failed_values (maximize : bool) vals fails junk :
  scaled_values maximize (overwrite fails vals junk) fails = scaled_values maximize vals fails.
Proof. exact (scaled_values_overwrite maximize vals fails junk). Qed.
Print Assumptions C18_scaled_values_ignore_failed_values.

Theorem C18_view_ignores_failed_values cs tgt points vals fails maximize k junk :
  view cs tgt points (overwrite fails vals junk) fails maximize k = view cs tgt points vals fails maximize k.
Proof. exact (view_overwrite cs tgt points vals fails maximize k junk). Qed.
Print Assumptions C18_view_ignores_failed_values.

(* pointwise form: two histories of the same length that agree on every successful observation get the same scaled values and
   the same answer *)
Theorem C18_view_depends_on_successes_only cs tgt points vals vals' fails maximize k :
  length vals = length fails -> length vals' = length fails ->
  (forall t, (t < length fails)%nat -> nth t fails true = false -> nth t vals 0 = nth t vals' 0) ->
  scaled_values maximize vals' fails = scaled_values maximize vals fails /\
  view cs tgt points vals' fails maximize k = view cs tgt points vals fails maximize k.
Proof. exact (view_agree cs tgt points vals vals' fails maximize k). Qed.
Print Assumptions C18_view_depends_on_successes_only.

(* non-vacuity: the fourth-observation history of C18_example_raw with the failed observation 1 storing 10^30 (a sentinel far
   outside the successful values 5, 3, 4) or -10^30: `overwrite` really changes the history, the compared values and the answers
   (both objectives) are those of the history that stores 7 there *)
Example C18_example_failed_sentinel :
  let cs := [CNum 0 4] in let pts := [[0]; [4]; [1]; [3]] in let fails := [false; true; false; false] in
  let vals := [5; 7; 3; 4] in let big := 1000000000000000000000000000000 in
  overwrite fails vals [0; big; 0; 0] = [5; big; 3; 4] /\
  masked_values (scaled_values false [5; big; 3; 4] fails) fails = [Val (4 # 40); PInf; Val (-4 # 40); Val (0 # 40)] /\
  view cs 1 pts [5; big; 3; 4] fails false 2 = Some [2; 3]%nat /\
  view cs 1 pts [5; - big; 3; 4] fails true 2 = Some [0; 3]%nat.
Proof. vm_compute. repeat split; reflexivity. Qed.
