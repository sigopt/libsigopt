(* C19 — search acquisition is a success probability that vanishes near known points.
   Statements, each closed by `exact` of a lemma of Proofs/ and followed by Print Assumptions; the examples are concrete instances.  Model: LV.Model.SearchAF.
   Squared distances over Q (no sqrt): "within the repulsion radius" is `squared distance < distance parameter`
   (DESIGN 7.0); the categorical target t stands for numpy.sqrt(one_hot_dim). *)
From Coq Require Import List QArith.
From LV Require Import Model.SearchAF Proofs.SearchAF.
Import ListNotations.
Open Scope Q_scope.

(* The library's distance formula fmax(0, |x|^2 + |z|^2 - 2 x.z) is the sum of squared coordinate differences. *)
Theorem C19_distance_formula x z : length x = length z -> dist2 x z == sqdist x z.
Proof. exact (dist2_sqdist x z). Qed.
Print Assumptions C19_distance_formula.

(* The value at a point is exactly 0 when some repulsor is at squared distance < the distance parameter from the point's
   normalised image, is the failure model's probability when every repulsor is at squared distance >= it, and lies in [0,1]
   either way (failure model: any function into [0,1]). *)
Theorem C19_value_is_probability_or_zero d t s fm p :
  reps_wf d s -> length p = one_hot_dim d -> 0 <= fm p <= 1 ->
  let v := eval_point d t s fm p in
  ((exists r, In r (reps s) /\ sqdist r (to_search d t p) < dpar s) -> v = 0) /\
  ((forall r, In r (reps s) -> dpar s <= sqdist r (to_search d t p)) -> v = fm p) /\
  0 <= v <= 1.
Proof. exact (value_is_probability_or_zero d t s fm p). Qed.
Print Assumptions C19_value_is_probability_or_zero.

(* One evaluated batch is eval_point row by row. *)
Theorem C19_batch_is_pointwise d t s fm pts : (forall p, In p pts -> length p = one_hot_dim d) ->
  eval_batch d t s fm pts = Some (map (eval_point d t s fm) pts).
Proof. exact (eval_batch_spec d t s fm pts). Qed.
Print Assumptions C19_batch_is_pointwise.

(* A product of failure models, each with values in [0,1], has values in [0,1]; the logistic model 1/(1+e), e >= 0, too. *)
Theorem C19_product_is_probability fms p : (forall f, In f fms -> 0 <= f p <= 1) -> 0 <= prod_fm fms p <= 1.
Proof. exact (prod_fm_range fms p). Qed.
Print Assumptions C19_product_is_probability.

Theorem C19_logistic_is_probability e : 0 <= e -> 0 < logistic e /\ logistic e <= 1.
Proof. exact (logistic_range e). Qed.
Print Assumptions C19_logistic_is_probability.

(* Every state reachable by the constructor and by add_normalized_repulsor_point keeps repulsors of the right shape
   (the hypothesis reps_wf of the value theorem). *)
Theorem C19_repulsors_well_shaped d t dp r0 s pts s' :
  pi_search_init d t dp r0 = Some s -> add_repulsors d t s pts = Some s' ->
  reps_wf d s /\ reps_wf d s' /\ reps s' = reps s ++ map (to_search d t) pts /\ dpar s' = dpar s.
Proof. exact (repulsors_well_shaped d t dp r0 s pts s'). Qed.
Print Assumptions C19_repulsors_well_shaped.

(* Mapping to the unit cube and back (and back and forth) is the identity whenever no bound interval is degenerate. *)
Theorem C19_unit_cube_roundtrip bs : Forall (fun b => ~ snd b == fst b) bs -> forall p, length p = length bs ->
  Forall2 Qeq (from_unit bs (to_unit bs p)) p /\ Forall2 Qeq (to_unit bs (from_unit bs p)) p.
Proof. exact (unit_cube_roundtrip bs). Qed.
Print Assumptions C19_unit_cube_roundtrip.

(* In-bounds coordinates are scaled into [0,1]; a numeric parameter's normalised coordinate is (x - lo)/(hi - lo). *)
Theorem C19_unit_cube_range bs p : Forall2 (fun b x => fst b < snd b /\ fst b <= x <= snd b) bs p ->
  Forall (fun u => 0 <= u <= 1) (to_unit bs p).
Proof. exact (unit_cube_range bs p). Qed.
Print Assumptions C19_unit_cube_range.

Theorem C19_numeric_coordinate lo hi d t x p :
  to_search (Num lo hi :: d) t (x :: p) = to_unit1 (lo, hi) x :: to_search d t p.
Proof. exact (to_search_num lo hi d t x p). Qed.
Print Assumptions C19_numeric_coordinate.

(* A categorical parameter's block becomes t at the first maximum and 0 elsewhere. *)
Theorem C19_categorical_block k d t blk p : length blk = k ->
  to_search (Cat k :: d) t (blk ++ p) = one_hot_block k (argmax blk) t ++ to_search d t p.
Proof. exact (to_search_cat k d t blk p). Qed.
Print Assumptions C19_categorical_block.

(* Two points that select different categories in some categorical parameter are at squared distance >= 2 t^2
   (= 2 * one_hot_dim when t = sqrt(one_hot_dim)), i.e. at distance >= sqrt 2 * sqrt(one-hot dimension). *)
Theorem C19_categories_apart d t p q : length p = one_hot_dim d -> length q = one_hot_dim d ->
  cat_choice d p <> cat_choice d q -> 2 * (t * t) <= sqdist (to_search d t p) (to_search d t q).
Proof. exact (categories_apart d t p q). Qed.
Print Assumptions C19_categories_apart.

(* Hence a repulsor of another category never zeroes a point while the squared radius is <= 2 t^2, and every scheduled
   radius dim * {0.04, 0.01, 0.0025, 0.0004} is below that gap when t^2 is within 1% of the one-hot dimension. *)
Theorem C19_categories_never_repel d t dp p q : length p = one_hot_dim d -> length q = one_hot_dim d ->
  cat_choice d p <> cat_choice d q -> dp <= 2 * (t * t) ->
  Qltb (dist2 (to_search d t q) (to_search d t p)) dp = false.
Proof. exact (categories_never_repel d t dp p q). Qed.
Print Assumptions C19_categories_never_repel.

Theorem C19_schedule_below_category_gap d t w : d <> [] -> (forall k, In (Cat k) d -> (1 <= k)%nat) -> (w < 4)%nat ->
  inject_Z (Z.of_nat (one_hot_dim d)) * (99 # 100) <= t * t ->
  0 < get_dp (length d) w /\ get_dp (length d) w < 2 * (t * t).
Proof. exact (schedule_below_category_gap d t w). Qed.
Print Assumptions C19_schedule_below_category_gap.

(* Evaluation does not depend on the batch size: any positive batch size, or none, gives eval_point row by row. *)
Theorem C19_batch_independent d t s fm pts b : pts <> [] -> (0 < b)%nat ->
  (forall p, In p pts -> length p = one_hot_dim d) ->
  evaluate (Some b) d t s fm pts = Some (map (eval_point d t s fm) pts) /\
  evaluate None d t s fm pts = Some (map (eval_point d t s fm) pts).
Proof. exact (batch_independent d t s fm pts b). Qed.
Print Assumptions C19_batch_independent.

(* Within one search optimisation (any optimiser `opt`, any random draws): the i-th pick is chosen in a state whose
   repulsors are the initial ones followed by the normalised images of picks 0..i-1, with the radius drawn after pick
   i-1; so every earlier pick is a repulsor and, the radius being positive, the value at every earlier pick is 0. *)
Theorem C19_picks_become_repulsors d t opt s0 draws picks s_after tr :
  search_opt d t opt s0 draws = Some (picks, s_after, tr) ->
  length picks = length draws /\ picks = map snd tr /\
  forall i si pi, nth_error tr i = Some (si, pi) ->
    pi = opt si /\
    reps si = reps s0 ++ map (to_search d t) (firstn i picks) /\
    dpar si = match i with O => dpar s0 | S j => get_dp (length d) (nth j draws O) end /\
    forall j pj, (j < i)%nat -> nth_error picks j = Some pj ->
      In (to_search d t pj) (reps si) /\
      (0 < dpar si -> forall fm, eval_point d t si fm pj = 0).
Proof. exact (picks_become_repulsors d t opt s0 draws picks s_after tr). Qed.
Print Assumptions C19_picks_become_repulsors.

(* ... and the acquisition function's repulsors and radius are restored afterwards. *)
Theorem C19_state_restored d t opt s0 draws picks s_after tr :
  search_opt d t opt s0 draws = Some (picks, s_after, tr) ->
  reps s_after = reps s0 /\ dpar s_after = dpar s0.
Proof. exact (state_restored d t opt s0 draws picks s_after tr). Qed.
Print Assumptions C19_state_restored.

(* The view seeds the repulsors with the observed points followed by the pending points. *)
Theorem C19_view_repulsors d t sampled pending w s : view_init d t sampled pending w = Some s ->
  reps s = map (to_search d t) (sampled ++ pending) /\ dpar s = get_dp (length d) w /\ reps_wf d s.
Proof. exact (view_repulsors d t sampled pending w s). Qed.
Print Assumptions C19_view_repulsors.

(* non-vacuity: int [0,8] x categorical(3) x double [-4,4], t = 2 (one-hot dimension 5 is not a square; 2 is a stand-in),
   one repulsor; a point near it is zeroed, the same point in another category is not, and a two-pick optimisation
   with a scripted optimiser restores the state. *)
Example C19_example :
  let d := [Num 0 8; Cat 3; Num (-4) 4] in
  let s := mkst [to_search d 2 [2; 1; 0; 0; 0]] (1 # 4) in
  let fm := fun _ : point => 3 # 4 in
  to_search d 2 [2; (1#2); 0; (1#4); 0] = [(2 - 0) / (8 - 0); 2; 0; 0; (0 - -4) / (4 - -4)] /\
  evaluate (Some 2%nat) d 2 s fm [[3; 1; 0; 0; 1]; [3; 0; 1; 0; 1]; [8; 1; 0; 0; 4]] = Some [0; 3 # 4; 3 # 4] /\
  (exists picks tr, search_opt d 2 (fun st => [inject_Z (Z.of_nat (length (reps st))); 0; 0; 1; 0]) s [0; 3]%nat
                    = Some (picks, s, tr) /\ length picks = 2%nat).
Proof. vm_compute. repeat split; try reflexivity. eexists. eexists. split; reflexivity. Qed.
