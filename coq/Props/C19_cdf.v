(* C19, "the modelled probability of satisfying all metric constraints, a number in [0,1]": the executable model of the search
   acquisition function (Props/C19.v) takes the failure model as any function into [0,1].  For the failure model the search
   endpoints really build - a product of normal-CDF models, one per constraint metric - that range is a theorem about the
   definitions regenerated from probabilistic_failures.py (Gen.GenAcq), since 0 < Phi < 1 is proved (Lib/Gauss.v):
   every factor lies in (0,1), the product lies in [0,1], strictly positive when every factor is. *)
From Coq Require Import Reals.
From LV Require Import Lib.RBase Gen.GenAcq Proofs.SearchCdf.
Open Scope R_scope.

Theorem C19_cdf_failure_model_is_probability nq dim x (mean var : nat -> nat -> R) gmean gvar (thr : nat -> R) i :
  (forall q, 0 < CDF.value dim x (mean q) (var q) gmean gvar (thr q) i < 1) /\
  0 <= Product.value nq (fun q i => CDF.value dim x (mean q) (var q) gmean gvar (thr q) i) i <= 1.
Proof. exact (cdf_failure_model_is_probability nq dim x mean var gmean gvar thr i). Qed.
Print Assumptions C19_cdf_failure_model_is_probability.
