(* C19, view level - "the search acquisition value equals the modelled probability of satisfying ALL metric constraints".
   Statements, each closed by `exact` of a lemma of Proofs/ and followed by Print Assumptions; the examples are concrete instances.  Model: LV.Model.SearchView (on Model.Wiring, C06, and
   Model.Midpoint, C12).  The modelled probability is the product of one CDF model per constraint metric of the request; which
   numbers each of those models is built from is what the search view (two index-selecting sites: filter_points_sampled and
   View._preprocess_constraint_metrics, then the per-model hyperparameter lookup) has to get right for index lists in ANY order,
   interleaved with stored metrics. *)
From Coq Require Import List QArith.
From LV Require Import Model.Domain Model.Decode Model.Midpoint Model.Phases Model.Wiring Model.SearchView.
From LV Require Import Proofs.Wiring Proofs.SearchView.
Import ListNotations.
Open Scope Q_scope.

(* Whenever the search view builds its failure model (a request without optimised metrics, with at least one constraint metric,
   no tasks): one CDF member per entry of the constraint index list, in the order of the list.  Member k, with m = the k-th listed
   metric, is built from metric m and nothing else: the hyperparameters (and nugget) are entry m of model_info.hyperparameters; with
   i = C12's scaling object of RAW COLUMN m (the request's failure mask, metric m's objective) and l its constant-liar-min lie, the
   threshold is metric m's own user threshold mapped by i, and the data of the member's Gaussian process is a list of
   (encoded observation j, value) pairs whose value is the scaled lie when observation j failed and i applied to values[j][m]
   otherwise (row_pair), followed - under constant liar only - by the encoded pending points with the scaled lie. *)
Theorem C19_search_view_models_own_metric r pfs : search_view_pfs r = Some pfs ->
  q_opt_ix r = [] /\ q_con_ix r <> [] /\
  exists pts pend,
    encode_rows (q_dom r) false (q_points r) [] = Some pts /\ encode_rows (q_dom r) false (q_pending r) [] = Some pend /\
    length pfs = length (q_con_ix r) /\
    forall k, (k < length (q_con_ix r))%nat ->
      let p := nth k pfs dpf in let m := nth k (q_con_ix r) O in
      p_kind p = PfCdf /\ g_metric (p_gp p) = m /\
      exists h i l t,
        nth_error (q_hypers r) m = Some h /\ hyper_vec (comps (q_dom r)) h = Some (g_hyp (p_gp p)) /\
        g_tik (p_gp p) = hp_tik h /\
        smmi (column m (q_values r)) (q_fails r) (nth m (q_objs r) NoObjective) = Some i /\
        lie_value i LieMin = Some l /\
        nth m (q_thr r) None = Some t /\ p_thr p = rel_value i t /\
        exists dp dv, length dp = length dv /\
          g_pts (p_gp p) = lied r dp pend /\ g_vals (p_gp p) = lied r dv (repeat (rel_value i l) (length pend)) /\
          Forall (row_pair r pts m i l) (combine dp dv) /\
          Forall (fun y => y <= rel_value i l) (g_vals (p_gp p)).
Proof. exact (search_view_models r pfs). Qed.
Print Assumptions C19_search_view_models_own_metric.

(* non-vacuity: one double in [0,4], four observations, three metrics (minimise / maximise / maximise); the constraint metrics are
   listed as [2; 0] - descending, with the stored metric 1 between them - with thresholds 25 (metric 2) and 1 (metric 0); one
   pending point under constant liar.  Member 0 is on metric 2: kernel [3; 1/2], its column 10,30,20,40 maximised -> 0.1,-0.033,
   0.033,-0.1 and the lie 0.1 for the pending point, threshold 25 -> 0; member 1 is on metric 0: kernel [1; 2], column 0,2,1,4
   minimised -> -0.1,0,-0.05,0.1 and the lie 0.1, threshold 1 -> -0.05. *)
Example C19_example_search_view :
  let r := mkreq {| comps := [Double 0 4]; cons := [] |}
        [[0]; [4]; [1]; [3]]
        [[0; 7; 10]; [2; 7; 30]; [1; 9; 20]; [4; 8; 40]] [[0;0;0]; [0;0;0]; [0;0;0]; [0;0;0]] [false; false; false; false] []
        [Minimize; Maximize; Maximize] [] [2%nat; 0%nat] [Some 1; None; Some 25] false
        [mkhyper 1 [[Some 2]] None None; mkhyper 2 [[Some 3]] None None; mkhyper 3 [[Some (1#2)]] None None]
        [[2]] [] [[2]] [] ConstantLiar [] MeanZero None 0%Z NotMM in
  option_map (map (fun p => (g_metric (p_gp p), p_thr p, g_hyp (p_gp p), g_vals (p_gp p)))) (search_view_pfs r) =
  Some [(2%nat, 0 # 600, [3; 1 # 2], [60 # 600; -20 # 600; 20 # 600; -60 # 600; 60 # 600]);
        (0%nat, -4 # 80, [1; 2], [-8 # 80; 0 # 80; -4 # 80; 8 # 80; 8 # 80])].
Proof. vm_compute. reflexivity. Qed.
