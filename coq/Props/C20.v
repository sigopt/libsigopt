(* C20 — schema validation fails only with library errors, exactly when data is invalid.
   Statements, each closed by `exact` of a lemma of Proofs/ and followed by Print Assumptions; the examples are concrete instances.  Model: LV.Model.Schema.
   jsonschema is external: it enters as the function `js` with the contract (js_iff, js_wf) written out as premises. *)
From Coq Require Import List QArith String.
From LV Require Import Model.Schema Proofs.Schema.
Import ListNotations.

(* validate returns silently exactly when the value conforms to the schema — relative to the contract that jsonschema
   raises ValidationError exactly on non-conforming values (the contract itself is decided by correspondence part (i)) *)
Theorem C20_validate_silent_iff_conforms
  (rxm : N -> str -> bool) (pm : list str -> str -> bool) (js : json -> schema -> js_result)
  (js_iff : forall v s, js v s = JsOk <-> conforms rxm pm s v = true) v s :
  validate js v s = Silent <-> conforms rxm pm s v = true.
Proof. exact (validate_silent_iff_conforms rxm pm js js_iff v s). Qed.
Print Assumptions C20_validate_silent_iff_conforms.

(* ... and otherwise raises one of the library's own error classes (never a raw exception) with a non-empty message,
   for every value and every schema, given that the raised record is well-formed (wf_verr) *)
Theorem C20_validate_raises_lib_only
  (rxm : N -> str -> bool) (pm : list str -> str -> bool) (js : json -> schema -> js_result)
  (js_iff : forall v s, js v s = JsOk <-> conforms rxm pm s v = true)
  (js_wf : forall v s e, js v s = JsError e -> wf_verr pm e = true) v s :
  (validate js v s = Silent /\ conforms rxm pm s v = true) \/
  (exists le, validate js v s = Raises (Lib le) /\ msg_nonempty (err_msg le) = true /\ conforms rxm pm s v = false).
Proof. exact (validate_raises_lib_only rxm pm js js_iff js_wf v s). Qed.
Print Assumptions C20_validate_raises_lib_only.

(* process_error terminates on every record (structural recursion through oneOf / anyOf contexts of any depth and
   width) and maps every well-formed record to a library error with a non-empty message; wf_verr covers the draft-3
   `required` record (boolean validator value, the missing key at the end of the path) as well *)
Theorem C20_process_error_total_lib pm e :
  wf_verr pm e = true -> exists le, process_error e = Lib le /\ msg_nonempty (err_msg le) = true.
Proof. exact (process_error_total_lib pm e). Qed.
Print Assumptions C20_process_error_total_lib.

(* whatever the record (well-formed or not), a library error produced by process_error has a non-empty message *)
Theorem C20_message_nonempty e le : process_error e = Lib le -> msg_nonempty (err_msg le) = true.
Proof. exact (process_error_msg_nonempty e le). Qed.
Print Assumptions C20_message_nonempty.

(* a `required` error is translated to MissingJsonKeyError exposing a key that is required and absent from the instance:
   one of the listed keys (draft 4 and later: the validator value is the list of required keys), or - draft 3, where the
   validator value is the boolean `required: true` of the property's own sub-schema - the declared property whose name
   ends the error's path *)
Theorem C20_required_exposes_key pm e :
  wf_verr pm e = true -> v_kind e = VRequired ->
  exists k kvs m,
    v_inst e = JObj kvs /\
    process_error e = Lib (EMissingKey (Some (JStr k)) m) /\
    ~ In k (keys kvs) /\
    ((exists ks, v_value e = JArr ks /\ In (JStr k) ks) \/
     (v_value e = JBool true /\ last_part (v_path e) = Some (PKey k) /\ In k (v_sprops e))).
Proof. exact (required_exposes_key pm e). Qed.
Print Assumptions C20_required_exposes_key.

(* the draft-3 shape alone: every well-formed `required` record with a boolean validator value (it is then `true`) has a
   path  front ++ [key]  and is translated to MissingJsonKeyError exposing that key - a declared property of the
   record's schema that the instance lacks *)
Theorem C20_required_draft3_exposes_path_key pm e b :
  wf_verr pm e = true -> v_kind e = VRequired -> v_value e = JBool b ->
  exists k kvs m front,
    b = true /\ v_inst e = JObj kvs /\ v_path e = front ++ [PKey k] /\
    process_error e = Lib (EMissingKey (Some (JStr k)) m) /\
    ~ In k (keys kvs) /\ In k (v_sprops e).
Proof. exact (required_draft3_exposes_path_key pm e b). Qed.
Print Assumptions C20_required_draft3_exposes_path_key.

(* a `type` error is translated to InvalidTypeError exposing the offending value and the schema's type declaration
   (expected_type = str(t)), and the value indeed has none of the declared types *)
Theorem C20_type_exposes_value_and_type pm e :
  wf_verr pm e = true -> v_kind e = VType ->
  exists t ts m,
    v_sty e = Some t /\ type_decl t = Some ts /\
    process_error e = Lib (EInvalidType (v_inst e) t m) /\
    existsb (has_type (v_inst e)) ts = false.
Proof. exact (type_exposes_value_and_type pm e). Qed.
Print Assumptions C20_type_exposes_value_and_type.

(* ... also when the record's path is EMPTY: a type error on the document itself (root), or the first branch of a oneOf /
   anyOf whose own `type` fails (the path of a context record is relative to its parent, and a combinator record is
   translated as its first context record).  InvalidTypeError then builds its message without a key - and exposes the
   offending value and the expected type all the same *)
Theorem C20_type_keyless_exposes_value_and_type pm e :
  wf_verr pm e = true -> v_kind e = VType -> v_path e = [] ->
  exists t ts,
    v_sty e = Some t /\ type_decl t = Some ts /\
    process_error e = Lib (EInvalidType (v_inst e) t (m_type false)) /\
    existsb (has_type (v_inst e)) ts = false.
Proof. exact (type_keyless_exposes_value_and_type pm e). Qed.
Print Assumptions C20_type_keyless_exposes_value_and_type.

Theorem C20_combinator_translates_first_context e c rest :
  (v_kind e = VOneOf \/ v_kind e = VAnyOf) -> v_ctx e = c :: rest -> process_error e = process_error c.
Proof. exact (combinator_translates_first_context e c rest). Qed.
Print Assumptions C20_combinator_translates_first_context.

(* non-vacuity: validate([1], {"type": "object"}) - the document itself is an array; and an anyOf under the key "a" whose
   first branch is {"type": ["integer", "null"]}: the context record has the empty (relative) path *)
Example C20_type_keyless_example :
  let root := VErr VType (JStr (codes "object")) (JArr [JInt 1]) (Some (JStr (codes "object"))) [] false [] [] [] [] in
  let tl := JArr [JStr (codes "integer"); JStr (codes "null")] in
  let branch := VErr VType tl (JStr (codes "x")) (Some tl) [] false [] [] [] [] in
  let any := VErr VAnyOf (JArr []) (JStr (codes "x")) None [] false [] [PKey (codes "a")] [] [branch; root] in
  wf_verr (fun _ _ => false) root = true /\
  process_error root = Lib (EInvalidType (JArr [JInt 1]) (JStr (codes "object")) (m_type false)) /\
  wf_verr (fun _ _ => false) any = true /\
  process_error any = Lib (EInvalidType (JStr (codes "x")) tl (m_type false)).
Proof. vm_compute. repeat split; reflexivity. Qed.

(* the regular expression of process_error, run on the message jsonschema builds from identifier-like keys, returns
   exactly those keys (for every list of keys) *)
Theorem C20_findall_addl_message ks : forallb ident ks = true -> findall_keys (addl_message ks) = ks.
Proof. exact (findall_addl_message ks). Qed.
Print Assumptions C20_findall_addl_message.

(* FULL STATEMENT (not proved in full): for every additionalProperties:false error whose unknown keys are all
   identifier-like (Python's \w+, which is Unicode), InvalidKeyError.invalid_key is one of the unknown keys.
   PROVED (the two theorems below): the statement for ASCII identifier-like keys [A-Za-z0-9_]+, for schemas without
   (first theorem) and with or without (second theorem) patternProperties, whatever the patterns are.
   MISSING: non-ASCII word characters only (Python's \w is Unicode; the model's wordchar is ASCII); they are decided by
   the searcher's oracle only.

   Unknown keys = instance keys that are neither declared properties nor matched by the joined patterns
   (jsonschema._utils.find_additional_properties; pm is the regular-expression oracle; extras_pat).  jsonschema lists
   them sorted; with patternProperties its message is  "'a', 'b' do not match any of the regexes: 'p1', 'p2'", and the
   regular expression u?'(\w+)',? of process_error returns the keys FOLLOWED by whatever quoted words the pattern part
   contains (C20_findall_addl_message_pat: exactly the identifier-like patterns, when the patterns have plain reprs). *)
Theorem C20_additional_exposes_key_partial pm e :
  wf_verr pm e = true -> v_kind e = VAdditional -> v_spat e = false ->
  forallb ident (extras_of (v_inst e) (v_sprops e)) = true ->
  exists k kvs m,
    v_inst e = JObj kvs /\
    process_error e = Lib (EInvalidKey (Some k) m) /\
    In k (keys kvs) /\ ~ In k (v_sprops e) /\ ident k = true /\
    hd_error (sort_strs (extras_of (v_inst e) (v_sprops e))) = Some k.
Proof. exact (additional_exposes_key_partial pm e). Qed.
Print Assumptions C20_additional_exposes_key_partial.

(* with or without patternProperties, whatever the patterns: invalid_key is the smallest unknown key - a key of the
   instance that is not a declared property and that the patterns do not match; the regular expression returns the
   sorted unknown keys first (and nothing else when the schema has no patternProperties).
   The premise wf_verr contains "there is an unknown key": jsonschema yields this error only `elif not aP and extras`,
   so a raised error always has one; see C20_additional_no_unknown_key_* for records without. *)
Theorem C20_additional_exposes_key_patterns_partial pm e :
  wf_verr pm e = true -> v_kind e = VAdditional ->
  forallb ident (extras_pat pm (v_inst e) (v_sprops e) (v_spats e)) = true ->
  exists k kvs m rest,
    v_inst e = JObj kvs /\
    process_error e = Lib (EInvalidKey (Some k) m) /\
    In k (keys kvs) /\ ~ In k (v_sprops e) /\ pat_matched pm (v_spats e) k = false /\ ident k = true /\
    hd_error (sort_strs (extras_pat pm (v_inst e) (v_sprops e) (v_spats e))) = Some k /\
    findall_keys (v_message e) = sort_strs (extras_pat pm (v_inst e) (v_sprops e) (v_spats e)) ++ rest /\
    (v_spat e = false -> rest = []).
Proof. exact (additional_exposes_key_patterns pm e). Qed.
Print Assumptions C20_additional_exposes_key_patterns_partial.

(* the whole list the regular expression returns on the patternProperties message, for every list of identifier-like
   keys (empty included) and every list of patterns with plain reprs (printable ASCII, no single quote, no backslash):
   the keys, then exactly the identifier-like patterns (e.g. `abc`, `_`) *)
Theorem C20_findall_addl_message_pat ks pats :
  forallb ident ks = true -> forallb plain_pat pats = true ->
  exists m, addl_message_pat ks pats = Some m /\ findall_keys m = ks ++ filter ident pats.
Proof. exact (findall_addl_message_pat ks pats). Qed.
Print Assumptions C20_findall_addl_message_pat.

(* a record WITHOUT unknown key (never raised by jsonschema; outside wf_verr) with the patternProperties message
   exposes a PATTERN: the first identifier-like one in sorted order - or None when there is none *)
Theorem C20_additional_no_unknown_key_general vv inst sty sp pts path ctx m :
  is_false vv = true -> forallb plain_pat pts = true -> addl_message_pat [] pts = Some m ->
  process_error (VErr VAdditional vv inst sty sp true pts path m ctx) =
  Lib (EInvalidKey (hd_error (filter ident pts)) m_unknown_keys).
Proof. exact (additional_no_unknown_key_general vv inst sty sp pts path ctx m). Qed.
Print Assumptions C20_additional_no_unknown_key_general.

(* ... concretely: instance {"abc1": null}, patternProperties {"abc": ...}: no unknown key, invalid_key = "abc" (a
   pattern, not a key of the instance); the record is not well-formed *)
Theorem C20_additional_no_unknown_key_exposes_pattern :
  let pm := fun _ _ => true in
  v_kind no_unknown_key_error = VAdditional /\
  extras_pat pm (v_inst no_unknown_key_error) (v_sprops no_unknown_key_error) (v_spats no_unknown_key_error) = [] /\
  addl_message_pat [] (v_spats no_unknown_key_error) = Some (v_message no_unknown_key_error) /\
  process_error no_unknown_key_error = Lib (EInvalidKey (Some (codes "abc"%string)) m_unknown_keys) /\
  In (codes "abc"%string) (v_spats no_unknown_key_error) /\
  wf_verr pm no_unknown_key_error = false.
Proof. exact additional_no_unknown_key_exposes_pattern. Qed.
Print Assumptions C20_additional_no_unknown_key_exposes_pattern.

(* the contract on jsonschema is satisfiable (so the two validate theorems are not vacuous) *)
Theorem C20_contract_satisfiable rxm pm :
  (forall v s, js_trivial rxm pm v s = JsOk <-> conforms rxm pm s v = true) /\
  (forall v s e, js_trivial rxm pm v s = JsError e -> wf_verr pm e = true).
Proof. exact (js_trivial_contract rxm pm). Qed.
Print Assumptions C20_contract_satisfiable.

(* the record of the repaired defect: jsonschema's draft-3 `required: true` raises a record whose validator_value is a
   boolean; it is well-formed and is translated to MissingJsonKeyError exposing "a" (process_error used to iterate the
   boolean: TypeError).
   On the code: validate({}, {"$schema": "http://json-schema.org/draft-03/schema#", "properties": {"a": {"required": true}}}) *)
Theorem C20_draft3_required_translated :
  (forall pm, wf_verr pm draft3_required_error = true) /\
  process_error draft3_required_error = Lib (EMissingKey (Some (JStr (codes "a"%string))) m_missing).
Proof. exact draft3_required_translated. Qed.
Print Assumptions C20_draft3_required_translated.

(* non-vacuity: an anyOf error two levels deep whose first branch is a `required` failure; an unknown-key error with two
   identifier-like keys (one of them "u", the optional prefix of the regular expression); the same with
   patternProperties {"^x", "_", "abc"}: two keys are allowed by a pattern, the unknown ones are b and u, and the regular
   expression returns b, u and then the identifier-like patterns _ and abc; a value / schema pair with patternProperties;
   a draft-3 `required` record two levels down (under key "b c", array position 1) inside an anyOf context, its key "it's"
   exposed; draft-3 flags: `required: false` constrains nothing, `required: true` rejects the object lacking the property *)
Local Open Scope string_scope.
Example C20_example :
  let k s := codes s in
  let pm := fun (_ : list str) (key : str) =>
              (match key with c :: _ => N.eqb c 120 | [] => false end || existsb (N.eqb 95) key)%bool in
  let req := VErr VRequired (JArr [JStr (k "a"); JStr (k "b")]) (JObj [(k "a", JInt 1)]) None [] false [] [] [] [] in
  let any2 := VErr VAnyOf (JArr []) JNull None [] false [] [] []
                [VErr VOneOf (JArr []) JNull None [] false [] [] [] [req]; req] in
  let req3 := VErr VRequired (JBool true) (JObj [(k "x", JInt 1)]) None [k "x"; k "it's"] false []
                [PKey (k "b c"); PIdx 1; PKey (k "it's")] (k """it's"" is a required property") [] in
  let any3 := VErr VAnyOf (JArr []) JNull None [] false [] [] [] [req3] in
  let addl := VErr VAdditional (JBool false) (JObj [(k "u", JNull); (k "p", JNull); (k "key_1", JNull)]) None [k "p"] false [] []
                (addl_message [k "key_1"; k "u"]) [] in
  let pats := [k "^x"; k "_"; k "abc"] in
  let addlp := VErr VAdditional (JBool false)
                 (JObj [(k "x1", JNull); (k "u", JNull); (k "p", JNull); (k "key_1", JNull); (k "b", JNull)]) None [k "p"] true pats []
                 (k "'b', 'u' do not match any of the regexes: '^x', '_', 'abc'") [] in
  wf_verr pm any2 = true /\
  process_error any2 = Lib (EMissingKey (Some (JStr (k "b"))) m_missing) /\
  wf_verr pm any3 = true /\
  process_error any3 = Lib (EMissingKey (Some (JStr (k "it's"))) m_missing) /\
  conforms (fun _ _ => true) pm
           (SAnd [SProps [(k "a", SAnd [SType [TInteger]; SAnnot]); (k "b", SAnd [SAnnot])] [] None; SRequired3 [(k "a", true); (k "b", false)]])
           (JObj [(k "a", JInt 3)]) = true /\
  conforms (fun _ _ => true) pm
           (SAnd [SProps [(k "a", SAnd [SType [TInteger]; SAnnot]); (k "b", SAnd [SAnnot])] [] None; SRequired3 [(k "a", true); (k "b", false)]])
           (JObj [(k "b", JInt 3)]) = false /\
  wf_verr pm addl = true /\
  process_error addl = Lib (EInvalidKey (Some (k "key_1")) m_unknown_keys) /\
  wf_verr pm addlp = true /\
  extras_pat pm (v_inst addlp) (v_sprops addlp) (v_spats addlp) = [k "u"; k "b"] /\
  addl_message_pat [k "b"; k "u"] pats = Some (v_message addlp) /\
  findall_keys (v_message addlp) = [k "b"; k "u"; k "_"; k "abc"] /\
  process_error addlp = Lib (EInvalidKey (Some (k "b")) m_unknown_keys) /\
  conforms (fun _ _ => true) pm
           (SAnd [SType [TObject]; SRequired [k "a"]; SProps [(k "a", SType [TInteger])] [(k "^x", SType [TString])] (Some (SBool false))])
           (JObj [(k "a", JFloat (2#1)); (k "x1", JStr (k "s"))]) = true /\
  conforms (fun _ _ => true) pm
           (SProps [(k "a", SType [TInteger])] [(k "^x", SType [TString])] (Some (SBool false)))
           (JObj [(k "x1", JStr (k "s")); (k "b", JNull)]) = false /\
  conforms (fun _ _ => true) pm (SOneOf [SType [TInteger]; SMin (1#2)]) (JInt 1) = false.
Proof. vm_compute. repeat split; reflexivity. Qed.
